From Coq Require Import List NArith ZArith Bool Lia DecimalFacts DecimalPos DecimalN.
Import ListNotations.
Require Import V.lib.Bytes V.lib.Dec.
Open Scope N_scope.

Lemma bytes_uint_of_uint_bytes : forall u, bytes_uint (uint_bytes u) = Some u.
Proof. induction u; cbn [uint_bytes bytes_uint]; try rewrite IHu; reflexivity. Qed.

Lemma uint_bytes_digits : forall u, forallb is_digit (uint_bytes u) = true.
Proof. induction u; cbn [uint_bytes forallb]; try rewrite IHu; reflexivity. Qed.

Lemma to_uint_nonnil : forall n, N.to_uint n <> Decimal.Nil.
Proof. intros [|p]; cbn; [discriminate|apply DecimalPos.Unsigned.to_uint_nonnil]. Qed.

Lemma dec_nonempty : forall n, dec n <> [].
Proof.
  intros n. unfold dec. pose proof (to_uint_nonnil n) as H. destruct (N.to_uint n); cbn; congruence.
Qed.

Lemma dec_digits : forall n, forallb is_digit (dec n) = true.
Proof. intros. apply uint_bytes_digits. Qed.

Lemma undec_dec : forall n, undec (dec n) = Some n.
Proof.
  intros n. unfold undec. pose proof (dec_nonempty n) as H. destruct (dec n) eqn:E; [congruence|].
  rewrite <- E. unfold dec. rewrite bytes_uint_of_uint_bytes. f_equal. apply DecimalN.Unsigned.of_to.
Qed.

Lemma dec_hd_digit : forall n, exists c r, dec n = c :: r /\ is_digit c = true.
Proof.
  intros n. pose proof (dec_nonempty n) as H. pose proof (dec_digits n) as D.
  destruct (dec n) as [|c r]; [congruence|]. exists c, r. split; [reflexivity|].
  cbn [forallb] in D. apply andb_prop in D. tauto.
Qed.

(* no zero padding: a leading 0 only for 0 itself *)
Lemma to_uint_D0 : forall n r, N.to_uint n = Decimal.D0 r -> r = Decimal.Nil.
Proof.
  intros n r H.
  assert (U : N.to_uint n = Decimal.unorm (N.to_uint n)).
  { rewrite <- (DecimalN.Unsigned.of_to n) at 1. apply DecimalN.Unsigned.to_of. }
  rewrite H in U. rewrite unorm_D0 in U. unfold Decimal.unorm in U.
  destruct (Decimal.nzhead r) eqn:Z; try discriminate U.
  - inversion U. reflexivity.
  - inversion U; subst. pose proof (nb_digits_nzhead u) as L. rewrite Z in L. cbn in L. lia.
Qed.

Lemma dec_leading_zero : forall n c r, dec n = 48 :: c :: r -> False.
Proof.
  intros n c r H. unfold dec in H. destruct (N.to_uint n) eqn:E; cbn in H; try discriminate.
  apply to_uint_D0 in E. subst. cbn in H. discriminate.
Qed.
