(* C26 - proofs about models/Access.v over the generated endpoint table gen/Endpoints.v. Built around an independent
   specification (cred_string, peer, level_ok, allowed) that the parser and the checkers are proved equivalent to, and
   serve_remote, which says what RemoteAddr a handler sees. *)
From Coq Require Import List NArith Bool String Lia ZifyBool ZifyN.
Import ListNotations.
Require Import V.lib.Bytes V.proofs.BytesFacts V.lib.Dec V.proofs.DecProofs V.gen.Endpoints V.models.Access.
Open Scope N_scope.

Lemma mem_In : forall x l, mem x l = true <-> In x l.
Proof.
  induction l as [|y l IH]; cbn; split; intro H; try discriminate; try contradiction.
  - apply orb_true_iff in H. destruct H as [H|H]; [left; symmetry; apply beq_true_iff; exact H | right; apply IH; exact H].
  - apply orb_true_iff. destruct H as [H|H]; [left; subst; apply beq_refl | right; apply IH; exact H].
Qed.

Lemma strip_prefix_some : forall p l r, strip_prefix p l = Some r -> l = p ++ r.
Proof.
  induction p as [|x p IH]; intros l r H; cbn in *.
  - congruence.
  - destruct l as [|y l]; [discriminate|]. destruct (x =? y) eqn:E; [|discriminate].
    apply N.eqb_eq in E. subst y. cbn. f_equal. apply IH. exact H.
Qed.

Lemma strip_prefix_app : forall p r, strip_prefix p (p ++ r) = Some r.
Proof. induction p as [|x p IH]; intro r; cbn; [reflexivity|]. rewrite N.eqb_refl. apply IH. Qed.

Lemma digit_not_semi : forall c, is_digit c = true -> not_semi c = true.
Proof. intros c H. unfold is_digit, not_semi, semi in *. lia. Qed.

Lemma not_semi_false : forall c, not_semi c = false -> c = semi.
Proof. intros c H. unfold not_semi in H. apply negb_false_iff in H. apply N.eqb_eq in H. exact H. Qed.

(* the language of raddrRegexp, declaratively: s = pid=<digits>;uid=<digits>;socket=<no ;>;[iface=<no ;>;] *)
Definition digits (d : bytes) : Prop := d <> [] /\ forallb is_digit d = true.

Definition iface_tail (ifs : option bytes) : bytes :=
  match ifs with None => [] | Some g => bs "iface=" ++ g ++ [semi] end.

Definition cred_string (s pd ud sock : bytes) (ifs : option bytes) : Prop :=
  digits pd /\ digits ud /\ forallb not_semi sock = true /\
  match ifs with None => True | Some g => forallb not_semi g = true end /\
  s = bs "pid=" ++ pd ++ bs ";uid=" ++ ud ++ bs ";socket=" ++ sock ++ semi :: iface_tail ifs.

Lemma nil_b_false : forall {A} (l : list A), is_nil_b l = false -> l <> [].
Proof. intros A [|x l] H; [discriminate|congruence]. Qed.

Lemma match_raddr_sound : forall s ra, match_raddr s = Some ra ->
  cred_string s (ra_pid ra) (ra_uid ra) (ra_socket ra) (ra_iface ra).
Proof.
  unfold match_raddr. intros s ra H.
  destruct (strip_prefix (bs "pid=") s) as [r1|] eqn:E1; [|discriminate].
  destruct (span is_digit r1) as [pid r2] eqn:S1.
  destruct (is_nil_b pid) eqn:N1; [discriminate|].
  destruct (strip_prefix (bs ";uid=") r2) as [r3|] eqn:E2; [|discriminate].
  destruct (span is_digit r3) as [uid r4] eqn:S2.
  destruct (is_nil_b uid) eqn:N2; [discriminate|].
  destruct (strip_prefix (bs ";socket=") r4) as [r5|] eqn:E3; [|discriminate].
  destruct (span not_semi r5) as [sock r6] eqn:S3.
  destruct r6 as [|c r7]; [discriminate|].
  apply strip_prefix_some in E1, E2, E3.
  apply span_spec in S1, S2, S3.
  destruct S1 as (S1a & S1b & _). destruct S2 as (S2a & S2b & _). destruct S3 as (S3a & S3b & S3c).
  apply not_semi_false in S3c. subst c.
  apply nil_b_false in N1, N2.
  destruct r7 as [|c2 r7'].
  - inversion H; subst; cbn [ra_pid ra_uid ra_socket ra_iface].
    unfold cred_string, digits, iface_tail. repeat split; auto.
  - destruct (strip_prefix (bs "iface=") (c2 :: r7')) as [r8|] eqn:E4; [|discriminate].
    destruct (span not_semi r8) as [ifs r9] eqn:S4.
    destruct r9 as [|c3 [|c4 r10]]; try discriminate.
    apply strip_prefix_some in E4. apply span_spec in S4. destruct S4 as (S4a & S4b & S4c).
    apply not_semi_false in S4c. subst c3.
    inversion H; subst; cbn [ra_pid ra_uid ra_socket ra_iface].
    unfold cred_string, digits, iface_tail. repeat split; auto.
    rewrite E4. reflexivity.
Qed.

Lemma forallb_digit_head : forall d, digits d -> exists c r, d = c :: r.
Proof. intros [|c r] [H _]; [congruence|eauto]. Qed.

Lemma span_before : forall (p : N -> bool) a k r, forallb p a = true ->
  match k with c :: _ => p c = false | [] => False end -> span p (a ++ k ++ r) = (a, k ++ r).
Proof. intros p a [|c k] r Ha Hc; [contradiction|]. exact (span_app_stop p a c (k ++ r) Ha Hc). Qed.

Lemma match_raddr_complete : forall s pd ud sock ifs, cred_string s pd ud sock ifs ->
  match_raddr s = Some (mkRaddr pd ud sock ifs).
Proof.
  intros s pd ud sock ifs ([Hp0 Hp1] & [Hu0 Hu1] & Hs & Hi & ->). unfold match_raddr.
  rewrite strip_prefix_app, (span_before _ _ (bs ";uid=") _ Hp1 eq_refl).
  destruct pd as [|p0 pd]; [congruence|]. cbn [is_nil_b].
  rewrite strip_prefix_app, (span_before _ _ (bs ";socket=") _ Hu1 eq_refl).
  destruct ud as [|u0 ud]; [congruence|]. cbn [is_nil_b].
  rewrite strip_prefix_app, (span_app_stop not_semi sock semi _ Hs eq_refl).
  destruct ifs as [g|]; [|reflexivity]. cbn [iface_tail].
  rewrite strip_prefix_app, (span_app_stop not_semi g semi [] Hi eq_refl). reflexivity.
Qed.

(* the request carries the peer credentials u: its RemoteAddr is a credential string whose pid and uid fields are decimal
   spellings of u's pid (a real process id: 0 < pid < 2^31) and uid (anything but nobody = 2^32-1) and whose socket
   field is u's socket. Independent of the model's parser. *)
Definition peer (x : ctx) (u : ucred) : Prop :=
  exists pd ud ifs, cred_string (x_remote x) pd ud (u_socket u) ifs /\
    undec pd = Some (u_pid u) /\ undec ud = Some (u_uid u) /\
    0 < u_pid u < 2147483648 /\ u_uid u < 4294967295.

Lemma get_with_ifaces_some : forall s u l, ucrednet_get_with_interfaces s = Some (u, l) ->
  exists pd ud ifs, cred_string s pd ud (u_socket u) ifs /\
    undec pd = Some (u_pid u) /\ undec ud = Some (u_uid u) /\
    0 < u_pid u < 2147483648 /\ u_uid u < 4294967295 /\
    l = match ifs with Some g => split_amp g | None => [] end.
Proof.
  unfold ucrednet_get_with_interfaces. intros s u l H.
  destruct (match_raddr s) as [ra|] eqn:M; [|discriminate].
  apply match_raddr_sound in M.
  destruct ((parse_pid (ra_pid ra) =? ucrednet_no_process) || (parse_uid (ra_uid ra) =? ucrednet_nobody)) eqn:E; [discriminate|].
  inversion H; subst; clear H. cbn [u_pid u_uid u_socket].
  apply orb_false_iff in E. destruct E as [E1 E2].
  apply N.eqb_neq in E1. apply N.eqb_neq in E2.
  unfold parse_pid, ucrednet_no_process in *. unfold parse_uid, ucrednet_nobody in *.
  exists (ra_pid ra), (ra_uid ra), (ra_iface ra).
  destruct (undec (ra_pid ra)) as [n|] eqn:U1; [|congruence].
  destruct (undec (ra_uid ra)) as [k|] eqn:U2; [|congruence].
  destruct (n <? 2147483648) eqn:L1; [|congruence].
  destruct (k <? 4294967296) eqn:L2; [|congruence].
  split; [exact M|]. split; [reflexivity|]. split; [reflexivity|].
  split; [lia|]. split; [lia|reflexivity].
Qed.

Lemma get_some_peer : forall x u, ucrednet_get (x_remote x) = Some u -> peer x u.
Proof.
  unfold ucrednet_get. intros x u H.
  destruct (ucrednet_get_with_interfaces (x_remote x)) as [[u' l]|] eqn:G; [|discriminate].
  inversion H; subst. apply get_with_ifaces_some in G.
  destruct G as (pd & ud & ifs & G1 & G2 & G3 & G4 & G5 & _). exists pd, ud, ifs. auto.
Qed.

Lemma peer_get_with_ifaces : forall s u pd ud ifs,
  cred_string s pd ud (u_socket u) ifs -> undec pd = Some (u_pid u) -> undec ud = Some (u_uid u) ->
  0 < u_pid u < 2147483648 -> u_uid u < 4294967295 ->
  ucrednet_get_with_interfaces s = Some (u, match ifs with Some g => split_amp g | None => [] end).
Proof.
  intros s u pd ud ifs C U1 U2 R1 R2.
  unfold ucrednet_get_with_interfaces. rewrite (match_raddr_complete _ _ _ _ _ C).
  cbn [ra_pid ra_uid ra_socket ra_iface]. unfold parse_pid, parse_uid. rewrite U1, U2.
  replace (u_pid u <? 2147483648) with true by lia. replace (u_uid u <? 4294967296) with true by lia.
  unfold ucrednet_no_process, ucrednet_nobody.
  replace (u_pid u =? 0) with false by lia. replace (u_uid u =? 4294967295) with false by lia.
  cbn [orb]. destruct u; reflexivity.
Qed.

Lemma peer_get : forall x u, peer x u -> ucrednet_get (x_remote x) = Some u.
Proof.
  intros x u (pd & ud & ifs & C & U1 & U2 & R1 & R2). unfold ucrednet_get.
  rewrite (peer_get_with_ifaces _ _ _ _ _ C U1 U2 R1 R2). reflexivity.
Qed.

Lemma peer_unique : forall x u v, peer x u -> peer x v -> u = v.
Proof. intros x u v Hu Hv. apply peer_get in Hu. apply peer_get in Hv. congruence. Qed.

Definition connected (x : ctx) (names : list bytes) : Prop :=
  exists sn c, x_snap_of_pid x = Some sn /\ In c (x_conns x) /\ c_plug_snap c = sn /\ In (c_iface c) names /\
               c_undesired c = false /\ c_hotplug_gone c = false.

Definition authenticated (x : ctx) (u : ucred) (k : bytes) : Prop :=
  x_user x = true \/ u_uid u = 0 \/ (k <> [] /\ x_polkit x k = PkYes).

Definition level_ok (p : access) (x : ctx) (u : ucred) : Prop :=
  match p with
  | ANil => False
  | AOpen => u_socket u = snapd_socket
  | AAuth k => u_socket u = snapd_socket /\ authenticated x u k
  | ARoot => u_socket u = snapd_socket /\ u_uid u = 0
  | ASnap => u_socket u = snap_socket
  | AIfaceOpen names => u_socket u = snapd_socket \/ (u_socket u = snap_socket /\ connected x names)
  | AIfaceAuth names k =>
      (u_socket u = snapd_socket \/ (u_socket u = snap_socket /\ connected x names)) /\ authenticated x u k
  end.

Definition allowed (p : access) (x : ctx) : Prop := exists u, peer x u /\ level_ok p x u.

Lemma beqP : forall a b, reflect (a = b) (beq a b).
Proof. intros a b. apply iff_reflect. symmetry. apply beq_true_iff. Qed.

Lemma auth_tail_iff : forall x u k, auth_tail x u k = None <-> authenticated x u k.
Proof.
  unfold auth_tail, authenticated, check_polkit_action. intros x u k.
  destruct (x_user x); [intuition congruence|].
  destruct (N.eqb_spec (u_uid u) 0) as [E|E]; [intuition congruence|].
  destruct k as [|c k]; cbn [is_nil_b negb]; [intuition congruence|].
  destruct (x_polkit x (c :: k)); intuition congruence.
Qed.

Lemma matching_conns_In : forall x sn names i, In i (matching_conns x sn names) <->
  exists c, In c (x_conns x) /\ c_iface c = i /\ c_plug_snap c = sn /\ In i names /\
            c_undesired c = false /\ c_hotplug_gone c = false.
Proof.
  intros x sn names i. unfold matching_conns. rewrite in_map_iff. split.
  - intros (c & <- & Hc). apply filter_In in Hc. destruct Hc as [Hin Hc].
    apply andb_true_iff in Hc. destruct Hc as [Hc H3]. apply andb_true_iff in Hc. destruct Hc as [H1 H2].
    unfold conn_active in H1. apply negb_true_iff in H1. apply orb_false_iff in H1. destruct H1 as [H1a H1b].
    apply mem_In in H2. apply beq_true_iff in H3. exists c. auto 10.
  - intros (c & Hin & <- & <- & Hi & Hu & Hg). exists c. split; [reflexivity|]. apply filter_In. split; [exact Hin|].
    unfold conn_active. rewrite Hu, Hg, (proj2 (mem_In _ _) Hi), beq_refl. reflexivity.
Qed.

Lemma matching_conn_connected : forall x sn names i,
  x_snap_of_pid x = Some sn -> In i (matching_conns x sn names) -> In i names /\ connected x [i].
Proof.
  intros x sn names i Hs Hin. apply matching_conns_In in Hin. destruct Hin as (c & Hin & <- & Hp & Hi & Hu & Hg).
  split; [exact Hi|]. exists sn, c. repeat split; auto. left. reflexivity.
Qed.

Lemma connected_matching : forall x sn names, x_snap_of_pid x = Some sn ->
  is_nil_b (matching_conns x sn names) = false <-> connected x names.
Proof.
  intros x sn names Hs. destruct (matching_conns x sn names) as [|i r] eqn:F; cbn [is_nil_b]; split; try discriminate; intro H.
  - destruct H as (sn' & c & S & Hin & Hp & Hi & Hu & Hg). rewrite Hs in S. injection S as <-.
    assert (Hf : In (c_iface c) (matching_conns x sn names)) by (apply matching_conns_In; exists c; auto 10).
    rewrite F in Hf. destruct Hf.
  - assert (Hin : In i (matching_conns x sn names)) by (rewrite F; left; reflexivity).
    apply matching_conns_In in Hin. destruct Hin as (c & Hin & <- & Hp & Hi & Hu & Hg). exists sn, c. auto 10.
  - reflexivity.
Qed.

Lemma snapd_not_snap : beq snap_socket snapd_socket = false.
Proof. vm_compute. reflexivity. Qed.

Lemma require_iface_iff : forall x r u names,
  fst (require_interface_api_access x r (Some u) names) = None <->
  u_socket u = snapd_socket \/ (u_socket u = snap_socket /\ connected x names).
Proof.
  unfold require_interface_api_access. intros x r u names.
  destruct (beqP (u_socket u) snapd_socket) as [E1|E1]; [cbn [fst]; intuition congruence|].
  destruct (beqP (u_socket u) snap_socket) as [E2|E2]; [|cbn [fst]; intuition congruence].
  destruct (x_snap_of_pid x) as [sn|] eqn:S; cbn [fst].
  - rewrite <- (connected_matching x sn names S). destruct (is_nil_b (matching_conns x sn names)); intuition congruence.
  - split; [discriminate|]. intros [H|[_ (sn & c & S' & _)]]; congruence.
Qed.

Lemma check_access_iff : forall a x r uc,
  fst (check_access a x r uc) = None <-> exists u, uc = Some u /\ level_ok a x u.
Proof.
  intros a x r [u|]; [|split; [destruct a; cbn; discriminate | intros (u & [=] & _)]].
  transitivity (level_ok a x u); [|split; [eauto | intros (v & [= <-] & L); exact L]].
  pose proof (require_iface_iff x r u) as I. pose proof (auth_tail_iff x u) as A.
  destruct a as [| |k| | |names|names k]; cbn [check_access level_ok require_snapd_socket].
  - split; [discriminate|contradiction].
  - destruct (beqP (u_socket u) snapd_socket) as [E|E]; cbn [fst]; intuition congruence.
  - destruct (beqP (u_socket u) snapd_socket) as [E|E]; cbn [fst]; rewrite ?A; intuition congruence.
  - destruct (beqP (u_socket u) snapd_socket) as [E|E]; cbn [fst]; [|intuition congruence].
    destruct (N.eqb_spec (u_uid u) 0) as [Z|Z]; intuition congruence.
  - destruct (beqP (u_socket u) snap_socket) as [E|E]; cbn [fst]; intuition congruence.
  - exact (I names).
  - specialize (I names). destruct (require_interface_api_access x r (Some u) names) as [[d|] r'']; cbn [fst] in *.
    + split; [discriminate|]. intros [L _]. apply I in L. discriminate L.
    + rewrite A. split; [intro Au; split; [apply I; reflexivity|exact Au]|intros [_ Au]; exact Au].
Qed.

Lemma serve_handler_iff : forall e m x, fst (serve e m x) = Handler <->
  x_degraded x && negb (is_get m) = false /\ registered e m = true /\
  fst (check_access (declared e m) x (x_remote x) (ucrednet_get (x_remote x))) = None.
Proof.
  intros e m x. unfold serve.
  destruct (x_degraded x && negb (is_get m)); [split; [discriminate | intros (D & _); discriminate D]|].
  destruct (registered e m); cbn [negb]; [|split; [discriminate | intros (_ & R & _); discriminate R]].
  destruct (declared e m); [split; [discriminate | intros (_ & _ & C); discriminate C]|..];
    (destruct (check_access _ x (x_remote x) _) as [[d|] r'']; cbn [fst]; split;
     [discriminate | intros (_ & _ & C); discriminate C | auto | reflexivity]).
Qed.

Lemma degraded_get : forall m x, x_degraded x && negb (is_get m) = false <-> (x_degraded x = true -> m = GET).
Proof. intros [| | |] x; destruct (x_degraded x); cbn; split; auto; try discriminate; intro H; discriminate (H eq_refl). Qed.

Theorem decision_is_declared_level : forall e m x,
  fst (serve e m x) = Handler <->
  (registered e m = true /\ allowed (declared e m) x /\ (x_degraded x = true -> m = GET)).
Proof.
  intros e m x. rewrite serve_handler_iff, check_access_iff, degraded_get. unfold allowed. split.
  - intros (D & R & u & G & L). apply get_some_peer in G. eauto 8.
  - intros (R & (u & P & L) & D). apply peer_get in P. eauto 8.
Qed.

Theorem served_implies_declared : forall e m x,
  fst (serve e m x) = Handler ->
  registered e m = true /\ allowed (declared e m) x /\ (x_degraded x = true -> m = GET).
Proof. intros e m x. apply decision_is_declared_level. Qed.

Theorem snap_socket_only_gated : forall e m x u,
  fst (serve e m x) = Handler -> peer x u -> u_socket u = snap_socket ->
  declared e m = ASnap \/
  exists names, (declared e m = AIfaceOpen names \/ exists k, declared e m = AIfaceAuth names k /\ authenticated x u k)
                /\ connected x names.
Proof.
  intros e m x u H Hp Hs. apply served_implies_declared in H. destruct H as (_ & (v & Hv & L) & _).
  assert (v = u) by (eapply peer_unique; eassumption). subst v.
  assert (Hne : u_socket u <> snapd_socket) by (rewrite Hs; apply beq_false_iff, snapd_not_snap).
  destruct (declared e m) as [| |k| | |names|names k]; cbn [level_ok] in L.
  - contradiction.
  - contradiction.
  - destruct L; contradiction.
  - destruct L; contradiction.
  - left. reflexivity.
  - right. exists names. destruct L as [L|[_ L]]; [contradiction|]. split; [left; reflexivity|exact L].
  - right. exists names. destruct L as [[L|[_ L]] A]; [contradiction|]. split; [right; exists k; auto|exact L].
Qed.

Lemma subset_In : forall l1 l2 x, subset l1 l2 = true -> In x l1 -> In x l2.
Proof.
  unfold subset. intros l1 l2 x H Hin. rewrite forallb_forall in H. apply mem_In. apply H. exact Hin.
Qed.

Lemma connected_mono : forall x n1 n2, subset n1 n2 = true -> connected x n1 -> connected x n2.
Proof.
  intros x n1 n2 S (sn & c & H1 & H2 & H3 & H4 & H5 & H6). exists sn, c. repeat split; auto.
  eapply subset_In; eassumption.
Qed.

Lemma authenticated_mono : forall x u k1 k2, pk_le k1 k2 = true -> authenticated x u k1 -> authenticated x u k2.
Proof.
  unfold pk_le, authenticated. intros x u k1 k2 H [A|[A|[A1 A2]]]; auto.
  apply orb_true_iff in H. destruct H as [H|H].
  - destruct k1; [congruence|discriminate].
  - apply beq_true_iff in H. subst. auto.
Qed.

Lemma root_authenticated : forall x u k, u_uid u = 0 -> authenticated x u k.
Proof. unfold authenticated. auto. Qed.

Theorem acc_le_sound : forall a p x u, acc_le a p = true -> level_ok a x u -> level_ok p x u.
Proof.
  intros a p x u H L.
  destruct a as [| |k1| | |n1|n1 k1]; destruct p as [| |k2| | |n2|n2 k2]; cbn [acc_le] in H; try discriminate;
    cbn [level_ok] in *; try (apply andb_true_iff in H; destruct H as [H1 H2]);
    intuition eauto using authenticated_mono, connected_mono, root_authenticated.
Qed.

(* computed on gen/Endpoints.v as regenerated from the source: every registered verb of every endpoint has a checker,
   its path is classified by the policy, and the declared level is at least as strict as the policy's *)
Lemma table_ok_api : table_ok api = true.
Proof. vm_compute. reflexivity. Qed.

Lemma api_verb_policy : forall e m, In e api -> registered e m = true ->
  exists p, policy_for (ep_path e) m = Some p /\ acc_le (declared e m) p = true.
Proof.
  intros e m Hin R. pose proof table_ok_api as T. unfold table_ok in T. rewrite forallb_forall in T.
  specialize (T e Hin). unfold endpoint_ok in T. rewrite forallb_forall in T.
  assert (Hm : In m [GET; PUT; POST]) by (destruct m; cbn; auto 6; cbn in R; discriminate).
  specialize (T m Hm). rewrite R in T. cbn [negb orb] in T.
  destruct (policy_for (ep_path e) m) as [p|]; [|discriminate]. eauto.
Qed.

Theorem served_implies_policy : forall e, In e api -> forall m x,
  fst (serve e m x) = Handler ->
  exists p, policy_for (ep_path e) m = Some p /\ allowed p x.
Proof.
  intros e Hin m x H. apply served_implies_declared in H. destruct H as (R & (u & Hp & L) & _).
  destruct (api_verb_policy e m Hin R) as (p & P1 & P2).
  exists p. split; [exact P1|]. exists u. split; [exact Hp|]. eapply acc_le_sound; eassumption.
Qed.

(* CheckAccess is called on a nil interface only for a registered verb whose access field is not set *)
Lemma serve_nil_checker : forall e m x, fst (serve e m x) = NilChecker -> registered e m = true /\ declared e m = ANil.
Proof.
  intros e m x H. unfold serve in H.
  destruct (x_degraded x && negb (is_get m)); [discriminate|].
  destruct (registered e m); cbn [negb] in H; [|discriminate].
  destruct (declared e m); [auto|..]; (destruct (check_access _ x (x_remote x) _) as [[d|] r']; discriminate).
Qed.

Theorem table_no_nil_checker : forall e, In e api -> forall m x, fst (serve e m x) <> NilChecker.
Proof.
  intros e Hin m x H. apply serve_nil_checker in H as [R A].
  destruct (api_verb_policy e m Hin R) as (p & _ & P). rewrite A in P. discriminate P.
Qed.

Lemma digits_dec : forall n, digits (dec n).
Proof. intro n. split; [apply dec_nonempty|apply dec_digits]. Qed.

Theorem ucred_roundtrip : forall u,
  0 < u_pid u < 2147483648 -> u_uid u < 4294967295 -> forallb not_semi (u_socket u) = true ->
  ucrednet_get_with_interfaces (print_ucred u) = Some (u, []).
Proof.
  intros u Hp Hu Hs.
  apply (peer_get_with_ifaces (print_ucred u) u (dec (u_pid u)) (dec (u_uid u)) None); auto using undec_dec.
  unfold cred_string. repeat split; auto using digits_dec; try apply digits_dec.
Qed.

Lemma nil_ucred_no_creds : ucrednet_get_with_interfaces print_nil_ucred = None.
Proof. vm_compute. reflexivity. Qed.

Definition not_amp (c : N) : bool := negb (c =? amp).

Lemma split_amp_nonempty : forall g, split_amp g <> [].
Proof.
  induction g as [|c g IH]; cbn [split_amp]; [discriminate|].
  destruct (c =? amp); [discriminate|]. destruct (split_amp g); discriminate.
Qed.

Lemma split_amp_plain : forall x, forallb not_amp x = true -> split_amp x = [x].
Proof.
  induction x as [|c x IH]; intro H; [reflexivity|].
  cbn [forallb] in H. apply andb_true_iff in H. destruct H as [Hc Hx].
  cbn [split_amp]. unfold not_amp in Hc. apply negb_true_iff in Hc. rewrite Hc. rewrite (IH Hx). reflexivity.
Qed.

Lemma split_amp_app : forall a b, split_amp (a ++ amp :: b) = split_amp a ++ split_amp b.
Proof.
  induction a as [|c a IH]; intro b.
  - cbn [app split_amp]. rewrite N.eqb_refl. reflexivity.
  - cbn [app split_amp]. destruct (c =? amp).
    + rewrite IH. reflexivity.
    + rewrite IH. pose proof (split_amp_nonempty a) as Hn. destruct (split_amp a) as [|f fs]; [congruence|]. reflexivity.
Qed.

(* strings.Join after strings.Split gives the string back *)
Lemma join_split : forall g, join_amp (split_amp g) = g.
Proof.
  induction g as [|c g IH]; cbn [split_amp]; [reflexivity|].
  pose proof (split_amp_nonempty g) as Hn. destruct (split_amp g) as [|f fs]; [congruence|].
  destruct (c =? amp) eqn:E.
  - apply N.eqb_eq in E. subst c. change (join_amp ([] :: f :: fs)) with (amp :: join_amp (f :: fs)). rewrite IH. reflexivity.
  - rewrite <- IH. destruct fs; reflexivity.
Qed.

Lemma join_amp_snoc : forall l i, l <> [] -> join_amp (l ++ [i]) = join_amp l ++ amp :: i.
Proof.
  induction l as [|x l IH]; intros i Hn; [congruence|].
  destruct l as [|y l].
  - reflexivity.
  - change ((x :: y :: l) ++ [i]) with (x :: (y :: l) ++ [i]).
    change (join_amp (x :: (y :: l) ++ [i])) with (x ++ amp :: join_amp ((y :: l) ++ [i])).
    rewrite IH by discriminate.
    change (join_amp (x :: y :: l)) with (x ++ amp :: join_amp (y :: l)).
    rewrite <- app_assoc. reflexivity.
Qed.

(* what ucrednetAttachInterface writes for a further interface is the old attachment string, &, the interface *)
Lemma join_attach : forall g i, join_amp (split_amp g ++ [i]) = g ++ amp :: i.
Proof. intros g i. rewrite join_amp_snoc, join_split by apply split_amp_nonempty. reflexivity. Qed.

Theorem attach_full : forall s u l i,
  ucrednet_get_with_interfaces s = Some (u, l) -> forallb not_semi i = true ->
  ucrednet_get_with_interfaces (ucrednet_attach_interface s i) = Some (u, if mem i l then l else l ++ split_amp i).
Proof.
  intros s u l i G Hi. apply get_with_ifaces_some in G.
  destruct G as (pd & ud & ifs & C & U1 & U2 & R1 & R2 & ->).
  unfold ucrednet_attach_interface. rewrite (match_raddr_complete _ _ _ _ _ C). cbn [ra_iface].
  destruct C as (Dp & Du & Hs & Hg & E).
  destruct ifs as [g|].
  - destruct (mem i (split_amp g)) eqn:Mm.
    + apply (peer_get_with_ifaces s u pd ud (Some g)); auto. unfold cred_string. auto.
    + rewrite join_attach, <- split_amp_app.
      apply (peer_get_with_ifaces _ u pd ud (Some (g ++ amp :: i))); auto.
      unfold cred_string, raddr_prefix. cbn [ra_pid ra_uid ra_socket iface_tail].
      repeat split; auto; try apply Dp; try apply Du.
      * rewrite forallb_app, Hg. exact Hi.
      * rewrite <- !app_assoc. reflexivity.
  - cbn [mem app].
    apply (peer_get_with_ifaces _ u pd ud (Some i)); auto.
    unfold cred_string. repeat split; auto; try apply Dp; try apply Du.
    rewrite E. cbn [iface_tail]. rewrite <- !app_assoc. cbn [app]. reflexivity.
Qed.

Corollary attach_full_plain : forall s u l i,
  ucrednet_get_with_interfaces s = Some (u, l) -> forallb not_semi i = true -> forallb not_amp i = true ->
  ucrednet_get_with_interfaces (ucrednet_attach_interface s i) = Some (u, if mem i l then l else l ++ [i]).
Proof.
  intros s u l i G Hs Ha. rewrite (attach_full s u l i G Hs). rewrite (split_amp_plain i Ha). reflexivity.
Qed.

Lemma mem_app_r : forall x l, mem x (l ++ [x]) = true.
Proof. intros x l. apply mem_In. apply in_or_app. right. left. reflexivity. Qed.

Theorem attach_idempotent : forall s u l i,
  ucrednet_get_with_interfaces s = Some (u, l) -> forallb not_semi i = true -> forallb not_amp i = true ->
  ucrednet_attach_interface (ucrednet_attach_interface s i) i = ucrednet_attach_interface s i.
Proof.
  intros s u l i G Hs Ha.
  pose proof (attach_full_plain s u l i G Hs Ha) as G'.
  set (s' := ucrednet_attach_interface s i) in *.
  assert (Hm : mem i (if mem i l then l else l ++ [i]) = true).
  { destruct (mem i l) eqn:M; [exact M|apply mem_app_r]. }
  apply get_with_ifaces_some in G'. destruct G' as (pd & ud & ifs & C & _ & _ & _ & _ & L).
  unfold ucrednet_attach_interface at 1. rewrite (match_raddr_complete _ _ _ _ _ C). cbn [ra_iface].
  destruct ifs as [g|].
  - rewrite <- L. rewrite Hm. reflexivity.
  - rewrite L in Hm. cbn in Hm. discriminate.
Qed.

Theorem attach_roundtrip : forall u i,
  0 < u_pid u < 2147483648 -> u_uid u < 4294967295 -> forallb not_semi (u_socket u) = true ->
  forallb not_semi i = true ->
  ucrednet_get_with_interfaces (ucrednet_attach_interface (print_ucred u) i) = Some (u, split_amp i).
Proof. intros u i Hp Hu Hs Hi. exact (attach_full _ u [] i (ucred_roundtrip u Hp Hu Hs) Hi). Qed.

Theorem snap_socket_exact_instance : forall e m x u sn,
  fst (serve e m x) = Handler -> peer x u -> u_socket u = snap_socket -> declared e m <> ASnap ->
  x_snap_of_pid x = Some sn ->
  exists names c,
    (declared e m = AIfaceOpen names \/ exists k, declared e m = AIfaceAuth names k) /\
    In c (x_conns x) /\ c_plug_snap c = sn /\ In (c_iface c) names /\
    c_undesired c = false /\ c_hotplug_gone c = false.
Proof.
  intros e m x u sn H Hp Hs Hn Hsn.
  destruct (snap_socket_only_gated e m x u H Hp Hs) as [A|(names & D & (sn' & c & S & C1 & C2 & C3 & C4 & C5))]; [contradiction|].
  rewrite Hsn in S. inversion S; subst sn'. exists names, c. split.
  - destruct D as [D|(k & D & _)]; [left; exact D|right; exists k; exact D].
  - auto.
Qed.

(* why the guards are there: the unguarded statements are false of the faithful model (replayed on the code) *)

Definition wit_u (sock : bytes) : ucred := mkUcred 42 1000 sock.

(* an interface string containing & comes back as two interfaces, and attaching it again doubles them *)
Lemma attach_amp_refuted :
  ucrednet_get_with_interfaces (ucrednet_attach_interface (print_ucred (wit_u snap_socket)) (bs "a&b"))
    = Some (wit_u snap_socket, [bs "a"; bs "b"]) /\
  ucrednet_get_with_interfaces (ucrednet_attach_interface (ucrednet_attach_interface (print_ucred (wit_u snap_socket)) (bs "a&b")) (bs "a&b"))
    = Some (wit_u snap_socket, [bs "a"; bs "b"; bs "a"; bs "b"]).
Proof. split; vm_compute; reflexivity. Qed.

Fixpoint lb_eqb (a b : list bytes) : bool :=
  match a, b with
  | [], [] => true
  | x :: a', y :: b' => beq x y && lb_eqb a' b'
  | _, _ => false
  end.

Lemma lb_eqb_eq : forall a b, lb_eqb a b = true -> a = b.
Proof.
  induction a as [|x a IH]; destruct b as [|y b]; cbn; intro H; try discriminate; [reflexivity|].
  apply andb_true_iff in H. destruct H as [H1 H2]. apply beq_true_iff in H1. rewrite (IH _ H2), H1. reflexivity.
Qed.

(* computed on the generated table: the only write levels that admit the snap socket are snapAccess on /v2/snapctl and
   interfaceAuthenticatedAccess{snap-themes-control, manage} on /v2/accessories/themes *)
Definition snap_write_ok (e : endpoint) : bool :=
  negb (ep_put e || ep_post e) ||
  match ep_write e with
  | ASnap => beq (ep_path e) (bs "/v2/snapctl")
  | AIfaceAuth n k => beq (ep_path e) (bs "/v2/accessories/themes") && lb_eqb n [if_themes] && beq k pk_manage
  | AIfaceOpen _ => false
  | _ => true
  end.

Lemma table_snap_writes : forallb snap_write_ok api = true.
Proof. vm_compute. reflexivity. Qed.

Theorem snap_socket_writes : forall e, In e api -> forall m x u,
  m <> GET -> fst (serve e m x) = Handler -> peer x u -> u_socket u = snap_socket ->
  ep_path e = bs "/v2/snapctl" \/
  (ep_path e = bs "/v2/accessories/themes" /\ connected x [if_themes] /\ authenticated x u pk_manage).
Proof.
  intros e Hin m x u Hm H Hp Hs.
  pose proof table_snap_writes as T. rewrite forallb_forall in T. specialize (T e Hin). unfold snap_write_ok in T.
  pose proof (served_implies_declared e m x H) as (R & _ & _).
  assert (Dw : declared e m = ep_write e) by (destruct m; try reflexivity; [congruence|cbn in R; discriminate]).
  assert (Rw : ep_put e || ep_post e = true).
  { destruct m; cbn [registered] in R; try congruence; rewrite R; [reflexivity|apply orb_true_r]. }
  rewrite Rw in T. cbn [negb orb] in T.
  destruct (snap_socket_only_gated e m x u H Hp Hs) as [A|(names & D & C)].
  - rewrite Dw in A. rewrite A in T. left. apply beq_true_iff. exact T.
  - rewrite Dw in D. destruct D as [D|(k & D & Au)].
    + rewrite D in T. discriminate.
    + rewrite D in T. apply andb_true_iff in T. destruct T as [T T3]. apply andb_true_iff in T. destruct T as [T1 T2].
      apply beq_true_iff in T1. apply lb_eqb_eq in T2. apply beq_true_iff in T3. subst names k. right. auto.
Qed.

Definition plain_name (i : bytes) : bool := forallb not_semi i && forallb not_amp i.

Definition names_plain (a : access) : bool :=
  match a with
  | AIfaceOpen n | AIfaceAuth n _ => forallb plain_name n
  | _ => true
  end.

Definition iface_names (a : access) : list bytes :=
  match a with AIfaceOpen n | AIfaceAuth n _ => n | _ => [] end.

Lemma names_plain_eq : forall a, names_plain a = forallb plain_name (iface_names a).
Proof. destruct a; reflexivity. Qed.

(* The only checker that rewrites r.RemoteAddr is requireInterfaceApiAccess on the snap socket: the RemoteAddr that
   `serve` hands on is the request's own with interfaces attached one by one (none on every other path), each a listed
   name that the calling snap has connected. *)
Definition attached (x : ctx) (names : list bytes) (r r' : bytes) : Prop :=
  exists found, r' = fold_left ucrednet_attach_interface found r /\ forall i, In i found -> In i names /\ connected x [i].

Lemma attached_refl : forall x names r, attached x names r r.
Proof. intros x names r. exists []. split; [reflexivity|intros i []]. Qed.

Lemma require_iface_remote : forall x r uc names, attached x names r (snd (require_interface_api_access x r uc names)).
Proof.
  intros x r uc names. unfold require_interface_api_access.
  destruct uc as [v|]; [|apply attached_refl].
  destruct (beq (u_socket v) snapd_socket); [apply attached_refl|].
  destruct (beq (u_socket v) snap_socket); [|apply attached_refl].
  destruct (x_snap_of_pid x) as [sn|] eqn:S; [|apply attached_refl].
  exists (matching_conns x sn names). split; [reflexivity|]. intro i. apply matching_conn_connected. exact S.
Qed.

Lemma check_access_remote : forall a x r uc, attached x (iface_names a) r (snd (check_access a x r uc)).
Proof.
  intros a x r uc. destruct a as [| |k| | |names|names k]; cbn [check_access iface_names];
    try (destruct (require_snapd_socket uc); destruct uc; apply attached_refl).
  - exact (require_iface_remote x r uc names).
  - replace (snd _) with (snd (require_interface_api_access x r uc names)); [exact (require_iface_remote x r uc names)|].
    destruct (require_interface_api_access x r uc names) as [[d|] r'']; destruct uc; reflexivity.
Qed.

Lemma serve_remote : forall e m x o r', serve e m x = (o, r') ->
  attached x (iface_names (declared e m)) (x_remote x) r'.
Proof.
  intros e m x o r' H. unfold serve in H.
  destruct (x_degraded x && negb (is_get m)); [inversion H; apply attached_refl|].
  destruct (negb (registered e m)); [inversion H; apply attached_refl|].
  pose proof (check_access_remote (declared e m) x (x_remote x) (ucrednet_get (x_remote x))) as C.
  destruct (declared e m); [inversion H; apply attached_refl|..];
    (destruct (check_access _ x (x_remote x) _) as [[d|] r'']; inversion H; subst; exact C).
Qed.

Lemma fold_attach : forall found s u l,
  ucrednet_get_with_interfaces s = Some (u, l) -> Forall (fun i => forallb not_semi i = true) found ->
  exists l', ucrednet_get_with_interfaces (fold_left ucrednet_attach_interface found s) = Some (u, l') /\
             forall j, In j l' -> In j l \/ exists i, In i found /\ In j (split_amp i).
Proof.
  induction found as [|i found IH]; intros s u l G F; cbn [fold_left].
  - exists l. auto.
  - inversion F; subst. destruct (IH _ u _ (attach_full s u l i G H1) H2) as (l' & G' & Hin).
    exists l'. split; [exact G'|]. intros j Hj.
    destruct (Hin j Hj) as [H|(i' & Hi' & Hj')]; [|right; exists i'; split; [right|]; assumption].
    destruct (mem i l); [left; exact H|]. apply in_app_or in H.
    destruct H as [H|H]; [left; exact H|right; exists i; split; [left; reflexivity|exact H]].
Qed.

(* interface names of a level contain no ; (so that attaching them keeps the credential string well formed) *)
Definition names_clean (a : access) : bool := forallb (fun i => forallb not_semi i) (iface_names a).

Lemma listed_clean : forall a x found, names_clean a = true ->
  (forall i, In i found -> In i (iface_names a) /\ connected x [i]) -> Forall (fun i => forallb not_semi i = true) found.
Proof.
  intros a x found H F. apply Forall_forall. intros i Hin. unfold names_clean in H. rewrite forallb_forall in H.
  apply H, F, Hin.
Qed.

Lemma plain_clean : forall a, names_plain a = true -> names_clean a = true.
Proof.
  intros a H. rewrite names_plain_eq in H. unfold names_clean. rewrite forallb_forall in *. intros i Hi.
  specialize (H i Hi). apply andb_true_iff in H. apply H.
Qed.

Theorem served_keeps_creds : forall e m x r',
  names_clean (declared e m) = true -> serve e m x = (Handler, r') ->
  ucrednet_get r' = ucrednet_get (x_remote x) /\ ucrednet_get r' <> None.
Proof.
  intros e m x r' Hc H.
  assert (C : fst (serve e m x) = Handler) by (rewrite H; reflexivity).
  apply serve_handler_iff in C as (_ & _ & C). apply check_access_iff in C as (u & G & _).
  rewrite G. unfold ucrednet_get in *.
  destruct (ucrednet_get_with_interfaces (x_remote x)) as [[u' l]|] eqn:GW; [|discriminate]. inversion G; subst u'.
  destruct (serve_remote _ _ _ _ _ H) as (found & -> & F).
  destruct (fold_attach _ _ u l GW (listed_clean _ _ _ Hc F)) as (l' & K & _). rewrite K.
  split; [reflexivity|discriminate].
Qed.

Theorem served_ifaces_are_connected : forall e m x r' u,
  names_plain (declared e m) = true ->
  x_remote x = print_ucred u -> 0 < u_pid u < 2147483648 -> u_uid u < 4294967295 -> forallb not_semi (u_socket u) = true ->
  serve e m x = (Handler, r') ->
  exists l', ucrednet_get_with_interfaces r' = Some (u, l') /\ forall i, In i l' -> connected x [i].
Proof.
  intros e m x r' u Hc Hx Hp Hu Hs H.
  pose proof (ucred_roundtrip u Hp Hu Hs) as G. rewrite <- Hx in G.
  destruct (serve_remote _ _ _ _ _ H) as (found & -> & F).
  destruct (fold_attach _ _ u [] G (listed_clean _ _ _ (plain_clean _ Hc) F)) as (l' & K & Hin).
  exists l'. split; [exact K|]. intros j Hj. destruct (Hin j Hj) as [[]|(i & Hi & Hji)].
  (* a listed name has no &: it is attached as a single field *)
  destruct (F i Hi) as [Hn Hconn].
  rewrite names_plain_eq, forallb_forall in Hc. specialize (Hc i Hn). apply andb_true_iff in Hc.
  rewrite (split_amp_plain i (proj2 Hc)) in Hji. destruct Hji as [<-|[]]. exact Hconn.
Qed.

Lemma table_names_plain : forallb (fun e => names_plain (ep_read e) && names_plain (ep_write e)) api = true.
Proof. vm_compute. reflexivity. Qed.

Lemma api_names_plain : forall e m, In e api -> names_plain (declared e m) = true.
Proof.
  intros e m Hin. pose proof table_names_plain as T. rewrite forallb_forall in T. specialize (T e Hin).
  apply andb_true_iff in T. destruct T as [T1 T2]. destruct m; cbn [declared names_plain]; auto.
Qed.

Theorem served_keeps_creds_api : forall e, In e api -> forall m x r',
  serve e m x = (Handler, r') -> ucrednet_get r' = ucrednet_get (x_remote x) /\ ucrednet_get r' <> None.
Proof. intros e Hin m x r'. exact (served_keeps_creds e m x r' (plain_clean _ (api_names_plain e m Hin))). Qed.

(* computed: the generated noticeReadInterfaces lists, for each type, only interfaces the hand-written table lists *)
Lemma notice_table_within_spec :
  forallb (fun p => subset (snd p) (lookup_ifaces spec_notice_ifaces (fst p))) notice_read_interfaces = true.
Proof. vm_compute. reflexivity. Qed.

Lemma lookup_ifaces_in : forall tbl t i, In i (lookup_ifaces tbl t) -> exists v, In (t, v) tbl /\ In i v.
Proof.
  induction tbl as [|[k v] tbl IH]; intros t i H; cbn [lookup_ifaces] in H; [contradiction|].
  destruct (beq k t) eqn:E.
  - apply beq_true_iff in E. subst k. exists v. split; [left; reflexivity|exact H].
  - destruct (IH t i H) as (v' & H1 & H2). exists v'. split; [right; exact H1|exact H2].
Qed.

Theorem notices_types_need_connection : forall e, In e api -> forall m x r' u types t,
  x_remote x = print_ucred u -> 0 < u_pid u < 2147483648 -> u_uid u < 4294967295 -> u_socket u = snap_socket ->
  serve e m x = (Handler, r') ->
  notice_types_viewable types r' = true -> In t types ->
  exists i, In i (lookup_ifaces spec_notice_ifaces t) /\ connected x [i].
Proof.
  intros e Hin m x r' u types t Hx Hp Hu Hs H V Ht.
  pose proof (api_names_plain e m Hin) as Hc.
  assert (Hsock : forallb not_semi (u_socket u) = true) by (rewrite Hs; vm_compute; reflexivity).
  destruct (served_ifaces_are_connected e m x r' u Hc Hx Hp Hu Hsock H) as (l' & G & Hconn).
  unfold notice_types_viewable in V. rewrite G in V. rewrite Hs in V. rewrite snapd_not_snap in V.
  destruct (is_nil_b types); [discriminate|].
  rewrite forallb_forall in V. specialize (V t Ht). apply existsb_exists in V. destruct V as (i & Hi & Hm).
  apply mem_In in Hm. destruct (lookup_ifaces_in _ _ _ Hm) as (v & Hv & Hiv).
  pose proof notice_table_within_spec as T. rewrite forallb_forall in T. specialize (T (t, v) Hv). cbn [fst snd] in T.
  exists i. split; [eapply subset_In; eassumption|apply Hconn; exact Hi].
Qed.

Theorem snapctl_uid_is_peer : forall e, In e api -> ep_path e = bs "/v2/snapctl" -> forall x r',
  serve e POST x = (Handler, r') ->
  exists u, peer x u /\ u_socket u = snap_socket /\ ucrednet_get r' = Some u /\ snapctl_uid r' = u_uid u.
Proof.
  intros e Hin Hpath x r' H.
  assert (Hs : fst (serve e POST x) = Handler) by (rewrite H; reflexivity).
  destruct (served_implies_policy e Hin POST x Hs) as (p & P & (u & Hp & L)).
  rewrite Hpath in P. vm_compute in P. inversion P; subst p. cbn [level_ok] in L.
  destruct (served_keeps_creds_api e Hin POST x r' H) as (K & _).
  exists u. split; [exact Hp|]. split; [exact L|]. rewrite (peer_get x u Hp) in K. split; [exact K|].
  unfold snapctl_uid. rewrite K. reflexivity.
Qed.
