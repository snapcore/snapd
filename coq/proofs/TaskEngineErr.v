(* On models/TaskEngine.v (C03): Error is final (error_final_move), so a task whose handler failed stays in Error and is
   named by Change.Err whenever the change reports Error (failed_task_stays_named). *)
From Coq Require Import List Lia.
Import ListNotations.
Require Import V.models.TaskEngine V.proofs.TaskEngineProofs V.proofs.TaskEngineStatus V.proofs.TaskEngineReady
               V.proofs.TaskEngineLive.

Lemma st_set_to_wait_other : forall s t ws u, u <> t -> st (set_to_wait s t ws) u = st s u.
Proof.
  intros s t ws u N. unfold set_to_wait. repeat des_if; try reflexivity.
  destruct (st_change_st (with_tasks s (upd (tasks s) t (fun tk => set_waited tk ws))) t Wait u) as [A|[A _]]; [|contradiction].
  rewrite A. apply st_irrel. reflexivity.
Qed.

(* every move writes one task, which is not in Error, or is an abort *)
Lemma error_final_move : forall s e s' u, move s e s' -> inv s -> st s u = Error -> st s' u = Error.
Proof.
  intros s e s' u M I H.
  assert (R : forall t, In t (running s) -> u <> t) by (intros t Ht ->; pose proof (i_run s I t Ht) as U; rewrite H in U; discriminate).
  destruct M; try assumption.
  - rewrite st_try_undo_other; [assumption | congruence].
  - rewrite st_set_status_other; [assumption | congruence].
  - rewrite st_run_other; [assumption | intros ->; rewrite H in H1; discriminate].
  - rewrite st_set_status_other; auto.
  - rewrite st_try_undo_other; auto.
  - rewrite (st_irrel (remove_running s t)) by reflexivity. assumption.
  - rewrite st_set_to_wait_other; auto.
  - rewrite st_set_status_other by auto. apply amap_from_error. rewrite <- H. apply (abort_lanes_top_mapping (remove_running s t)).
  - apply amap_from_error. rewrite <- H. apply abort_change_mapping.
  - rewrite st_set_status_other; [assumption | congruence].
Qed.

Lemma error_final_step : forall s e u, inv s -> st s u = Error -> st (step s e) u = Error.
Proof. intros s e u. apply (step_ind_inv (fun x => st x u = Error)). intros x x'; apply error_final_move. Qed.

Lemma error_final_run_events : forall es s u, guarded s es -> inv s -> st s u = Error -> st (run_events s es) u = Error.
Proof. intros es s u. apply (guarded_moves_ind (fun x => st x u = Error)). intros x e x'; apply error_final_move. Qed.

Lemma guarded_split : forall es1 es2 s, guarded s (es1 ++ es2) -> guarded s es1 /\ guarded (run_events s es1) es2.
Proof.
  unfold run_events. induction es1; simpl; intros es2 s H; [split; [exact I | assumption]|].
  destruct H as [H1 H2]. destruct (IHes1 es2 (step s a) H2) as [A B]. repeat split; assumption.
Qed.

(* C03, Err clause (names): in every history with user aborts on unready changes only, a task whose handler returned
   an error is in Error at every later point, and whenever the change then reports Error, Change.Err names it *)
Theorem failed_task_stays_named : forall (g : list tdesc) (es1 es2 : list event) (t : nat),
  g <> [] -> guarded (init_state g) (es1 ++ Finish t OErr :: es2) ->
  In t (running (run_events (init_state g) es1)) ->
  let s := run_events (init_state g) (es1 ++ Finish t OErr :: es2) in
  st s t = Error /\ (change_status (tasks s) = Error -> In t (err_tasks (tasks s))).
Proof.
  intros g es1 es2 t Hg Hgd Hin s.
  destruct (guarded_split es1 (Finish t OErr :: es2) (init_state g) Hgd) as [G1 G2].
  set (s1 := run_events (init_state g) es1) in *.
  assert (I1 : inv s1) by (apply inv_run_events; [assumption | apply inv_init; assumption]).
  destruct G2 as [G2a G2b]. simpl step in G2b.
  destruct (finish_err_sets_error s1 t I1 Hin) as [E _].
  assert (I2 : inv (finish s1 t OErr)) by (apply (inv_step s1 (Finish t OErr)); assumption).
  assert (Es : s = run_events (finish s1 t OErr) es2).
  { unfold s, s1, run_events. rewrite fold_left_app. reflexivity. }
  assert (St : st s t = Error) by (rewrite Es; apply error_final_run_events; assumption).
  split; [assumption|]. intros Hc. unfold err_tasks. rewrite Hc. simpl seqb. cbv iota.
  apply filter_In. split.
  - apply in_seq. assert (t < length (tasks s)) by (apply in_range_st; rewrite St; discriminate). lia.
  - change (t_st (nth t (tasks s) dummy)) with (st s t). rewrite St. reflexivity.
Qed.
