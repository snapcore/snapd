(* C23, tree variant — proofs about models/SyncTree.v (EnsureTreeState): reduction of the tree call to the per-directory
   call, and fail-closed across directories. For every tree, content, glob predicate, visiting orders and failure point. *)
From Coq Require Import List NArith Bool Sorted.
Import ListNotations.
Require Import V.lib.Bytes V.models.SyncDir V.proofs.BytesFacts V.proofs.SyncDirProofs V.models.SyncTree.
Open Scope N_scope.

Lemma path_eqb_true_iff : forall a b, path_eqb a b = true <-> a = b.
Proof.
  induction a as [|x a IH]; destruct b as [|y b]; cbn; split; intro H; try congruence; try discriminate.
  - apply andb_true_iff in H. destruct H as [H1 H2]. apply beq_true_iff in H1. apply IH in H2. congruence.
  - inversion H; subst. rewrite beq_refl. cbn. apply IH. reflexivity.
Qed.
Lemma path_eqb_refl : forall a, path_eqb a a = true.
Proof. intro a. apply path_eqb_true_iff. reflexivity. Qed.
Lemma path_eqb_spec : forall a b, reflect (a = b) (path_eqb a b).
Proof. intros a b. destruct (path_eqb a b) eqn:E; constructor; [apply path_eqb_true_iff; assumption|]. intro H. apply path_eqb_true_iff in H. congruence. Qed.

Lemma tlookup_tset : forall t p v q, tlookup (tset t p v) q = if path_eqb p q then Some v else tlookup t q.
Proof.
  induction t as [|[k w] r IH]; intros p v q; cbn; [reflexivity|].
  destruct (path_eqb_spec k p); cbn.
  - subst. destruct (path_eqb p q); reflexivity.
  - rewrite IH. destruct (path_eqb_spec k q); [|reflexivity]. subst. destruct (path_eqb_spec p q); [congruence | reflexivity].
Qed.
Lemma foe_tset : forall t p v q, foe (tset t p v) q = if path_eqb p q then v else foe t q.
Proof. intros. unfold foe. rewrite tlookup_tset. destruct (path_eqb p q); reflexivity. Qed.

Lemma tlookup_app_one : forall (t : tree) q' q,
  tlookup (t ++ [(q', [])]) q = match tlookup t q with Some v => Some v | None => if path_eqb q' q then Some [] else None end.
Proof. induction t as [|[k w] r IH]; intros q' q; cbn; [reflexivity|]. destruct (path_eqb k q); [reflexivity | apply IH]. Qed.
Lemma foe_mkdir : forall t q' q, foe (mkdir t q') q = foe t q.
Proof.
  intros t q' q. unfold mkdir. destruct (tlookup t q') eqn:E; [reflexivity|]. unfold foe. rewrite tlookup_app_one.
  destruct (tlookup t q); [reflexivity|]. destruct (path_eqb q' q); reflexivity.
Qed.
Lemma foe_mkdir_all : forall p t q, foe (mkdir_all t p) q = foe t q.
Proof.
  intros p t q. unfold mkdir_all. generalize (prefixes p) as l. intro l. revert t.
  induction l as [|x l IH]; intro t; cbn; [reflexivity|]. rewrite IH. apply foe_mkdir.
Qed.

Lemma tlookup_tdel : forall (t : tree) p q, tlookup (tdel t p) q = if path_eqb p q then None else tlookup t q.
Proof.
  unfold tdel. induction t as [|[k w] r IH]; intros p q; cbn.
  - destruct (path_eqb p q); reflexivity.
  - destruct (path_eqb_spec k p); cbn.
    + subst. rewrite IH. destruct (path_eqb p q); reflexivity.
    + rewrite IH. destruct (path_eqb_spec k q); [|reflexivity]. subst. destruct (path_eqb_spec p q); [congruence | reflexivity].
Qed.
Lemma foe_remove_empty : forall fuel t p q, foe (remove_empty_dirs fuel t p) q = foe t q.
Proof.
  induction fuel as [|f IH]; intros t p q; cbn; [reflexivity|].
  destruct p as [|c p']; [reflexivity|].
  destruct (tlookup t (c :: p')) as [fs|] eqn:L; [|reflexivity].
  destruct (is_nil_b fs && negb (has_child t (c :: p'))) eqn:C; [|reflexivity].
  rewrite IH. unfold foe. rewrite tlookup_tdel. destruct (path_eqb_spec (c :: p') q); [|reflexivity].
  subst. rewrite L. apply andb_true_iff in C. destruct C as [C _]. destruct fs; [reflexivity | discriminate].
Qed.
Lemma foe_remove_all : forall l t q, foe (fold_left (fun t p => remove_empty_dirs (S (length p)) t p) l t) q = foe t q.
Proof. induction l as [|p l IH]; intros t q; cbn [fold_left]; [reflexivity|]. rewrite IH. apply foe_remove_empty. Qed.

Section Tree.
Variables (mt : bytes -> bool) (um : N) (out : list (bytes * onode)) (content : list (path * list (bytes * dstate))).

(* the per-directory call EnsureTreeState makes for directory q, on the files q has in tree t *)
Definition R (t : tree) (q : path) : result := ensure_dir_state mt um out (foe t q) (content_of content q).

Definition WfC : Prop := forall q, NoDup (names (content_of content q)).

(* The synchronisation loop against a reference tree t0 that the current tree agrees with on the directories still to be
   visited: every per-directory call is then the call R t0 q on t0's files, since a step changes the files of its own
   directory only. *)
Lemma loop1_spec : forall t0 ord a, NoDup ord -> WfC ->
  (forall q, In q ord -> foe (a_t a) q = foe t0 q /\ NoDup (names (foe t0 q))) -> a_failed a = false ->
  let a' := loop1 mt um out content ord a in
  (forall q, ~ In q ord -> foe (a_t a') q = foe (a_t a) q)
  /\ (forall q n, mt n = false -> lookup (foe (a_t a') q) n = lookup (foe (a_t a) q) n)
  /\ (existsb (fun q => r_err (R t0 q)) ord = true -> a_failed a' = true)
  /\ (existsb (fun q => r_err (R t0 q)) ord = false ->
        a_failed a' = false
        /\ (forall q, In q ord -> foe (a_t a') q = r_dir (R t0 q))
        /\ a_changed a' = a_changed a ++ flat_map (fun q => map (join q) (r_changed (R t0 q))) ord
        /\ a_removed a' = a_removed a ++ flat_map (fun q => map (join q) (r_removed (R t0 q))) ord).
Proof.
  intro t0. induction ord as [|p r IH]; intros a ND WC AG AF.
  - cbn. split; [auto|]. split; [auto|]. split; [discriminate|]. intros _. split; [assumption|]. split; [intros q []|].
    rewrite !app_nil_r. split; reflexivity.
  - inversion ND as [|? ? Hp ND']; subst. cbn [loop1].
    destruct (AG p (or_introl eq_refl)) as [Ep NDp]. rewrite foe_mkdir_all, Ep. fold (R t0 p).
    set (res := R t0 p). set (t2 := tset (mkdir_all (a_t a) p) p (r_dir res)).
    assert (F2 : forall q, foe t2 q = if path_eqb p q then r_dir res else foe (a_t a) q).
    { intro q. unfold t2. rewrite foe_tset, foe_mkdir_all. reflexivity. }
    assert (FR : forall q, p <> q -> foe t2 q = foe (a_t a) q).
    { intros q Hq. rewrite F2. destruct (path_eqb_spec p q); [contradiction | reflexivity]. }
    assert (NM : forall q n, mt n = false -> lookup (foe t2 q) n = lookup (foe (a_t a) q) n).
    { intros q n M. rewrite F2. destruct (path_eqb_spec p q); [|reflexivity]. subst q. rewrite Ep.
      apply (nonmatching_untouched mt um out _ _ NDp (WC p) n M). }
    destruct (r_err res) eqn:ER; cbn [existsb]; change (R t0 p) with res; rewrite ER; cbn [orb].
    + cbn [a_t a_failed]. split; [|split; [exact NM | split; [reflexivity | discriminate]]].
      intros q Hq. apply FR. intros <-. apply Hq. left. reflexivity.
    + set (a1 := mkAcc t2 (a_changed a ++ map (join p) (r_changed res)) (a_removed a ++ map (join p) (r_removed res))
                       (if is_nil_b (a_removed a ++ map (join p) (r_removed res)) then a_maybe a else a_maybe a ++ [p]) false).
      assert (AG1 : forall q, In q r -> foe (a_t a1) q = foe t0 q /\ NoDup (names (foe t0 q))).
      { intros q Hq. destruct (AG q (or_intror Hq)) as [Eq NDq]. split; [|exact NDq].
        cbn [a_t a1]. rewrite FR; [exact Eq|]. intros <-. contradiction. }
      destruct (IH a1 ND' WC AG1 eq_refl) as [P1 [P2 [P3 P4]]].
      split; [|split; [|split; [exact P3|]]].
      * intros q Hq. rewrite P1 by (intro H; apply Hq; right; assumption). apply FR. intros <-. apply Hq. left. reflexivity.
      * intros q n M. rewrite (P2 q n M). apply NM. assumption.
      * intro H. destruct (P4 H) as [Q1 [Q2 [Q3 Q4]]]. split; [exact Q1|]. split; [|split].
        -- intros q [<- | Hq]; [|exact (Q2 q Hq)]. rewrite P1 by assumption. cbn [a_t a1]. rewrite F2, path_eqb_refl. reflexivity.
        -- rewrite Q3. cbn [a_changed a1 flat_map]. rewrite <- app_assoc. reflexivity.
        -- rewrite Q4. cbn [a_removed a1 flat_map]. rewrite <- app_assoc. reflexivity.
Qed.

Lemma loop2_spec : forall ord a,
  let a' := loop2 mt um out ord a in
  a_changed a' = a_changed a /\ a_failed a' = a_failed a
  /\ (forall q, ~ In q ord -> foe (a_t a') q = foe (a_t a) q)
  /\ (forall q n, mt n = false -> lookup (foe (a_t a') q) n = lookup (foe (a_t a) q) n)
  /\ (forall q n v, (In q ord \/ (forall w, lookup (foe (a_t a) q) n = Some w -> removable w = false)) ->
        mt n = true -> lookup (foe (a_t a') q) n = Some v -> removable v = false).
Proof.
  induction ord as [|p r IH]; intro a.
  - cbn. repeat split; auto. intros q n v [[] | H] _ L. apply (H v L).
  - (* a directory that does not exist has no files, and erasing none leaves none: both branches are the same step *)
    assert (S : exists a1, loop2 mt um out (p :: r) a = loop2 mt um out r a1 /\
      a_changed a1 = a_changed a /\ a_failed a1 = a_failed a /\
      forall q, foe (a_t a1) q = if path_eqb p q then fst3 (erase_loop mt [] (foe (a_t a) q)) else foe (a_t a) q).
    { cbn [loop2]. destruct (tlookup (a_t a) p) as [fs|] eqn:L; eexists; (split; [reflexivity|]);
        (split; [reflexivity|]); (split; [reflexivity|]); intro q.
      - cbn [a_t]. rewrite foe_tset. destruct (path_eqb_spec p q); [subst q|reflexivity].
        unfold foe. rewrite L. apply (eds_nil_dir mt um out fs).
      - destruct (path_eqb_spec p q); [subst q|reflexivity]. unfold foe. rewrite L. reflexivity. }
    destruct S as (a1 & -> & C1 & C2 & F2).
    destruct (IH a1) as [Q1 [Q2 [Q3 [Q4 Q5]]]]. rewrite <- C1, <- C2. split; [exact Q1|]. split; [exact Q2|]. split; [|split].
    + intros q Hq. rewrite Q3 by (intro H; apply Hq; right; assumption). rewrite F2.
      destruct (path_eqb_spec p q); [|reflexivity]. subst. exfalso. apply Hq. left. reflexivity.
    + intros q n M. rewrite (Q4 q n M), F2. destruct (path_eqb_spec p q); [|reflexivity].
      apply (proj1 (erase_all_lookup mt _ n) M).
    + intros q n v H M Lk. apply (Q5 q n v); [|assumption|assumption].
      destruct (path_eqb_spec p q).
      * right. intros w Hw. rewrite F2 in Hw. destruct (path_eqb_spec p q); [|contradiction].
        apply (proj2 (erase_all_lookup mt _ n) M w Hw).
      * destruct H as [[H | H] | H]; [congruence | left; assumption |]. right. intros w Hw. rewrite F2 in Hw.
        destruct (path_eqb_spec p q); [congruence|]. apply (H w Hw).
Qed.

Definition ets := ensure_tree_state mt um out content.

(* the call fails exactly when the per-directory call of SOME visited directory fails, wherever it is in the order: the
   synchronisation loop stops with the failure flag set, and the erase pass keeps the flag *)
Lemma ets_err : forall t ord1 ord2, NoDup ord1 -> WfC -> (forall q, NoDup (names (foe t q))) ->
  valid_tree_input mt content = true ->
  t_err (ets t ord1 ord2) = existsb (fun q => r_err (R t q)) ord1.
Proof.
  intros t ord1 ord2 ND WC WF V. unfold ets, ensure_tree_state. rewrite V. cbn [negb].
  set (a1 := loop1 mt um out content ord1 (mkAcc t [] [] [] false)).
  destruct (loop1_spec t ord1 (mkAcc t [] [] [] false) ND WC (fun q _ => conj eq_refl (WF q)) eq_refl) as [_ [_ [P3 P4]]].
  fold a1 in P3, P4. destruct (existsb (fun q => r_err (R t q)) ord1).
  - rewrite (P3 eq_refl). cbn [t_err].
    exact (proj1 (proj2 (loop2_spec ord2 (mkAcc (a_t a1) [] (a_removed a1) (a_maybe a1) true)))).
  - destruct (P4 eq_refl) as [Q1 _]. rewrite Q1. exact Q1.
Qed.

Theorem tree_failure_points : forall t ord1 ord2, NoDup ord1 -> WfC -> (forall q, NoDup (names (foe t q))) ->
  valid_tree_input mt content = true ->
  (t_err (ets t ord1 ord2) = true <-> exists q, In q ord1 /\ r_err (R t q) = true).
Proof. intros t ord1 ord2 ND WC WF V. rewrite (ets_err t ord1 ord2 ND WC WF V). apply existsb_exists. Qed.

(* SUCCESS: the tree call is exactly the per-directory call (EnsureDirStateGlobs, theorems C23_success_exact etc.) on every
   directory visited, each against the files that directory had initially; directories not visited keep their files;
   changed / removed are the sorted unions of the per-directory lists prefixed with the directory. (foe = files of a
   directory, none if it does not exist: emptied directories may have been removed.) *)
Theorem tree_success : forall t ord1 ord2, NoDup ord1 -> WfC -> (forall q, NoDup (names (foe t q))) ->
  t_err (ets t ord1 ord2) = false ->
  (forall q, In q ord1 -> foe (t_tree (ets t ord1 ord2)) q = r_dir (R t q) /\ r_err (R t q) = false)
  /\ (forall q, ~ In q ord1 -> foe (t_tree (ets t ord1 ord2)) q = foe t q)
  /\ t_changed (ets t ord1 ord2) = sort (flat_map (fun q => map (join q) (r_changed (R t q))) ord1)
  /\ t_removed (ets t ord1 ord2) = sort (flat_map (fun q => map (join q) (r_removed (R t q))) ord1).
Proof.
  intros t ord1 ord2 ND WC WF E.
  destruct (valid_tree_input mt content) eqn:V; [|unfold ets, ensure_tree_state in E; rewrite V in E; discriminate].
  rewrite (ets_err t ord1 ord2 ND WC WF V) in E. unfold ets, ensure_tree_state. rewrite V. cbn [negb].
  destruct (loop1_spec t ord1 (mkAcc t [] [] [] false) ND WC (fun q _ => conj eq_refl (WF q)) eq_refl) as [P1 [_ [_ P4]]].
  destruct (P4 E) as [Q1 [Q2 [Q3 Q4]]]. rewrite Q1. cbn [a_t a_changed a_removed t_tree t_changed t_removed app] in *.
  split; [|split; [|split]].
  - intros q Hq. rewrite foe_remove_all. split; [apply Q2; assumption|].
    destruct (r_err (R t q)) eqn:Eq; [|reflexivity].
    assert (X : existsb (fun q => r_err (R t q)) ord1 = true) by (apply existsb_exists; exists q; tauto). congruence.
  - intros q Hq. rewrite foe_remove_all. apply P1. assumption.
  - rewrite Q3. reflexivity.
  - rewrite Q4. reflexivity.
Qed.

(* FAIL CLOSED across directories: if any directory fails, nothing is reported changed, non-matching files are untouched
   everywhere, and in EVERY directory the erase pass visits — also those synchronised successfully before the failure and
   those not reached — no matching entry is left unless os.Remove cannot remove it; directories visited by neither loop
   keep their files *)
Theorem tree_fail_closed : forall t ord1 ord2, NoDup ord1 -> WfC -> (forall q, NoDup (names (foe t q))) ->
  valid_tree_input mt content = true -> t_err (ets t ord1 ord2) = true ->
  t_changed (ets t ord1 ord2) = []
  /\ (forall q n, mt n = false -> file_at (t_tree (ets t ord1 ord2)) q n = file_at t q n)
  /\ (forall q n v, In q ord2 -> mt n = true -> file_at (t_tree (ets t ord1 ord2)) q n = Some v -> removable v = false)
  /\ (forall q, ~ In q ord1 -> ~ In q ord2 -> foe (t_tree (ets t ord1 ord2)) q = foe t q).
Proof.
  intros t ord1 ord2 ND WC WF V E. rewrite (ets_err t ord1 ord2 ND WC WF V) in E.
  unfold ets, ensure_tree_state. rewrite V. cbn [negb].
  set (a1 := loop1 mt um out content ord1 (mkAcc t [] [] [] false)).
  destruct (loop1_spec t ord1 (mkAcc t [] [] [] false) ND WC (fun q _ => conj eq_refl (WF q)) eq_refl) as [P1 [P2 [P3 _]]].
  fold a1 in P1, P2, P3. cbn [a_t] in P1, P2. rewrite (P3 E).
  destruct (loop2_spec ord2 (mkAcc (a_t a1) [] (a_removed a1) (a_maybe a1) true)) as [Q1 [Q2 [Q3 [Q4 Q5]]]].
  cbn [t_changed t_tree a_t a_changed] in *. split; [|split; [|split]].
  - rewrite Q1. reflexivity.
  - intros q n M. unfold file_at. rewrite foe_remove_all, (Q4 q n M). apply P2. assumption.
  - intros q n v Hq M L. unfold file_at in L. rewrite foe_remove_all in L. apply (Q5 q n v); [left; assumption | assumption | assumption].
  - intros q H1 H2. rewrite foe_remove_all, (Q3 q H2). apply P1. assumption.
Qed.

Theorem tree_bad_input_no_effect : forall t ord1 ord2, valid_tree_input mt content = false ->
  ets t ord1 ord2 = mkT t [] [] true.
Proof. intros t ord1 ord2 V. unfold ets, ensure_tree_state. rewrite V. reflexivity. Qed.

Lemma tlookup_In : forall (A : Type) (c : list (path * A)) q v, tlookup c q = Some v -> In (q, v) c.
Proof.
  induction c as [|[k w] r IH]; intros q v H; cbn in H; [discriminate|].
  destruct (path_eqb_spec k q); [inversion H; subst; left; reflexivity | right; apply IH; assumption].
Qed.
Lemma valid_tree_dir : forall q, valid_tree_input mt content = true -> valid_input mt (content_of content q) = true.
Proof.
  intros q V. unfold content_of. destruct (tlookup content q) as [dc|] eqn:L; [|reflexivity].
  apply tlookup_In in L. unfold valid_tree_input in V. rewrite forallb_forall in V. specialize (V _ L). cbn in V.
  apply andb_true_iff in V. destruct V as [_ V]. exact V.
Qed.

(* success, file by file: in every visited directory the files matching the globs are exactly the desired ones (each the old
   file already in the desired state, or the freshly written one), every other file of the tree is untouched *)
Theorem tree_success_files : forall t ord1 ord2, NoDup ord1 -> WfC -> (forall q, NoDup (names (foe t q))) ->
  t_err (ets t ord1 ord2) = false ->
  forall q n,
  (mt n = false -> file_at (t_tree (ets t ord1 ord2)) q n = file_at t q n)
  /\ (In q ord1 -> mt n = true ->
      match lookup (content_of content q) n with
      | None => file_at (t_tree (ets t ord1 ord2)) q n = None
      | Some ds => exists v, file_at (t_tree (ets t ord1 ord2)) q n = Some v /\
                   ((file_at t q n = Some v /\ in_state out (Some v) ds = true) \/
                    (v = written um ds /\ in_state out (file_at t q n) ds = false))
      end).
Proof.
  intros t ord1 ord2 ND WC WF E q n.
  destruct (tree_success t ord1 ord2 ND WC WF E) as [T1 [T2 _]].
  split.
  - intro M. unfold file_at. destruct (in_dec (list_eq_dec (list_eq_dec N.eq_dec)) q ord1) as [I | I].
    + destruct (T1 q I) as [F ER]. rewrite F. unfold R. apply (nonmatching_untouched mt um out _ _ (WF q) (WC q) n M).
    + rewrite (T2 q I). reflexivity.
  - intros I M. destruct (T1 q I) as [F ER]. unfold file_at. rewrite F. unfold R in *.
    destruct (success_exact mt um out (foe t q) (content_of content q) (WF q) (WC q) ER) as [_ [B _]]. apply (B n M).
Qed.

(* ... and the reported lists are exact: a path is reported changed iff it is a desired file that was not already in the
   desired state; removed iff it matched the globs, existed and is not desired (paths = directory joined with the name) *)
Theorem tree_lists_exact : forall t ord1 ord2, NoDup ord1 -> WfC -> (forall q, NoDup (names (foe t q))) ->
  t_err (ets t ord1 ord2) = false ->
  (forall x, In x (t_changed (ets t ord1 ord2)) <->
     exists q n ds, In q ord1 /\ x = join q n /\ lookup (content_of content q) n = Some ds /\ in_state out (file_at t q n) ds = false)
  /\ (forall x, In x (t_removed (ets t ord1 ord2)) <->
     exists q n, In q ord1 /\ x = join q n /\ mt n = true /\ lookup (content_of content q) n = None /\ file_at t q n <> None)
  /\ StronglySorted le (t_changed (ets t ord1 ord2)) /\ StronglySorted le (t_removed (ets t ord1 ord2)).
Proof.
  intros t ord1 ord2 ND WC WF E.
  destruct (tree_success t ord1 ord2 ND WC WF E) as [T1 [_ [TC TR]]].
  assert (PD : forall q, In q ord1 ->
     (forall n, In n (r_changed (R t q)) <-> exists ds, lookup (content_of content q) n = Some ds /\ in_state out (file_at t q n) ds = false)
     /\ (forall n, In n (r_removed (R t q)) <-> mt n = true /\ lookup (content_of content q) n = None /\ file_at t q n <> None)).
  { intros q I. destruct (T1 q I) as [_ ER]. unfold R in *.
    destruct (success_exact mt um out (foe t q) (content_of content q) (WF q) (WC q) ER) as [_ [_ [C [D _]]]]. split; assumption. }
  split; [|split; [|split]].
  - intro x. rewrite TC, sort_In, in_flat_map. split.
    + intros [q [I H]]. apply in_map_iff in H. destruct H as [n [Ex Hn]]. apply (proj1 (PD q I)) in Hn. destruct Hn as [ds [L S]].
      exists q, n, ds. repeat split; auto.
    + intros [q [n [ds [I [Ex [L S]]]]]]. exists q. split; [assumption|]. apply in_map_iff. exists n. split; [auto|].
      apply (proj1 (PD q I)). exists ds. tauto.
  - intro x. rewrite TR, sort_In, in_flat_map. split.
    + intros [q [I H]]. apply in_map_iff in H. destruct H as [n [Ex Hn]]. apply (proj2 (PD q I)) in Hn.
      exists q, n. repeat split; try tauto; auto.
    + intros [q [n [I [Ex H]]]]. exists q. split; [assumption|]. apply in_map_iff. exists n. split; [auto|].
      apply (proj2 (PD q I)). exact H.
  - rewrite TC. apply sort_sorted.
  - rewrite TR. apply sort_sorted.
Qed.

(* every failure index, file by file: when every entry of the tree is removable (files, symlinks), the call fails exactly
   when SOME desired entry of SOME visited directory cannot be ensured against the initial tree *)
Theorem tree_failure_index : forall t ord1 ord2, NoDup ord1 -> WfC -> (forall q, NoDup (names (foe t q))) ->
  (forall q n v, file_at t q n = Some v -> removable v = true) ->
  valid_tree_input mt content = true ->
  (t_err (ets t ord1 ord2) = true <->
   exists q n ds, In q ord1 /\ In (n, ds) (content_of content q) /\ efs um out (file_at t q n) ds = FErr).
Proof.
  intros t ord1 ord2 ND WC WF REM V. rewrite (tree_failure_points t ord1 ord2 ND WC WF V). split.
  - intros [q [I ER]]. unfold R in ER.
    pose proof (err_is_wfail mt um out (foe t q) (content_of content q) (WF q) (WC q) (REM q) ER (valid_tree_dir q V)) as W.
    apply (failure_points mt um out _ _ (WC q) (valid_tree_dir q V)) in W. destruct W as [n [ds [H1 H2]]].
    exists q, n, ds. tauto.
  - intros [q [n [ds [I [H1 H2]]]]]. exists q. split; [assumption|]. unfold R.
    assert (W : r_wfail (eds mt um out (foe t q) (content_of content q)) = true).
    { apply (failure_points mt um out _ _ (WC q) (valid_tree_dir q V)). exists n, ds. tauto. }
    destruct (fail_closed mt um out _ _ (WF q) (WC q) W) as [ER _]. exact ER.
Qed.
End Tree.
