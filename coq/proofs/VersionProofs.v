(* C33 — models/Version.v: epoch rejection, totality of the fuel, and what a swap of the operands does to cmpString and
   cmpNumeric and which values they take; the same two facts for the loop of compareSubversion are in VersionOrder.v *)
From Coq Require Import List NArith ZArith Bool Lia.
Import ListNotations.
Require Import V.lib.Bytes V.proofs.BytesFacts V.gen.ChOrder V.models.Version.
Open Scope N_scope.

Lemma epoch_rejected_l : forall a b, match_epoch a = true -> version_compare a b = Invalid.
Proof. intros a b H. unfold version_compare. rewrite H. reflexivity. Qed.

Lemma epoch_rejected_r : forall a b, match_epoch b = true -> version_compare a b = Invalid.
Proof. intros a b H. unfold version_compare. rewrite H, orb_true_r. reflexivity. Qed.

Lemma epoch_rejected : forall a b, match_epoch a = true \/ match_epoch b = true -> version_compare a b = Invalid.
Proof. intros a b [H|H]; [apply epoch_rejected_l | apply epoch_rejected_r]; exact H. Qed.

Lemma invalid_only_epoch : forall a b, version_compare a b = Invalid -> match_epoch a = true \/ match_epoch b = true.
Proof.
  intros a b. unfold version_compare.
  destruct (match_epoch a) eqn:Ea; [intros _; now left|].
  destruct (match_epoch b) eqn:Eb; [intros _; now right|]. cbn [orb].
  destruct (split_rev a), (split_rev b).
  destruct (compare_subversion _ _); [|discriminate].
  destruct (negb _); [discriminate|]. destruct (compare_subversion _ _); discriminate.
Qed.

Lemma next_frag_length : forall s f r n, next_frag s = (f, r, n) -> (length f + length r = length s)%nat.
Proof.
  intros s f r n H. unfold next_frag in H. destruct s as [|c s']; [inversion H; reflexivity|].
  destruct (is_digit c); destruct (span _ (c :: s')) as [f' r'] eqn:E; inversion H; subst;
    destruct (span_spec _ _ _ _ E) as (-> & _); symmetry; apply app_length.
Qed.

Lemma next_frag_nonempty : forall c s f r n, next_frag (c :: s) = (f, r, n) -> f <> [].
Proof.
  intros c s f r n H. unfold next_frag in H. cbn [span] in H.
  destruct (is_digit c); cbn [negb] in H; destruct (span _ s); inversion H; discriminate.
Qed.

Lemma next_frag_nil_frag : forall s f r n, next_frag s = (f, r, n) -> f = [] -> s = [] /\ n = false /\ r = [].
Proof.
  intros s f r n H Hf. destruct s as [|c s'].
  - cbn in H. inversion H. auto.
  - exfalso. eapply next_frag_nonempty; eauto.
Qed.

Lemma is_nil_true : forall l, is_nil l = true <-> l = [].
Proof. destruct l; cbn; split; congruence. Qed.

Lemma cmp_sub_total : forall fuel first va vb,
  (length va + length vb < fuel)%nat -> cmp_sub fuel first va vb <> None.
Proof.
  induction fuel as [|f IH]; intros first va vb Hl; [lia|].
  cbn [cmp_sub].
  destruct (next_frag va) as [[a va'] an] eqn:Ea.
  destruct (next_frag vb) as [[b vb'] bn] eqn:Eb.
  destruct (is_nil a && is_nil b) eqn:En; [discriminate|].
  match goal with |- (if ?c then _ else _) <> None => destruct c end; [|discriminate].
  apply IH.
  pose proof (next_frag_length _ _ _ _ Ea). pose proof (next_frag_length _ _ _ _ Eb).
  assert (length a + length b > 0)%nat.
  { destruct a, b; cbn in En; try discriminate; cbn [length]; lia. }
  lia.
Qed.

Lemma compare_subversion_total : forall va vb, compare_subversion va vb <> None.
Proof. intros. unfold compare_subversion, sub_fuel. apply cmp_sub_total. lia. Qed.

Lemma version_compare_total : forall a b, version_compare a b <> OutOfFuel.
Proof.
  intros a b. unfold version_compare. destruct (match_epoch a || match_epoch b); [discriminate|].
  destruct (split_rev a) as [ma ra], (split_rev b) as [mb rb].
  destruct (compare_subversion ma mb) eqn:E1; [|exfalso; eapply compare_subversion_total; eauto].
  destruct (negb _); [discriminate|].
  destruct (compare_subversion ra rb) eqn:E2; [discriminate|exfalso; eapply compare_subversion_total; eauto].
Qed.

Lemma cmp1_flip : forall x y k, cmp1 y x (- k) = (- cmp1 x y k)%Z.
Proof.
  intros. unfold cmp1.
  destruct (Z.ltb_spec (ch_order x) (ch_order y)), (Z.ltb_spec (ch_order y) (ch_order x));
  destruct (Z.gtb_spec (ch_order x) (ch_order y)), (Z.gtb_spec (ch_order y) (ch_order x)); try lia; reflexivity.
Qed.

Lemma cmp_string_nil_l : forall b, cmp_string [] b = (- cmp_string b [])%Z.
Proof.
  induction b as [|y b IH]; [reflexivity|].
  change (cmp_string [] (y :: b)) with (cmp1 0 y (cmp_string [] b)).
  rewrite IH. change (cmp_string (y :: b) []) with (cmp1 y 0 (cmp_string b [])). apply cmp1_flip.
Qed.

Lemma cmp_string_flip : forall a b, cmp_string b a = (- cmp_string a b)%Z.
Proof.
  induction a as [|x a IH]; intros b.
  - rewrite cmp_string_nil_l. lia.
  - destruct b as [|y b].
    + rewrite cmp_string_nil_l. reflexivity.
    + cbn [cmp_string]. rewrite IH. apply cmp1_flip.
Qed.

Lemma cmp_bytes_num_flip : forall a b, length a = length b -> cmp_bytes_num b a = (- cmp_bytes_num a b)%Z.
Proof.
  induction a as [|x a IH]; intros [|y b] Hl; try discriminate; [reflexivity|].
  cbn [cmp_bytes_num].
  destruct (N.ltb_spec y x), (N.ltb_spec x y); try lia; try reflexivity.
  apply IH. cbn in Hl. lia.
Qed.

Lemma cmp_numeric_flip : forall a b, cmp_numeric b a = (- cmp_numeric a b)%Z.
Proof.
  intros. unfold cmp_numeric.
  destruct (Z.gtb_spec (Z.of_nat (length (trim_zeroes a))) (Z.of_nat (length (trim_zeroes b)))),
           (Z.gtb_spec (Z.of_nat (length (trim_zeroes b))) (Z.of_nat (length (trim_zeroes a))));
  destruct (Z.ltb_spec (Z.of_nat (length (trim_zeroes a))) (Z.of_nat (length (trim_zeroes b)))),
           (Z.ltb_spec (Z.of_nat (length (trim_zeroes b))) (Z.of_nat (length (trim_zeroes a)))); try lia; try reflexivity.
  apply cmp_bytes_num_flip. lia.
Qed.

Definition tri (z : Z) : Prop := (z = -1 \/ z = 0 \/ z = 1)%Z.

Lemma cmp1_tri : forall x y k, tri k -> tri (cmp1 x y k).
Proof. intros. unfold cmp1, tri in *. destruct (_ <? _)%Z; [lia|]. destruct (_ >? _)%Z; lia. Qed.

Lemma cmp_string_tri : forall a b, tri (cmp_string a b).
Proof.
  assert (G : forall b, tri (cmp_string [] b)).
  { induction b as [|y b IH]; [right; left; reflexivity|].
    change (cmp_string [] (y :: b)) with (cmp1 0 y (cmp_string [] b)). apply cmp1_tri, IH. }
  induction a as [|x a IH]; intros b; [apply G|].
  destruct b as [|y b]; cbn [cmp_string]; apply cmp1_tri, IH.
Qed.

Lemma cmp_bytes_num_tri : forall a b, tri (cmp_bytes_num a b).
Proof.
  induction a as [|x a IH]; intros [|y b]; cbn [cmp_bytes_num]; try (right; left; reflexivity).
  destruct (y <? x); [right; right; reflexivity|]. destruct (x <? y); [left; reflexivity|apply IH].
Qed.

Lemma cmp_numeric_tri : forall a b, tri (cmp_numeric a b).
Proof.
  intros. unfold cmp_numeric. destruct (_ >? _)%Z; [right; right; reflexivity|].
  destruct (_ <? _)%Z; [left; reflexivity|apply cmp_bytes_num_tri].
Qed.

(* boolean forms of transitivity and of agreement with dpkg, and the finite domains of short strings on which
   props/C33.v also states them; the proofs for all byte strings are in VersionOrder.v and VersionDpkg.v *)
Fixpoint all_strings (alpha : bytes) (n : nat) : list bytes :=
  match n with
  | O => [[]]
  | S k => [] :: flat_map (fun s => map (fun c => c :: s) alpha) (all_strings alpha k)
  end.

Lemma all_strings_over : forall (p : N -> bool) alpha n s,
  forallb p alpha = true -> In s (all_strings alpha n) -> forallb p s = true.
Proof.
  intros p alpha n s Ha. revert s. induction n as [|n IH]; intros s H; cbn in H.
  - destruct H as [<-|[]]. reflexivity.
  - destruct H as [<-|H]; [reflexivity|].
    apply in_flat_map in H as (t & Ht & Hs). apply in_map_iff in Hs as (c & <- & Hc).
    cbn. rewrite (IH t Ht), andb_true_r. rewrite forallb_forall in Ha. apply Ha, Hc.
Qed.

Definition le_res (r : result) : bool := match r with Res z => (z <=? 0)%Z | _ => false end.
Definition lt_res (r : result) : bool := match r with Res z => (z <? 0)%Z | _ => false end.

Definition trans_ok (a b c : bytes) : bool :=
  (negb (le_res (version_compare a b) && le_res (version_compare b c)) || le_res (version_compare a c)) &&
  (negb (le_res (version_compare a b) && le_res (version_compare b c) &&
         (lt_res (version_compare a b) || lt_res (version_compare b c))) || lt_res (version_compare a c)).

(* alphabet: 0 a . ~ - *)
Definition small_alpha : bytes := [48; 97; 46; 126; 45].
Definition small_domain : list bytes := all_strings small_alpha 2.

Definition debian_ok (a b : bytes) : bool :=
  negb (debian_wf a && debian_wf b) ||
  match version_compare a b, dpkg_compare a b with
  | Res x, Some d => (x =? d)%Z
  | _, _ => false
  end.

Definition debian_domain : list bytes := all_strings small_alpha 3.

