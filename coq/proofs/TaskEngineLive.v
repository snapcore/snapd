(* Proofs about models/TaskEngine.v (C01): no task is stranded ([no_deadlock_total]).
   Invariant [kgood]: a task in Do only waits for live tasks (Do / Doing / Done, or Wait that will become Done); together
   with acyclicity of the wait edges it gives [stuck_free]: with no running handler, no task in Wait and all schedule
   gates open, either every task is ready or the Ensure loop body fires for some task. *)
From Coq Require Import List Bool Arith Lia.
Import ListNotations.
Require Import V.models.TaskEngine V.proofs.TaskEngineProofs V.proofs.TaskEngineStatus V.proofs.TaskEngineReady
               V.proofs.TaskEngineFuel V.proofs.TaskEngineDoing.

Definition lv (s : state) (w : nat) : bool := is_live (get s w).
Definition wd_ok (x : status) : bool := match x with Hold | Done | Undone => true | _ => false end.

Definition kgood (s : state) : Prop :=
  (forall t w, st s t = Do -> In w (wts s t) -> lv s w = true) /\
  (forall t, wd_ok (t_waited (get s t)) = true).

Lemma kgood_tasks_eq : forall s s', tasks s' = tasks s -> kgood s -> kgood s'.
Proof. intros s s' E [A B]. unfold kgood, lv, st, wts, get in *. rewrite E. split; assumption. Qed.

Lemma lv_eq_tasks : forall s s' u, tasks s' = tasks s -> lv s' u = lv s u.
Proof. intros s s' u E. unfold lv, get. rewrite E. reflexivity. Qed.

Lemma lv_ext : forall s s' u, st s' u = st s u -> t_waited (get s' u) = t_waited (get s u) -> lv s' u = lv s u.
Proof. intros s s' u A B. unfold lv, is_live, eff_status, st in *. rewrite A, B. reflexivity. Qed.

Lemma lv_st : forall s t, st s t <> Wait -> lv s t = live_st (st s t).
Proof.
  intros s t H. unfold lv, is_live, eff_status. fold (st s t). apply seqb_neq in H. rewrite H. destruct (st s t); reflexivity.
Qed.

Lemma lv_wait : forall s t, st s t = Wait -> lv s t = live_st (t_waited (get s t)).
Proof. intros s t H. unfold lv, is_live, eff_status. fold (st s t). rewrite H. reflexivity. Qed.

Lemma lv_do : forall s u, st s u = Do -> lv s u = true.
Proof. intros s u H. rewrite lv_st, H by (rewrite H; discriminate). reflexivity. Qed.

Lemma lv_range : forall s u, lv s u = true -> u < length (tasks s).
Proof.
  intros s u H. apply in_range_st. intros E. unfold lv, is_live, eff_status, st in *. rewrite E in H. discriminate.
Qed.

Definition newlive (s : state) (t : nat) (nw : status) : bool :=
  if seqb nw Wait then live_st (t_waited (get s t)) else live_st nw.

Lemma lv_put_same : forall s t nw, t < length (tasks s) -> lv (put s t nw) t = newlive s t nw.
Proof.
  intros s t nw L. unfold lv, newlive, is_live, eff_status.
  change (t_st (get (put s t nw) t)) with (st (put s t nw) t). rewrite st_put_same by assumption.
  rewrite (get_put _ t_waited) by reflexivity. destruct nw; reflexivity.
Qed.

Lemma lv_put_other : forall s t nw u, u <> t -> lv (put s t nw) u = lv s u.
Proof. intros. apply lv_ext; [apply st_put_other; assumption | apply (get_put _ t_waited); reflexivity]. Qed.

Lemma kgood_put : forall s t nw,
  kgood s -> nw <> Do ->
  (lv s t = true -> newlive s t nw = true \/ (forall u, st s u = Do -> ~ In t (wts s u))) ->
  kgood (put s t nw).
Proof.
  intros s t nw [A B] Hn Hc.
  destruct (Nat.lt_ge_cases t (length (tasks s))) as [L|L];
    [|apply (kgood_tasks_eq s); [unfold put; cbn [tasks with_tasks]; apply upd_out; assumption | split; assumption]].
  split; [|intros u; rewrite (get_put _ t_waited) by reflexivity; apply B].
  intros u w Hu Hw. unfold wts in Hw. rewrite (get_put _ t_waits) in Hw by reflexivity.
  assert (Nu : u <> t) by (intros ->; rewrite st_put_same in Hu; congruence).
  rewrite st_put_other in Hu by assumption. pose proof (A u w Hu Hw) as Lw.
  destruct (Nat.eq_dec w t) as [->|Nw]; [|rewrite lv_put_other; assumption].
  rewrite lv_put_same by assumption. destruct (Hc Lw) as [C|C]; [assumption | exfalso; eapply C; eauto].
Qed.

Lemma kgood_set_status : forall s t nw,
  kgood s -> nw <> Do ->
  (lv s t = true -> newlive s t nw = true \/ (forall u, st s u = Do -> ~ In t (wts s u))) ->
  kgood (set_status s t nw).
Proof.
  intros s t nw G Hn Hc. apply (write_or_not kgood kgood_tasks_eq s t nw); auto using tasks_set_status_cases, kgood_put.
Qed.

Lemma kgood_set_status_dead : forall s t nw, kgood s -> nw <> Do -> lv s t = false -> kgood (set_status s t nw).
Proof. intros s t nw G Hn Hl. apply kgood_set_status; auto. intros F; congruence. Qed.

(* statuses that are dead whatever the task waited for *)
Definition dead_st (x : status) : bool := match x with Do | Doing | Done | Wait => false | _ => true end.

Lemma kgood_set_status_from : forall s t nw, kgood s -> nw <> Do -> dead_st (st s t) = true -> kgood (set_status s t nw).
Proof.
  intros s t nw G Hn Hd. apply kgood_set_status_dead; auto.
  rewrite lv_st by (intros E; rewrite E in Hd; discriminate). destruct (st s t); try discriminate Hd; reflexivity.
Qed.

Lemma kgood_try_undo : forall s t, kgood s -> st s t = Abort -> kgood (try_undo s t).
Proof. intros s t G Hs. unfold try_undo. des_if; apply kgood_set_status_from; auto; try discriminate; rewrite Hs; reflexivity. Qed.

Lemma kgood_irrel : forall s t f,
  (forall tk, t_st (f tk) = t_st tk /\ t_waits (f tk) = t_waits tk) ->
  (forall tk, wd_ok (t_waited tk) = true -> wd_ok (t_waited (f tk)) = true) ->
  (st s t = Wait -> forall tk, t_waited (f tk) = t_waited tk) ->
  kgood s -> kgood (with_tasks s (upd (tasks s) t f)).
Proof.
  intros s t f Hf Hw Hk [A B].
  set (s' := with_tasks s (upd (tasks s) t f)).
  assert (X : forall u, st s' u = st s u /\ wts s' u = wts s u /\ wd_ok (t_waited (get s' u)) = true /\ lv s' u = lv s u).
  { intros u. unfold st, wts, lv, is_live, eff_status, get, s'; cbn [tasks with_tasks].
    destruct (nth_upd_cases (tasks s) t f u dummy) as [E|[-> E]]; rewrite E; [repeat split; auto; apply B|].
    destruct (Hf (nth t (tasks s) dummy)) as [F1 F2]. rewrite F1, F2. repeat split; auto; [apply Hw, B|].
    destruct (seqb (t_st (nth t (tasks s) dummy)) Wait) eqn:Ew; [|reflexivity].
    apply seqb_eq in Ew. rewrite (Hk Ew). reflexivity. }
  split.
  - intros u w Hu Hin. destruct (X u) as (E1 & E2 & _). destruct (X w) as (_ & _ & _ & E4).
    rewrite E1 in Hu. rewrite E2 in Hin. rewrite E4. eapply A; eauto.
  - intros u. apply X.
Qed.

Lemma kgood_run : forall s t, kgood s -> kgood (run s t).
Proof.
  intros s t G. rewrite run_eq.
  assert (G1 : kgood (run_write s t)).
  { unfold run_write. destruct (st s t) eqn:Es; try assumption.
    - apply kgood_set_status; [assumption | discriminate | intros _; left; reflexivity].
    - apply kgood_set_status_from; [assumption | discriminate | rewrite Es; reflexivity]. }
  apply (kgood_irrel (run_write s t)); auto.
Qed.

(* an abort: a task still in Do was not swept, and a wait task of it that was swept would have swept it too *)
Lemma kgood_swept : forall s0 s seen, sym s0 -> kgood s0 -> swept s0 s seen -> kgood s.
Proof.
  intros s0 s seen Hsym [A B] Sw. split; [|intros t; rewrite (swept_waited _ _ _ t Sw); apply B].
  intros t w Ht Hw.
  assert (Nt : ~ In t seen).
  { intros F. apply (swept_dead _ _ _ _ Sw) in F. fold (lv s t) in F. rewrite (lv_do s t Ht) in F. discriminate. }
  unfold st, wts, lv in *. rewrite (swept_same _ _ _ t Sw Nt) in Ht, Hw. pose proof (A t w Ht Hw) as Lw.
  rewrite (swept_same _ _ _ w Sw); [exact Lw|].
  apply (unswept_wait s0 s seen t w Hsym Sw); auto; [apply in_range_st; unfold st; rewrite Ht; discriminate | apply (lv_range s0 w Lw)].
Qed.

Lemma scan_lanes_hit : forall kill tl live hl hd,
  fst (fst (scan_lanes kill tl live hl hd)) = existsb (fun x => memn x kill) tl.
Proof.
  induction tl as [|a tl IH]; simpl; intros; [reflexivity|].
  destruct (memn a kill); [reflexivity|]. destruct live; apply IH.
Qed.

Lemma scan_lanes_hl : forall kill tl live hl hd x,
  In x (snd (fst (scan_lanes kill tl live hl hd))) -> In x hl \/ memn x kill = false.
Proof.
  induction tl as [|a tl IH]; simpl; intros live hl hd x H; [left; assumption|].
  destruct (memn a kill) eqn:E; [left; assumption|].
  destruct live.
  - apply IH in H. destruct H as [[<-|H]|H]; auto.
  - apply IH in H. assumption.
Qed.

Lemma scan_tasks_spec : forall kill l i lt hl hd,
  (forall x, In x (snd (fst (scan_tasks kill l i lt hl hd))) -> In x hl \/ memn x kill = false) /\
  (forall j, In j lt -> In j (fst (fst (scan_tasks kill l i lt hl hd)))) /\
  (forall k, k < length l -> existsb (fun x => memn x kill) (lanes_of (nth k l dummy)) = true ->
             In (i + k) (fst (fst (scan_tasks kill l i lt hl hd)))).
Proof.
  induction l as [|tk l IH]; intros i lt hl hd.
  - simpl. split; [auto | split; [intros j Hj; apply in_rev in Hj; assumption | intros k Hk; lia]].
  - simpl scan_tasks.
    pose proof (scan_lanes_hit kill (lanes_of tk) (is_live tk) hl hd) as Hh.
    pose proof (scan_lanes_hl kill (lanes_of tk) (is_live tk) hl hd) as Hl.
    destruct (scan_lanes kill (lanes_of tk) (is_live tk) hl hd) as [[hit hl'] hd']; cbn [fst snd] in *.
    destruct (IH (S i) (if hit then i :: lt else lt) hl' hd') as (I1 & I2 & I3).
    split; [|split].
    + intros x Hx. destruct (I1 x Hx) as [H|H]; auto.
    + intros j Hj. apply I2. destruct hit; [right|]; assumption.
    + intros [|k] Hk He.
      * simpl in He. rewrite <- Hh in He. subst hit. rewrite Nat.add_0_r. apply I2. rewrite He. left; reflexivity.
      * replace (i + S k) with (S i + k) by lia. apply I3; [simpl in Hk; lia | exact He].
Qed.

(* a task all of whose lanes are in the kill list is a lane task and no lane of it can speak for sparing it *)
Lemma select_abort_all_lanes : forall l kill t,
  t < length l -> (forall x, In x (lanes_of (nth t l dummy)) -> In x kill) -> In t (select_abort l kill).
Proof.
  intros l kill t Ht Hall. unfold select_abort.
  destruct (scan_tasks_spec kill l 0 [] [] []) as (S1 & _ & S3).
  destruct (scan_tasks kill l 0 [] [] []) as [[LT HL] HD]; cbn [fst snd] in *.
  assert (Hm : forall x, In x (lanes_of (nth t l dummy)) -> memn x kill = true) by (intros x Hx; apply memn_In, Hall, Hx).
  apply filter_In. split.
  - apply (S3 t Ht).
    assert (Ne : exists x r, lanes_of (nth t l dummy) = x :: r).
    { unfold lanes_of. destruct (t_lanes (nth t l dummy)) as [|a r]; [exists 0, [] | exists a, r]; reflexivity. }
    destruct Ne as (x & r & E). rewrite E in *. simpl. rewrite (Hm x (or_introl eq_refl)). reflexivity.
  - apply negb_true_iff. destruct (existsb _ (lanes_of (nth t l dummy))) eqn:Ee; [|reflexivity].
    apply existsb_exists in Ee. destruct Ee as (x & Hx & Hb). apply andb_true_iff in Hb. destruct Hb as [Hb _].
    apply memn_In in Hb. destruct (S1 x Hb) as [[]|F]. rewrite (Hm x Hx) in F. discriminate.
Qed.

(* the failing task is always selected by abortLanes *)
Lemma self_selected : forall l w, w < length l -> In w (select_abort l (lanes_of (nth w l dummy))).
Proof. intros l w Hw. apply select_abort_all_lanes; auto. Qed.

(* a do handler that answers Wait waits to become Done *)
Lemma kgood_move : forall s e s', move s e s' -> inv s -> sym s ->
  (forall t, e = Finish t (OWait true) -> st s t <> Doing) -> kgood s -> kgood s'.
Proof.
  intros s e s' M I Hsym Hw G. destruct M.
  - apply kgood_try_undo; assumption.
  - apply kgood_set_status_from; [assumption | discriminate | rewrite H0; reflexivity].
  - apply kgood_run; assumption.
  - (* Doing -> Done keeps the task live; Abort and Undoing are dead *)
    destruct (st s t) eqn:Es; try discriminate H1; injection H1 as <-;
      [apply (kgood_set_status (remove_running s t)); [assumption | discriminate | intros _; left; reflexivity] | |];
      (apply (kgood_set_status_from (remove_running s t)); [assumption | discriminate|]);
      change (st (remove_running s t) t) with (st s t); rewrite Es; reflexivity.
  - exact G.
  - apply (kgood_try_undo (remove_running s t)); assumption.
  - apply (kgood_irrel (remove_running s t)); auto.
  - (* SetToWait: a running task is live only in Doing, and then it waits to become Done *)
    rewrite set_to_wait_eq by assumption. pose proof (i_run s I t H0) as Ut.
    assert (NW : st s t <> Wait) by (intros E; rewrite E in Ut; discriminate).
    set (s2 := with_tasks _ _).
    assert (E2 : st s2 t = st s t) by (apply (st_irrel (remove_running s t)); reflexivity).
    assert (K2 : kgood s2)
      by (apply (kgood_irrel (remove_running s t)); auto; [intros tk _; destruct u; reflexivity | intros E; contradiction]).
    apply (write_or_not kgood kgood_tasks_eq s2 t Wait); [apply tasks_change_st_cases | exact K2|].
    apply kgood_put; [exact K2 | discriminate|].
    intros Lt. left. rewrite lv_st, E2 in Lt by (rewrite E2; exact NW).
    assert (Hd : st s t = Doing) by (destruct (st s t); try discriminate Ut; try discriminate Lt; reflexivity).
    unfold newlive, get, s2; cbn [seqb tasks with_tasks]. rewrite nth_upd_same by (apply (unr_range s t Ut)).
    destruct u; [exfalso; exact (Hw t eq_refl Hd) | reflexivity].
  - (* the error path: the failed task is selected by the abort, hence dead *)
    destruct (abort_lanes_top_swept (remove_running s t) (lanes_of (get s t))) as (seen & Sw & Sel).
    apply kgood_set_status_dead; [exact (kgood_swept _ _ _ Hsym G Sw) | discriminate|].
    apply (swept_dead _ _ _ _ Sw), Sel, (self_selected (tasks s)), (unr_range s t), (i_run s I t H0).
  - destruct (abort_change_swept s) as (seen & Sw & _). exact (kgood_swept _ _ _ Hsym G Sw).
  - exact G.
  - pose proof (proj2 G t) as Wd. apply kgood_set_status; auto.
    + intros F. rewrite F in Wd. discriminate.
    + intros Lt. left. rewrite (lv_wait s t H0) in Lt. unfold newlive.
      destruct (t_waited (get s t)); try discriminate Wd; try discriminate Lt; reflexivity.
Qed.

(* histories of the property: user aborts on unready changes only; a do handler that answers Wait waits to become
   Done (an undo handler may wait for either) *)
Fixpoint tame (s : state) (es : list event) : Prop :=
  match es with
  | [] => True
  | e :: r => (e = UAbort -> cready s = false) /\ (forall t, e = Finish t (OWait true) -> st s t <> Doing) /\
              tame (step s e) r
  end.

Lemma tame_guarded : forall es s, tame s es -> guarded s es.
Proof. induction es; simpl; intros s H; [exact I|]. destruct H as (A & _ & C). split; auto. Qed.

Definition kinv (s : state) : Prop := sym s /\ kgood s.

Lemma kinv_step : forall s e, (forall t, e = Finish t (OWait true) -> st s t <> Doing) ->
  inv s -> kinv s -> kinv (step s e).
Proof.
  intros s e Hw I [Sy K]. split; [apply (sym_graph s); auto using graph_step|].
  pose proof (step_move s e) as M. destruct e;
    try (destruct M as [E|M]; [rewrite E; assumption | eapply kgood_move; eauto]).
  assert (X : kinv (step s (Ensure order))); [|apply X].
  apply (step_ind_inv kinv); auto; [|split; assumption]. intros x x' Mx Ix [Sx Kx].
  split; [apply (sym_graph x); [eapply graph_move; eauto | assumption]|].
  apply (kgood_move _ _ _ Mx); auto. discriminate.
Qed.

Lemma tame_ind : forall (P : state -> Prop),
  (forall s e, (e = UAbort -> cready s = false) -> (forall t, e = Finish t (OWait true) -> st s t <> Doing) ->
               inv s -> kinv s -> P s -> P (step s e)) ->
  forall es s, tame s es -> inv s -> kinv s -> P s ->
  P (run_events s es) /\ inv (run_events s es) /\ kinv (run_events s es).
Proof.
  intros P H. unfold run_events. induction es; simpl; intros s Ht I K Hs; [auto|].
  destruct Ht as (T1 & T2 & T3). apply IHes; auto using inv_step, kinv_step.
Qed.

Definition closed (g : list tdesc) : Prop := forall t w, In w (waits_g g t) -> w < length g.

Lemma kgood_init : forall g, closed g -> kgood (init_state g).
Proof.
  intros g Hc. split; intros t; destruct (get_init g t) as (_ & Wd & E); [|rewrite Wd; reflexivity].
  intros w Ht Hin. rewrite E in Hin. pose proof (Hc t w Hin) as L.
  destruct (get_init g w) as ([(_ & D & _)|[F _]] & _); [apply lv_do; exact D | lia].
Qed.

Definition rsym (s : state) : Prop := forall t h, In h (hts s t) -> In t (wts s h).

Lemma rsym_graph : forall s s', graph s' = graph s -> rsym s -> rsym s'.
Proof. intros s s' E H t h. rewrite (wts_graph _ _ h E), (hts_graph _ _ t E). apply H. Qed.

Lemma rsym_init : forall g, rsym (init_state g).
Proof.
  intros g t h Hh. destruct (get_init g h) as (_ & _ & E). rewrite E.
  destruct (get_init g t) as ([(_ & _ & Et)|[_ Et]] & _).
  - rewrite Et in Hh. unfold halts_of in Hh. apply filter_In in Hh. destruct Hh as [_ Hm]. apply memn_In in Hm. exact Hm.
  - unfold hts in Hh. rewrite Et in Hh. destruct Hh.
Qed.

(* in a closed graph nothing waits for a task that does not exist *)
Lemma hts_init : forall g t, closed g -> hts (init_state g) t = halts_of g t.
Proof.
  intros g t Hc. destruct (get_init g t) as ([(_ & _ & E)|[L E]] & _); [exact E|]. unfold hts. rewrite E.
  unfold halts_of. cbn [t_halts dummy]. symmetry.
  destruct (filter _ (seq 0 (length g))) as [|h r] eqn:Ef; [reflexivity | exfalso].
  assert (Hin : In h (h :: r)) by (left; reflexivity). rewrite <- Ef in Hin.
  apply filter_In in Hin. destruct Hin as [_ Hm]. apply memn_In in Hm. pose proof (Hc h t Hm). lia.
Qed.

Lemma tame_reach : forall (g : list tdesc) (es : list event),
  g <> [] -> closed g -> tame (init_state g) es ->
  let s := run_events (init_state g) es in
  inv s /\ sym s /\ rsym s /\ kgood s /\ length (tasks s) = length g /\
  (forall t, wts s t = waits_g g t) /\ (forall t, hts s t = halts_of g t).
Proof.
  intros g es Hg Hc Ht s. pose proof (graph_run_events es (init_state g)) as Fr. fold s in Fr.
  destruct (tame_ind (fun _ => True)) with (es := es) (s := init_state g) as (_ & I & Sy & K);
    auto using inv_init; [split; auto using sym_init, kgood_init|].
  split; [exact I|]. split; [exact Sy|]. split; [apply (rsym_graph _ _ Fr), rsym_init|]. split; [exact K|].
  split; [rewrite (graph_len _ _ Fr); apply init_length|].
  split; intros t; [rewrite (wts_graph _ _ t Fr); apply get_init | rewrite (hts_graph _ _ t Fr); apply hts_init, Hc].
Qed.

Definition fires (s : state) (t : nat) : Prop :=
  st (ensure_one s t) t <> st s t \/ In t (running (ensure_one s t)).

Lemma st_run : forall s t, st (run s t) t = st s t \/ st (run s t) t = Doing \/ st (run s t) t = Undoing.
Proof.
  intros s t. rewrite run_eq, st_launch. unfold run_write. destruct (st s t) eqn:Es; rewrite <- ?Es; auto.
  - destruct (st_set_status s t Doing t) as [A|[_ A]]; rewrite A; auto.
  - destruct (st_set_status s t Undoing t) as [A|[_ A]]; rewrite A; auto.
Qed.

Lemma st_ensure_rest : forall s t,
  st (ensure_rest s t) t = st s t \/ st (ensure_rest s t) t = Done \/ st (ensure_rest s t) t = Doing \/
  st (ensure_rest s t) t = Undoing.
Proof.
  intros s t. unfold ensure_rest. repeat des_if; auto.
  - destruct (st_set_status s t Done t) as [A|[_ A]]; rewrite A; auto.
  - destruct (st_run s t) as [A|[A|A]]; rewrite A; auto.
Qed.

Lemma fires_abort : forall s t, inv s -> running s = [] -> st s t = Abort -> fires s t.
Proof.
  intros s t I Hr Hs. left. unfold ensure_one. destruct I as [Hp Hc Hrun]. rewrite Hp, Hr. simpl memn. cbv iota.
  rewrite Hs. simpl seqb. cbv iota.
  destruct (st_ensure_rest (try_undo s t) t) as [A|[A|[A|A]]]; rewrite A; try discriminate.
  destruct (st_try_undo s t Hp Hs) as [R|R]; rewrite R; discriminate.
Qed.

Lemma fires_run : forall s t,
  panicked s = false -> running s = [] -> ready (st s t) = false -> st s t <> Wait -> st s t <> Abort ->
  must_wait s t = false -> (st s t = Undo -> t_undo (get s t) = true) -> gate_open s t = true -> fires s t.
Proof.
  intros s t Hp Hr Hrd Hw Ha Hm Hu Hg. right. unfold ensure_one. rewrite Hp, Hr. simpl memn. cbv iota.
  apply seqb_neq in Ha. rewrite Ha. unfold ensure_rest. rewrite Hrd. apply seqb_neq in Hw. rewrite Hw, Hm.
  assert (E : seqb (st s t) Undo && negb (t_undo (get s t)) = false).
  { destruct (seqb (st s t) Undo) eqn:E1; [|reflexivity]. apply seqb_eq in E1. rewrite (Hu E1). reflexivity. }
  rewrite E, Hg. simpl negb. cbv iota. unfold run. cbn [running with_slog with_running]. left; reflexivity.
Qed.

Lemma fires_noundo : forall s t,
  panicked s = false -> running s = [] -> st s t = Undo -> must_wait s t = false -> t_undo (get s t) = false ->
  fires s t.
Proof.
  intros s t Hp Hr Hs Hm Hu. left. unfold ensure_one. rewrite Hp, Hr. simpl memn. cbv iota.
  rewrite Hs. simpl seqb. cbv iota. unfold ensure_rest. rewrite Hs, Hm. simpl ready. simpl seqb. cbv iota.
  rewrite Hu. simpl. rewrite st_set_status_same; [discriminate | assumption | | rewrite Hs; discriminate].
  apply in_range_st. rewrite Hs. discriminate.
Qed.

Lemma least_elem : forall R : nat -> nat -> Prop,
  (forall x, R x x) -> (forall x y z, R x y -> R y z -> R x z) -> (forall x y, R x y \/ R y x) ->
  forall l, l <> [] -> exists x, In x l /\ forall y, In y l -> R x y.
Proof.
  intros R Rr Rt Rc. induction l as [|a l IH]; intros H; [congruence|].
  destruct l as [|b l'].
  - exists a. split; [left; reflexivity|]. intros y [<-|[]]. apply Rr.
  - destruct IH as (x & Hx & Hm); [discriminate|].
    destruct (Rc a x) as [C|C].
    + exists a. split; [left; reflexivity|]. intros y [<-|Hy]; [apply Rr | eapply Rt; eauto].
    + exists x. split; [right; assumption|]. intros y [<-|Hy]; auto.
Qed.

Lemma not_all_ready_ex : forall l, all_ready l = false -> exists t, t < length l /\ ready (stl l t) = false.
Proof.
  induction l as [|a l IH]; simpl; intros H; [discriminate|].
  destruct (ready (t_st a)) eqn:E.
  - simpl in H. destruct (IH H) as (t & L & R). exists (S t). split; [lia | exact R].
  - exists 0. split; [lia | exact E].
Qed.

Lemma extremal_task : forall s (p : status -> bool) (f : nat -> nat) (up : bool), p Hold = false ->
  (forall t, p (st s t) = false) \/
  exists x, x < length (tasks s) /\ p (st s x) = true /\
            forall y, p (st s y) = true -> if up then f y <= f x else f x <= f y.
Proof.
  intros s p f up Hh. set (l := filter (fun t => p (st s t)) (seq 0 (length (tasks s)))).
  assert (Hl : forall t, In t l <-> p (st s t) = true).
  { intros t. unfold l. rewrite filter_In, in_seq. split; [tauto|]. intros H. split; [|exact H].
    assert (t < length (tasks s)) by (apply in_range_st; intros E; rewrite E in H; congruence). lia. }
  destruct l as [|a l'] eqn:El.
  - left. intros t. destruct (p (st s t)) eqn:E; [apply Hl in E; destruct E | reflexivity].
  - right.
    destruct (least_elem (fun x y => if up then f y <= f x else f x <= f y)) with (l := a :: l') as (x & Hx & Hm);
      [intros; destruct up; lia .. | discriminate|].
    exists x. split; [apply in_range_st; intros E; apply Hl in Hx; rewrite E in Hx; congruence|].
    split; [apply Hl; exact Hx | intros y Hy; apply Hm, Hl, Hy].
Qed.

Lemma stuck_free : forall s (rk : nat -> nat),
  inv s -> kgood s -> rsym s ->
  (forall t w, In w (wts s t) -> rk w < rk t) ->
  running s = [] -> (forall t, st s t <> Wait) -> (forall t, gate_open s t = true) ->
  all_ready (tasks s) = false ->
  exists t, t < length (tasks s) /\ fires s t.
Proof.
  intros s rk I [K _] Rs Hrk Hr Hnw Hg Hna.
  pose proof (i_np s I) as Hp.
  (* 1. a task in Abort *)
  destruct (extremal_task s (fun x => seqb x Abort) rk true eq_refl) as [NA|(a & L & E & _)].
  2:{ apply seqb_eq in E. exists a. split; [assumption | apply fires_abort; assumption]. }
  (* 2. a task left in Doing / Undoing without a tomb *)
  destruct (extremal_task s (fun x => seqb x Doing || seqb x Undoing) rk true eq_refl) as [ND|(a & L & E & _)].
  2:{ exists a. split; [assumption|]. apply fires_run; auto; unfold must_wait;
        try (intros F; rewrite F in E; discriminate); destruct (st s a); try discriminate E; reflexivity. }
  (* 3. tasks in Do: the one of least rank has all its wait tasks Done *)
  destruct (extremal_task s (fun x => seqb x Do) rk false eq_refl) as [NDo|(x & L & E & Hmin)].
  2:{ apply seqb_eq in E. exists x. split; [assumption|].
      apply fires_run; auto; try (rewrite E; try reflexivity; discriminate).
      apply (must_wait_do_iff s x E). intros w Hw.
      pose proof (K x w E Hw) as Lw. rewrite (lv_st s w (Hnw w)) in Lw. pose proof (ND w) as A2.
      destruct (st s w) eqn:Ew; try discriminate Lw; try discriminate A2; [|reflexivity].
      (* w in Do: it would have smaller rank than the minimum *)
      pose proof (Hmin w ltac:(rewrite Ew; reflexivity)). specialize (Hrk x w Hw). lia. }
  (* 4. only tasks in Undo are unready: the one of greatest rank has all its halt tasks ready *)
  assert (Only : forall t, ready (st s t) = false -> st s t = Undo).
  { intros t R. pose proof (NA t) as A1. pose proof (ND t) as A2. pose proof (NDo t) as A3. pose proof (Hnw t) as A4.
    destruct (st s t); simpl in *; try discriminate; try congruence. }
  destruct (extremal_task s (fun x => seqb x Undo) rk true eq_refl) as [NU|(x & L & E & Hmax)].
  { exfalso. destruct (not_all_ready_ex (tasks s) Hna) as (t0 & _ & R0). change (stl (tasks s) t0) with (st s t0) in R0.
    specialize (NU t0). rewrite (Only t0 R0) in NU. discriminate. }
  apply seqb_eq in E.
  assert (Hm : must_wait s x = false).
  { apply (must_wait_undo_iff s x E). intros h Hh. destruct (ready (st s h)) eqn:Hn; [reflexivity|].
    specialize (Hmax h). rewrite (Only h Hn) in Hmax. specialize (Hmax eq_refl). pose proof (Hrk h x (Rs x h Hh)). lia. }
  exists x. split; [assumption|].
  destruct (t_undo (get s x)) eqn:Eu.
  - apply fires_run; auto; try (rewrite E; try reflexivity; discriminate).
  - apply fires_noundo; auto.
Qed.

(* C01: no task is stranded. For every closed graph whose wait edges are acyclic (they go along a topological
   order), every tame history: in the reached state, if no handler runs, no task sits in Wait and no task is scheduled
   for later, then either every task is ready or the Ensure loop body fires for some task (it writes the task's status
   or starts its handler). *)
Theorem no_deadlock_total : forall (g : list tdesc) (rk : nat -> nat) (es : list event),
  g <> [] -> closed g -> (forall t w, In w (waits_g g t) -> rk w < rk t) ->
  tame (init_state g) es ->
  let s := run_events (init_state g) es in
  running s = [] -> (forall t, st s t <> Wait) -> (forall t, gate_open s t = true) ->
  all_ready (tasks s) = true \/ exists t, t < length (tasks s) /\ fires s t.
Proof.
  intros g rk es Hg Hc Hrk Ht s Hr Hnw Hgate.
  destruct (all_ready (tasks s)) eqn:Ea; [left; reflexivity | right].
  destruct (tame_reach g es Hg Hc Ht) as (I & _ & Rs & K & _ & W & _). fold s in I, Rs, K, W.
  apply (stuck_free s rk); auto. intros t w Hw. rewrite W in Hw. exact (Hrk t w Hw).
Qed.

Theorem finish_err_sets_error : forall s t,
  inv s -> In t (running s) -> st (finish s t OErr) t = Error /\ panicked (finish s t OErr) = false.
Proof.
  intros s t I Hin. pose proof (inv_step s (Finish t OErr) (fun F => ltac:(discriminate F)) I) as I'. split; [|apply (i_np _ I')].
  cbn [step] in I'. unfold finish in *. rewrite (i_np s I) in *.
  assert (Em : memn t (running s) = true) by (apply memn_In; assumption). rewrite Em in *. cbn [negb] in *.
  destruct (inv_reap s t I) as [I0 _].
  destruct (inv_abort_lanes_top _ t (lanes_of (get (remove_running s t) t)) I0 (i_run s I t Hin)) as (I1 & _ & _ & L1).
  apply st_set_status_same; [apply (i_np _ I1) | | discriminate].
  rewrite L1. apply (unr_range s t), (i_run s I t Hin).
Qed.

Theorem settled_error_status : forall l : list task,
  all_ready l = true -> has_status l Error = true -> change_status l = Error.
Proof. intros l A He. rewrite (settled_status_table l A), He. reflexivity. Qed.
