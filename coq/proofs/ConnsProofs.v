(* C22, about models/Conns.v. Everything is read pointwise: a state is what `lookup`, and `mem` on its three sets, answer
   for each id (`Agree`, `Equiv`). A connect or disconnect task changes the answers at its own id only, and its undo writes
   the old entry and the old repository answer back (`put_back`, `upd_back`). *)
From Coq Require Import List NArith Bool.
Import ListNotations.
Require Import V.models.Conns V.proofs.ListFacts.
Open Scope N_scope.

Definition is_active (o : option cstate) : bool := match o with Some c => active c | None => false end.

(* persisted active connections = repository connections = what both snaps' profiles were generated for *)
Definition Agree (s : st) : Prop :=
  (forall id, mem id (s_repo s) = is_active (lookup (s_conns s) id))
  /\ (forall id, mem id (s_profc s) = mem id (s_repo s))
  /\ (forall id, mem id (s_profp s) = mem id (s_repo s)).

Definition Equiv (a b : st) : Prop :=
  (forall id, lookup (s_conns a) id = lookup (s_conns b) id)
  /\ (forall id, mem id (s_repo a) = mem id (s_repo b))
  /\ (forall id, mem id (s_profc a) = mem id (s_profc b))
  /\ (forall id, mem id (s_profp a) = mem id (s_profp b)).

Lemma lookup_set : forall c id v x, lookup (set c id v) x = if id =? x then Some v else lookup c x.
Proof.
  induction c as [|[k w] r IH]; intros id v x; cbn.
  - rewrite N.eqb_sym. reflexivity.
  - destruct (k =? id) eqn:E; cbn.
    + apply N.eqb_eq in E. subst. destruct (id =? x); reflexivity.
    + rewrite IH. destruct (k =? x) eqn:E2; [|reflexivity]. apply N.eqb_eq in E2. subst.
      rewrite N.eqb_sym, E. reflexivity.
Qed.
Lemma lookup_del : forall c id x, lookup (del c id) x = if id =? x then None else lookup c x.
Proof.
  unfold del. induction c as [|[k w] r IH]; intros id x; cbn.
  - destruct (id =? x); reflexivity.
  - destruct (k =? id) eqn:E; cbn.
    + apply N.eqb_eq in E. subst. rewrite IH. destruct (id =? x); reflexivity.
    + rewrite IH. destruct (k =? x) eqn:E2; [|reflexivity]. apply N.eqb_eq in E2. subst.
      rewrite N.eqb_sym, E. reflexivity.
Qed.

Definition put (c : list (N * cstate)) (id : N) (o : option cstate) : list (N * cstate) :=
  match o with Some v => set c id v | None => del c id end.
Lemma lookup_put : forall c id o x, lookup (put c id o) x = if id =? x then o else lookup c x.
Proof. intros c id [v|] x; [apply lookup_set | apply lookup_del]. Qed.
Lemma put_back : forall c id o old x, lookup c id = old -> lookup (put (put c id o) id old) x = lookup c x.
Proof. intros c id o old x H. rewrite !lookup_put. destruct (N.eqb_spec id x); [subst|]; reflexivity. Qed.

Lemma mem_true_iff : forall x l, mem x l = true <-> In x l.
Proof. exact (existsb_eqb_In N.eqb N.eqb_eq). Qed.
Lemma mem_cons : forall x i l, mem x (i :: l) = (i =? x) || mem x l.
Proof. intros. unfold mem. cbn [existsb]. rewrite (N.eqb_sym x i). reflexivity. Qed.
Lemma mem_add : forall x id l, mem x (add id l) = (id =? x) || mem x l.
Proof.
  intros x id l. unfold add. destruct (mem id l) eqn:M; [|apply mem_cons].
  destruct (N.eqb_spec id x); [subst; rewrite M|]; reflexivity.
Qed.
Lemma mem_filter : forall p l x, mem x (filter p l) = mem x l && p x.
Proof.
  intros p l x. induction l as [|y r IH]; [reflexivity|]. cbn [filter].
  destruct (p y) eqn:P; rewrite ?mem_cons, IH; (destruct (N.eqb_spec y x); [subst; rewrite P, ?andb_false_r|]; reflexivity).
Qed.
Lemma mem_remove : forall x id l, mem x (remove id l) = negb (id =? x) && mem x l.
Proof. intros x id l. unfold remove. rewrite mem_filter, (N.eqb_sym x id). apply andb_comm. Qed.
(* Repository.Connect / Disconnect as one write of the answer b at id, as `put` is for conns; the deferred repo.Disconnect
   of a failing connect task and the deferred repo.Connect of a failing disconnect task write the old answer back. `upd l id true` computes to `add id l` and `upd l id false`
   to `remove id l`, so these facts apply to the model's terms as they stand *)
Definition upd (l : list N) (id : N) (b : bool) : list N := if b then add id l else remove id l.
Lemma mem_upd : forall l id b x, mem x (upd l id b) = if id =? x then b else mem x l.
Proof. intros l id [|] x; cbn [upd]; [rewrite mem_add | rewrite mem_remove]; destruct (id =? x); reflexivity. Qed.
Lemma upd_back : forall l id b old x, mem id l = old -> mem x (upd (upd l id b) id old) = mem x l.
Proof. intros l id b old x H. rewrite !mem_upd. destruct (N.eqb_spec id x); [subst|]; reflexivity. Qed.

Lemma lookup_Some_In : forall c x v, lookup c x = Some v -> In (x, v) c.
Proof.
  induction c as [|[k w] r IH]; intros x v H; cbn in H; [discriminate|].
  destruct (N.eqb_spec k x); [inversion H; subst; left; reflexivity | right; apply IH; assumption].
Qed.
Lemma mem_active_ids : forall c x, mem x (active_ids c) = is_active (lookup c x).
Proof.
  intros c x. apply eq_true_iff_eq. unfold active_ids. rewrite mem_true_iff, in_map_iff. split.
  - intros [[k v] [E I]]. cbn in E. subst k. apply filter_In in I. exact (proj2 I).
  - intro A. destruct (lookup c x) as [v|] eqn:L; [|discriminate A]. exists (x, v). split; [reflexivity|].
    apply filter_In. split; [apply lookup_Some_In; exact L | cbn; rewrite L; exact A].
Qed.
Lemma is_nil_mem : forall l, is_nil l = true <-> forall x, mem x l = false.
Proof.
  intros [|y r]; cbn; split; intro H; try reflexivity; try discriminate.
  specialize (H y). rewrite N.eqb_refl in H. discriminate.
Qed.
Lemma is_nil_ext : forall l l', (forall x, mem x l = mem x l') -> is_nil l = is_nil l'.
Proof.
  intros l l' H. apply eq_true_iff_eq. rewrite !is_nil_mem. split; intros E x; [rewrite <- H | rewrite H]; apply E.
Qed.

Lemma fold_writes : forall {A B} (obs : A -> N -> B) (f : A -> N -> A) (v : B),
  (forall a i x, obs (f a i) x = if i =? x then v else obs a x) ->
  forall ids a x, obs (fold_left f ids a) x = if mem x ids then v else obs a x.
Proof.
  intros A B obs f v W. induction ids as [|i r IH]; intros a x; cbn [fold_left]; [reflexivity|].
  rewrite IH, W, mem_cons. destruct (mem x r), (i =? x); reflexivity.
Qed.
Lemma lookup_fold_put : forall o ids c x, lookup (fold_left (fun c id => put c id o) ids c) x = if mem x ids then o else lookup c x.
Proof. intro o. exact (fold_writes lookup _ o (fun c id => lookup_put c id o)). Qed.
Lemma mem_fold_add : forall ids r x, mem x (fold_left (fun r id => add id r) ids r) = mem x ids || mem x r.
Proof. exact (fold_writes (fun r x => mem x r) _ true (fun r id x => mem_add x id r)). Qed.
Lemma mem_fold_remove : forall ids r x, mem x (fold_left (fun r id => remove id r) ids r) = negb (mem x ids) && mem x r.
Proof.
  intros ids r x. transitivity (if mem x ids then false else mem x r); [|destruct (mem x ids); reflexivity].
  apply (fold_writes (fun r x => mem x r) _ false). intros a i y. rewrite mem_remove. destruct (i =? y); reflexivity.
Qed.
Lemma mem_newids : forall s x,
  mem x (newids s) = mem x univ && match lookup (s_conns s) x with None => true | Some _ => false end.
Proof. intros s x. apply mem_filter. Qed.
Lemma newids_fresh : forall s x, mem x (newids s) = true -> lookup (s_conns s) x = None.
Proof.
  intros s x H. rewrite mem_newids in H. apply andb_true_iff in H.
  destruct (lookup (s_conns s) x); [destruct H; discriminate | reflexivity].
Qed.
Lemma newids_setup_profiles : forall s fc fp, newids (setup_profiles s fc fp) = newids s.
Proof. reflexivity. Qed.

Lemma Equiv_refl : forall a, Equiv a a.
Proof. intro a. repeat split. Qed.
Lemma Equiv_trans : forall a b c, Equiv a b -> Equiv b c -> Equiv a c.
Proof. intros a b c [A1 [A2 [A3 A4]]] [B1 [B2 [B3 B4]]]. repeat split; intro x; congruence. Qed.
Lemma Equiv_Agree : forall a b, Equiv a b -> Agree b -> Agree a.
Proof.
  intros a b [E1 [E2 [E3 E4]]] [A1 [A2 A3]]. split; [|split]; intro x.
  - rewrite E2, E1. apply A1.
  - rewrite E3, E2. apply A2.
  - rewrite E4, E2. apply A3.
Qed.
Lemma Agree_determined_by_conns : forall t s, Agree t -> Agree s -> (forall x, lookup (s_conns t) x = lookup (s_conns s) x) -> Equiv t s.
Proof.
  intros t s [T1 [T2 T3]] [S1 [S2 S3]] L.
  assert (R : forall x, mem x (s_repo t) = mem x (s_repo s)) by (intro x; rewrite T1, S1, L; reflexivity).
  split; [exact L | split; [exact R | split]]; intro x; [rewrite T2, S2 | rewrite T3, S3]; apply R.
Qed.
(* a task that ran to its end wrote one set r to the repository and to both profiles *)
Lemma Agree_same : forall c r, (forall x, mem x r = is_active (lookup c x)) -> Agree (mkSt c r r r).
Proof. intros c r H. split; [exact H | split; reflexivity]. Qed.
Lemma Equiv_same : forall s c r, Agree s -> (forall x, lookup c x = lookup (s_conns s) x) ->
  (forall x, mem x r = mem x (s_repo s)) -> Equiv (mkSt c r r r) s.
Proof.
  intros s c r AG C R. apply Agree_determined_by_conns; [apply Agree_same | exact AG | exact C].
  intro x. rewrite R, C. apply (proj1 AG).
Qed.
(* a task that failed in its first security setup touched the repository only *)
Lemma Equiv_repo : forall s r, (forall x, mem x r = mem x (s_repo s)) -> Equiv (mkSt (s_conns s) r (s_profc s) (s_profp s)) s.
Proof. intros s r R. split; [|split; [exact R | split]]; reflexivity. Qed.

(* r = (state after settle, change was created, change ended in Error), see run_change: a change that was refused or
   failed has restored the state it started from, and every change ends in an agreeing state *)
Definition Settles (s : st) (r : st * bool * bool) : Prop :=
  ((snd r = true \/ snd (fst r) = false) -> Equiv (fst (fst r)) s) /\ Agree (fst (fst r)).
Lemma restored : forall s t c e, Agree s -> Equiv t s -> Settles s (t, c, e).
Proof. intros s t c e A E. split; [intros _; exact E | exact (Equiv_Agree t s E A)]. Qed.
Lemma unchanged : forall s c e, Agree s -> Settles s (s, c, e).
Proof. intros s c e A. apply restored; [exact A | apply Equiv_refl]. Qed.
Lemma completed : forall s t, Agree t -> Settles s (t, true, false).
Proof. intros s t A. split; [intros [H | H]; discriminate H | exact A]. Qed.

Lemma Agree_written : forall s id o, Agree s ->
  let r := upd (s_repo s) id (is_active o) in Agree (mkSt (put (s_conns s) id o) r r r).
Proof.
  intros s id o [A _]. apply Agree_same. intro x. rewrite mem_upd, lookup_put, A. destruct (id =? x); reflexivity.
Qed.
Lemma Agree_forgotten : forall s id, Agree s -> mem id (s_repo s) = false ->
  Agree (mkSt (del (s_conns s) id) (s_repo s) (s_profc s) (s_profp s)).
Proof.
  intros s id [A1 A23] M. split; [|exact A23]. intro x. cbn [s_conns s_repo]. rewrite lookup_del.
  destruct (N.eqb_spec id x); [subst; exact M | apply A1].
Qed.

Lemma connect_cases : forall s id auto byg f, Agree s -> excluded s (OConnect id auto byg) f = false ->
  Settles s (run_change s (OConnect id auto byg) f).
Proof.
  intros s id auto byg f AG EX. pose proof AG as [A1 _]. unfold run_change.
  destruct (creates s (OConnect id auto byg)) eqn:CR; cbn [negb]; [|apply unchanged; exact AG].
  assert (IN : is_active (lookup (s_conns s) id) = false).
  { cbn [creates] in CR. destruct (lookup (s_conns s) id); [apply negb_true_iff; exact CR | reflexivity]. }
  assert (M : mem id (s_repo s) = false) by (rewrite A1; exact IN).
  pose proof (fun x => upd_back (s_repo s) id true false x M) as BACK.
  pose proof (Agree_written s id (Some (mkC auto byg false false true)) AG) as AG1.
  unfold do_connect. destruct f as [| |k|]; cbn [excluded] in EX.
  - cbn [N.eqb negb]. apply completed. exact AG1.
  - apply unchanged. exact AG.
  - rewrite EX. destruct (k =? 1); cbn [negb].
    + apply restored; [exact AG | apply Equiv_repo; exact BACK].
    + apply completed. exact AG1.
  - cbn [N.eqb]. apply restored; [exact AG|]. apply Equiv_same; [exact AG | | exact BACK].
    (* old-conn is the entry that was there: an inactive entry outside the excluded class is undesired *)
    intro x. refine (put_back (s_conns s) id (Some _) _ x _).
    destruct (lookup (s_conns s) id) as [c|]; [|reflexivity].
    unfold is_active, active in IN. destruct (c_undesired c); [reflexivity|]. destruct (c_hpgone c); discriminate.
Qed.

Lemma disconnect_cases : forall s id forget ad bh f, Agree s -> excluded s (ODisconnect id forget ad bh) f = false ->
  Settles s (run_change s (ODisconnect id forget ad bh) f).
Proof.
  intros s id forget ad bh f AG EX. pose proof AG as [A1 _]. unfold run_change.
  destruct (creates s (ODisconnect id forget ad bh)) eqn:CR; cbn [negb]; [|apply unchanged; exact AG].
  cbn [creates] in CR. unfold do_disconnect. destruct (lookup (s_conns s) id) as [c|] eqn:L.
  2:{ destruct f; apply unchanged; exact AG. }
  destruct (mem id (s_repo s)) eqn:M; cbn [negb].
  - pose proof (fun x => upd_back (s_repo s) id false true x M) as BACK.
    (* whatever doDisconnect writes for a connection that was in the repository, the entry is not active afterwards *)
    set (c' := if forget then _ else _).
    assert (C' : exists o, c' = put (s_conns s) id o /\ is_active o = false).
    { unfold c'. destruct forget; [exists None; split; reflexivity|].
      destruct bh; [eexists (Some _); split; [reflexivity | apply andb_false_r]|].
      destruct (c_auto c && negb ad); [eexists (Some _) | exists None]; split; reflexivity. }
    destruct C' as [o [-> IN]].
    pose proof (Agree_written s id o AG) as AG1. cbv zeta in AG1. rewrite IN in AG1.
    destruct f as [| |k|]; cbn [excluded] in EX.
    + cbn [N.eqb negb]. apply completed. exact AG1.
    + apply unchanged. exact AG.
    + rewrite M in EX. cbn [andb] in EX. rewrite EX. destruct (k =? 1); cbn [negb].
      * apply restored; [exact AG | apply Equiv_repo; exact BACK].
      * apply completed. exact AG1.
    + cbn [N.eqb]. apply restored; [exact AG|]. apply Equiv_same; [exact AG | | exact BACK].
      intro x. exact (put_back (s_conns s) id o (Some c) x L).
  - (* not in the repository: only Forget gets here, and deletes the (inactive) entry *)
    rewrite orb_false_r in CR. subst forget.
    pose proof (Agree_forgotten s id AG M) as AG1.
    destruct f as [| |k|]; [apply completed; exact AG1 | apply unchanged; exact AG | apply completed; exact AG1 |].
    cbn [excluded] in EX. rewrite M in EX. discriminate EX.
Qed.

(* the deferred repo.Connect of /repo commit 63d7dd9: whichever security setup call of a disconnect / forget task fails, conns
   and the repository are as they were, in any state *)
Lemma disconnect_setup_failure_restores : forall s id forget ad bh k, (k = 1 \/ k = 2) -> mem id (s_repo s) = true ->
  let r := run_change s (ODisconnect id forget ad bh) (FailMain k) in
  snd r = true /\ s_conns (fst (fst r)) = s_conns s /\ forall x, mem x (s_repo (fst (fst r))) = mem x (s_repo s).
Proof.
  intros s id forget ad bh k Hk M. unfold run_change, creates, do_disconnect. rewrite M, orb_true_r. cbn [negb].
  destruct (lookup (s_conns s) id); [|repeat split].
  destruct Hk; subst k; cbn [N.eqb Pos.eqb fst snd s_conns s_repo negb]; (split; [reflexivity|]); (split; [reflexivity|]);
    intro x; exact (upd_back (s_repo s) id false true x M).
Qed.

(* setup-profiles rebuilds the repository and the profiles from conns: on an agreeing state it changes nothing, whichever
   of its security setup calls fails *)
Lemma setup_profiles_Equiv : forall t fc fp, Agree t -> Equiv (setup_profiles t fc fp) t.
Proof.
  intros t fc fp [A1 [A2 A3]].
  assert (R : forall x, mem x (active_ids (s_conns t)) = mem x (s_repo t)) by (intro x; rewrite mem_active_ids; symmetry; apply A1).
  unfold setup_profiles. split; [reflexivity | split; [exact R | split]]; intro x; cbn [s_profc s_profp s_repo].
  - destruct fc; [reflexivity | rewrite R; symmetry; apply A2].
  - destruct (_ && negb fp); [rewrite R; symmetry; apply A3 | reflexivity].
Qed.

(* without a failing call everything is written from conns, except the slot snap's profile when that snap is not affected:
   repository empty before and after the reload *)
Lemma setup_profiles_Agree : forall t,
  (is_nil (s_repo t) = true -> is_nil (active_ids (s_conns t)) = true -> forall x, mem x (s_profp t) = false) ->
  Agree (setup_profiles t false false).
Proof.
  intros t H. unfold setup_profiles. split; [|split]; intro x; cbn [s_conns s_repo s_profc s_profp].
  - apply mem_active_ids.
  - reflexivity.
  - cbn [negb]. rewrite andb_true_r.
    destruct (is_nil (s_repo t)) eqn:E1; destruct (is_nil (active_ids (s_conns t))) eqn:E2; cbn [negb orb]; try reflexivity.
    rewrite (H eq_refl eq_refl x). symmetry. apply (proj1 (is_nil_mem _) E2).
Qed.

(* the second setup-profiles task, after the connect tasks: if they left the repository empty it was empty before, and the
   slot snap's profile, which is then not written, was empty with it *)
Lemma connected_setup_Agree : forall t ids, Agree t -> Agree (setup_profiles (connect_all ids t) false false).
Proof.
  intros t ids [_ [_ A3]]. apply setup_profiles_Agree. cbn [connect_all s_repo s_profp]. intros H1 _ x.
  pose proof (proj1 (is_nil_mem _) H1 x) as H. rewrite mem_fold_add in H. apply orb_false_iff in H.
  rewrite A3. exact (proj2 H).
Qed.

(* the undo of the connect tasks and of setup-profiles, from any state X whose conns are those of s plus the new entries *)
Lemma autoconnect_undo_restores : forall s X ids, Agree s ->
  (forall x, mem x ids = true -> lookup (s_conns s) x = None) ->
  s_conns X = fold_left (fun c id => set c id auto_c) ids (s_conns s) ->
  (is_nil (active_ids (s_conns s)) = false \/ forall x, mem x (s_profp X) = mem x (active_ids (s_conns s))) ->
  Equiv (setup_profiles (unconnect_all ids X) false false) s.
Proof.
  intros s X ids AG NEW CX COND.
  assert (LK : forall x, lookup (s_conns (unconnect_all ids X)) x = lookup (s_conns s) x).
  { intro x. unfold unconnect_all. cbn [s_conns]. rewrite (lookup_fold_put None), CX, (lookup_fold_put (Some auto_c)).
    destruct (mem x ids) eqn:M; [symmetry; apply NEW; assumption | reflexivity]. }
  apply Agree_determined_by_conns; [apply setup_profiles_Agree | exact AG | exact LK].
  (* the slot snap is not affected only if nothing is active, and then its profile must be right already *)
  intros _ NA x. rewrite (is_nil_ext _ (active_ids (s_conns s))) in NA by (intro y; rewrite !mem_active_ids, LK; reflexivity).
  destruct COND as [C | C]; [congruence|]. unfold unconnect_all. cbn [s_profp]. rewrite C. apply is_nil_mem. exact NA.
Qed.

Lemma autoconnect_cases : forall s f, Agree s -> excluded s OAutoConnect f = false ->
  let r := run_change s OAutoConnect f in
  ((snd r = true \/ snd (fst r) = false) -> Equiv (fst (fst r)) s) /\ Agree (fst (fst r)).
Proof.
  intros s f AG EX. change (Settles s (run_autoconnect s f)). unfold run_autoconnect. cbv zeta.
  rewrite newids_setup_profiles. pose proof AG as [A1 _].
  set (s1 := setup_profiles s false false).
  assert (E1 : Equiv s1 s) by (apply setup_profiles_Equiv; exact AG).
  pose proof (Equiv_Agree s1 s E1 AG) as AG1.
  assert (NILR : is_nil (s_repo s) = is_nil (active_ids (s_conns s))).
  { apply is_nil_ext. intro x. rewrite mem_active_ids. apply A1. }
  pose proof (connected_setup_Agree s1 (newids s) AG1) as OK.
  pose proof (fun X => autoconnect_undo_restores s X (newids s) AG (newids_fresh s)) as UN.
  destruct f as [| |k|]; cbn [excluded] in EX.
  - cbn [N.leb N.compare N.sub N.eqb andb orb]. destruct (is_nil (newids s)); apply completed; [exact AG1 | exact OK].
  - apply unchanged. exact AG.
  - destruct ((1 <=? k) && (k <=? setup_calls s)).
    { apply restored; [exact AG | apply setup_profiles_Equiv; exact AG]. }
    destruct (is_nil (newids s)) eqn:N.
    { apply completed. exact AG1. }
    destruct ((k - setup_calls s =? 1) || (k - setup_calls s =? 2)) eqn:K2; [|apply completed; exact OK].
    apply restored; [exact AG|]. apply UN; [reflexivity|].
    destruct (is_nil (active_ids (s_conns s))) eqn:NA; [right | left; reflexivity].
    (* no active connection: the first setup-profiles makes one call, so k = 2 is excluded and k = 3 is the slot snap's call *)
    assert (SC : setup_calls s = 1) by (unfold setup_calls; rewrite NILR, NA; reflexivity).
    cbn [andb negb] in EX. rewrite SC in *.
    assert (K3 : (k - 1 =? 2) = true).
    { destruct (k - 1 =? 1) eqn:X; [|cbn in K2; exact K2]. apply N.eqb_eq, N.add_sub_eq_nz in X; [|discriminate]. subst k. discriminate EX. }
    intro x. unfold setup_profiles at 1. cbn [s_profp]. rewrite K3. cbn [negb]. rewrite andb_false_r.
    exact (proj2 (proj2 AG1) x).
  - cbn [N.leb N.compare N.sub N.eqb andb orb]. apply restored; [exact AG|]. destruct (is_nil (newids s)) eqn:N.
    + exact (Equiv_trans _ _ _ (setup_profiles_Equiv s1 false false AG1) E1).
    + cbn [negb] in EX. rewrite andb_true_r in EX. apply UN; [reflexivity | left; exact EX].
Qed.

Theorem autoconnect_success : forall s x, snd (run_change s OAutoConnect NoFail) = false /\
  lookup (s_conns (fst (fst (run_change s OAutoConnect NoFail)))) x =
    (if mem x univ then match lookup (s_conns s) x with Some c => Some c | None => Some auto_c end else lookup (s_conns s) x).
Proof.
  intros s x. cbn [run_change]. unfold run_autoconnect. cbv zeta. cbn [N.leb N.compare N.sub N.eqb andb orb].
  rewrite newids_setup_profiles. split; [destruct (is_nil (newids s)); reflexivity|].
  transitivity (if mem x (newids s) then Some auto_c else lookup (s_conns s) x).
  - (* with no new pair there are no connect tasks: connect_all [] t = t *)
    destruct (newids s); [reflexivity | exact (lookup_fold_put (Some auto_c) _ _ x)].
  - rewrite mem_newids. destruct (mem x univ); [|reflexivity]. destruct (lookup (s_conns s) x); reflexivity.
Qed.

Lemma profp_removed : forall s, Agree s -> forall x, mem x (if is_nil (s_repo s) then s_profp s else []) = false.
Proof.
  intros s [_ [_ A3]] x. destruct (is_nil (s_repo s)) eqn:NI; [|reflexivity].
  rewrite A3. destruct (s_repo s); [reflexivity | discriminate].
Qed.

Lemma remove_cases : forall s f, Agree s -> excluded s ORemove f = false ->
  let r := run_change s ORemove f in
  ((snd r = true \/ snd (fst r) = false) -> Equiv (fst (fst r)) s) /\ Agree (fst (fst r)).
Proof.
  intros s f AG EX. change (Settles s (run_remove s f)). unfold run_remove. pose proof AG as [A1 [A2 _]].
  destruct f as [| |k|]; [ | apply unchanged; exact AG | discriminate EX | ].
  - apply completed. split; [|split; [|exact (profp_removed s AG)]]; reflexivity.
  - apply restored; [exact AG|]. set (rest := fold_left del (s_repo s) (s_conns s)).
    assert (R0 : forall x, mem x (active_ids rest) = false).
    { intro x. unfold rest. rewrite mem_active_ids, (lookup_fold_put None). destruct (mem x (s_repo s)) eqn:M; [reflexivity|]. rewrite <- A1. exact M. }
    assert (R1 : forall x, mem x (fold_left (fun r id => add id r) (s_repo s) (active_ids rest)) = mem x (s_repo s)).
    { intro x. rewrite mem_fold_add, R0. apply orb_false_r. }
    destruct (is_nil (s_repo s)) eqn:NI; [|apply Equiv_same; [exact AG | reflexivity | exact R1]].
    (* no connection, so no disconnect task: only the undo of remove-profiles wrote, and not the slot snap's profile *)
    split; [reflexivity | split; [exact R1 | split]]; intro x; cbn [s_profc s_profp].
    + rewrite R0, A2. symmetry. apply is_nil_mem. exact NI.
    + rewrite (proj2 (is_nil_mem _) R0). reflexivity.
Qed.

Lemma change_cases : forall s o f, Agree s -> excluded s o f = false -> Settles s (run_change s o f).
Proof.
  intros s o f AG EX.
  destruct o; [apply connect_cases | apply disconnect_cases | apply remove_cases | apply autoconnect_cases]; assumption.
Qed.

(* no step of the history is in one of the recorded failing classes *)
Fixpoint safe_history (s : st) (h : list (op * fail)) : Prop :=
  match h with
  | [] => True
  | (o, f) :: r => excluded s o f = false /\ safe_history (fst (fst (run_change s o f))) r
                   (* a successful removal of the plug snap ends the history: the model's world has both snaps installed *)
                   /\ (o = ORemove -> snd (run_change s o f) = false -> r = [])
  end.

Lemma lookup_notin : forall c id, ~ In id (map fst c) -> lookup c id = None.
Proof.
  intros c id H. destruct (lookup c id) as [v|] eqn:L; [|reflexivity].
  destruct H. exact (in_map fst c (id, v) (lookup_Some_In c id v L)).
Qed.
Lemma reload_mem : forall c, NoDup (map fst c) -> forall id, mem id (reload c) = is_active (lookup c id).
Proof.
  induction c as [|[k v] r IH]; intros ND id; [reflexivity|].
  cbn in ND. inversion ND as [|? ? Hk ND']; subst. specialize (IH ND'). cbn [reload lookup].
  destruct (N.eqb_spec k id) as [e | n].
  - subst. cbn [is_active]. destruct (active v) eqn:Av.
    + rewrite mem_add, N.eqb_refl. reflexivity.
    + rewrite IH, (lookup_notin r id Hk). reflexivity.
  - apply N.eqb_neq in n. destruct (active v); [rewrite mem_add, n|]; apply IH.
Qed.

Lemma ocstate_eqb_refl : forall o, ocstate_eqb o o = true.
Proof. intros [[[] [] [] [] []]|]; reflexivity. Qed.
Lemma subset_of : forall a b, (forall x, mem x a = mem x b) -> subset a b = true.
Proof. intros a b H. unfold subset. apply forallb_forall. intros x I. rewrite <- H. apply mem_true_iff. exact I. Qed.
Lemma Equiv_st_eqb : forall a b, Equiv a b -> st_eqb a b = true.
Proof.
  intros a b [E1 [E2 [E3 E4]]]. unfold st_eqb, conns_eqb, set_eqb.
  repeat (apply andb_true_iff; split); try (apply subset_of; intro x; congruence);
    apply forallb_forall; intros e _; rewrite E1; apply ocstate_eqb_refl.
Qed.

Definition s_one := mkSt [(0, mkC false false false false true)] [0] [0] [0].
Lemma agree_s_one : Agree s_one.
Proof. split; [|split]; cbn; try reflexivity. intro id. destruct id; reflexivity. Qed.
Lemma agree_inactive : forall c, active c = false -> Agree (mkSt [(0, c)] [] [] []).
Proof. intros c H. split; [|split]; cbn; try reflexivity. intro id. destruct id; cbn; [rewrite H|]; reflexivity. Qed.

(* a witness against the unguarded statement: from the agreeing state s the change o fails at f, and already the
   comparison used on observed states tells the outcome from s *)
Lemma refutes : forall s o f, Agree s -> snd (run_change s o f) = true -> st_eqb (fst (fst (run_change s o f))) s = false ->
  exists s o f, Agree s /\ snd (run_change s o f) = true /\ ~ Equiv (fst (fst (run_change s o f))) s.
Proof.
  intros s o f A F N. exists s, o, f. split; [exact A | split; [exact F|]]. intro E. apply Equiv_st_eqb in E. congruence.
Qed.
