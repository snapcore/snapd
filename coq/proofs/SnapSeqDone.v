(* On models/SnapSeq.v, changes that run to their end: what a completed revert does (revert_in_place, C13), which revisions a
   completed refresh keeps (c10_completed, refresh_kept_bound, refresh_new_bound, C12), and that every completed operation of
   every kind preserves the invariant (completed_wf, C11). *)
From Coq Require Import List NArith ZArith Bool Arith Lia.
Import ListNotations.
Require Import V.models.SnapSeq V.proofs.ListFacts V.proofs.SnapSeqProofs V.proofs.SnapSeqGc V.proofs.SnapSeqProofs3.
Open Scope N_scope.

Lemma do_task_link : forall o r X, fst (do_task o (KLink, r) X) = fst (do_link o X).
Proof. intros. unfold do_task. cbn [fst snd]. destruct (do_link o X). reflexivity. Qed.

(* the state link-snap starts from: the target mounted if it was not kept, the snap unlinked if it was installed *)
Lemma pre_link_runs : forall o s,
  run_ok o (pre_link o s) s
  = let s1 := if mem (orev o) (seq s) then s else do_mount (orev o) s in
    if installed s then set_active_link false 0 s1 else s1.
Proof.
  intros o s. unfold pre_link, installed.
  destruct (mem (orev o) (seq s)), (seq s) as [|x l] eqn:SQ; cbn [app]; try reflexivity;
    unfold run_ok; cbn [fold_left]; unfold do_task; cbn [fst snd]; apply norm_id; cbn [seq set_active_link do_mount];
    rewrite SQ; discriminate.
Qed.

Lemma pre_link_fields : forall o s, let X := run_ok o (pre_link o s) s in
  seq X = seq s /\ cur X = cur s /\ nb X = nb s /\
  mounted X = if mem (orev o) (seq s) then mounted s else ins (orev o) (mounted s).
Proof.
  intros o s. rewrite pre_link_runs. cbv zeta. destruct (mem (orev o) (seq s)), (installed s); repeat split; reflexivity.
Qed.

Definition linked (o : op) (s : st) : st := fst (do_link o (run_ok o (pre_link o s) s)).

(* a completed install / refresh / revert: link the target, drop the garbage-collected revisions, run the configure hook *)
Lemma c10_runs : forall o s retain inuse, c10_op o ->
  run_change o 0 (tasks_for o s retain inuse) s
  = do_configure o (run_ok o (discards (gc_of o s retain inuse)) (linked o s)).
Proof.
  intros o s retain inuse OP. rewrite run_change_ok, (tasks_for_c10 o s retain inuse OP), install_tasks_ess.
  rewrite run_ok_app, run_ok_cons, do_task_link, run_ok_app. reflexivity.
Qed.

Lemma do_link_cur : forall o X, cur (fst (do_link o X)) = orev o. Proof. reflexivity. Qed.
Lemma do_link_mounted : forall o X, mounted (fst (do_link o X)) = mounted X. Proof. reflexivity. Qed.
Lemma do_link_nb : forall o X,
  nb (fst (do_link o X)) = if is_revert o then (if onotblocked o then ins (cur X) (nb X) else rem (cur X) (nb X))
                           else rem (orev o) (nb X).
Proof. reflexivity. Qed.

(* link-snap on a state that satisfies the invariant but for the link, the target possibly mounted already *)
Lemma do_link_wf : forall o X,
  NoDup (seq X) -> (seq X <> [] -> In (cur X) (seq X)) -> incl (nb X) (seq X) -> sorted (nb X) -> sorted (mounted X) ->
  (forall x, In x (mounted X) <-> In x (seq X) \/ x = orev o) ->
  (is_revert o = true -> In (orev o) (seq X)) ->
  wf (fst (do_link o X)).
Proof.
  intros o X ND IC NB SN SM HM RV. destruct (do_link_seq_spec o X ND RV) as [ND' P].
  assert (Ir : In (orev o) (seq (fst (do_link o X)))) by (apply P; right; reflexivity).
  constructor; rewrite ?do_link_cur, ?do_link_mounted, ?do_link_nb; auto.
  - intros E. rewrite E in Ir. destruct Ir.
  - intros x Hx. apply P. left. destruct (is_revert o) eqn:R; [destruct (onotblocked o)|].
    + apply In_ins in Hx. destruct Hx as [->|Hx]; [|auto]. apply IC. intros E. specialize (RV eq_refl). rewrite E in RV. destruct RV.
    + apply In_rem in Hx. apply NB. tauto.
    + apply In_rem in Hx. apply NB. tauto.
  - destruct (is_revert o); [destruct (onotblocked o)|]; auto using sorted_ins, sorted_rem.
  - intros x. rewrite HM. symmetry. apply P.
Qed.

Lemma wf_linked : forall o s, wf s -> c10_op o -> accepts o s = true ->
  wf (linked o s) /\ cur (linked o s) = orev o /\
  (forall x, In x (seq (linked o s)) <-> In x (seq s) \/ x = orev o) /\
  (~ In (orev o) (seq s) -> seq (linked o s) = seq s ++ [orev o]) /\
  (In (orev o) (seq s) -> length (seq (linked o s)) = length (seq s)).
Proof.
  intros o s W OP AC. pose proof W as [W1 W2 W3 W4 W5 W6 W7 W8].
  assert (RV : is_revert o = true -> In (orev o) (seq s)).
  { destruct (c10_accepted o s OP AC) as [(_ & NR)|(_ & _ & _ & RV)]; [congruence|exact RV]. }
  destruct (pre_link_fields o s) as (SX & CX & NX & MX). unfold linked. set (X := run_ok o (pre_link o s) s) in *.
  assert (ND : NoDup (seq X)) by (rewrite SX; exact W1).
  assert (RX : is_revert o = true -> In (orev o) (seq X)) by (rewrite SX; exact RV).
  destruct (do_link_seq_spec o X ND RX) as [_ P].
  split; [|split; [reflexivity|split; [intros x; rewrite P, SX; reflexivity|split]]].
  - apply do_link_wf; rewrite ?SX, ?CX, ?NX; auto.
    + rewrite MX. destruct (mem (orev o) (seq s)); [exact W6|apply sorted_ins, W6].
    + intros x. rewrite MX. destruct (mem (orev o) (seq s)) eqn:M; [apply mem_In in M|rewrite In_ins]; rewrite W7; [|tauto].
      split; [auto|]. intros [H| ->]; assumption.
  - intros NI. unfold do_link. cbn [fst seq]. rewrite SX. apply last_index_none in NI. rewrite NI. reflexivity.
  - intros I. unfold do_link. cbn [fst seq]. rewrite SX.
    destruct (last_index_some _ _ I) as [i LI]. rewrite LI. destruct (is_revert o); [reflexivity|].
    destruct (last_index_split _ _ _ W1 LI) as (a & b & SQ & LA & _ & _).
    rewrite SQ, <- LA, remove_at_app, !app_length. simpl. lia.
Qed.

Lemma wf_configure : forall o X, wf X -> seq X <> [] -> wf (do_configure o X).
Proof.
  intros o X [W1 W2 W3 W4 W5 W6 W7 W8] NE. unfold do_configure. destruct (ohookcfg o =? 0); constructor; simpl; auto; tauto.
Qed.

Lemma seq_configure : forall o X, seq (do_configure o X) = seq X.
Proof. intros. unfold do_configure. destruct (ohookcfg o =? 0); reflexivity. Qed.
Lemma cur_configure : forall o X, cur (do_configure o X) = cur X.
Proof. intros. unfold do_configure. destruct (ohookcfg o =? 0); reflexivity. Qed.

Theorem c10_completed : forall s o retain inuse,
  wf s -> c10_op o -> accepts o s = true -> (2 <= retain)%Z ->
  let r := run_change o 0 (tasks_for o s retain inuse) s in
  wf r /\ seq r = fl (gc_of o s retain inuse) (seq (linked o s)) /\ cur r = orev o /\ In (orev o) (seq r).
Proof.
  intros s o retain inuse W OP AC R. cbv zeta. rewrite (c10_runs o s retain inuse OP).
  destruct (wf_linked o s W OP AC) as (WL & CL & P & _).
  assert (Ir : In (orev o) (seq (linked o s))) by (apply P; right; reflexivity).
  assert (DR : run_ok o (discards (gc_of o s retain inuse)) (linked o s) = minus (gc_of o s retain inuse) (linked o s)
               /\ ~ In (orev o) (gc_of o s retain inuse)).
  { destruct (gc_of_keeps s o retain inuse W OP AC R) as [-> |(NE & G1 & G2)]; [split; [symmetry; apply minus_nil|intros []]|].
    split; [|exact G1]. apply (discards_run o _ _ (cur s) (orev o)); auto.
    - intros E. destruct (c10_accepted o s OP AC) as [(SQ & _)|(_ & _ & RC & _)]; congruence.
    - apply P. left. apply (wf_cur s W NE). }
  destruct DR as [DR G1].
  rewrite DR, seq_configure, cur_configure. cbn [seq cur minus].
  assert (I : In (orev o) (fl (gc_of o s retain inuse) (seq (linked o s)))) by (apply In_fl; auto).
  split; [|repeat split; auto]. apply wf_configure.
  - apply wf_minus; [exact WL|intros E; rewrite E in Ir; destruct Ir|rewrite CL; exact G1].
  - cbn [seq minus]. intros E. rewrite E in I. destruct I.
Qed.

Lemma revert_runs : forall o s retain inuse,
  okind o = ORevert -> accepts o s = true ->
  run_change o 0 (tasks_for o s retain inuse) s = do_configure o (fst (do_link o (set_active_link false 0 s))).
Proof.
  intros o s retain inuse K AC. destruct (accepts_revert o s K AC) as (NE & _ & _ & M).
  rewrite (c10_runs o s retain inuse) by (right; right; exact K).
  apply is_revert_iff in K. apply mem_In in M. apply installed_iff in NE.
  unfold linked, gc_of. rewrite pre_link_runs, K, M, NE, andb_false_r. reflexivity.
Qed.

(* a completed revert: same kept revisions in the same order, the target is current, active and linked, nothing is
   mounted or copied or discarded *)
Theorem revert_in_place : forall o s retain inuse,
  okind o = ORevert -> accepts o s = true ->
  let r := run_change o 0 (tasks_for o s retain inuse) s in
  seq r = seq s /\ cur r = orev o /\ active r = true /\ link r = orev o /\ mounted r = mounted s /\
  forallb (fun t => negb (kind_eqb (fst t) KCopyData || kind_eqb (fst t) KMount || kind_eqb (fst t) KDiscard))
          (tasks_for o s retain inuse) = true.
Proof.
  intros o s retain inuse K AC. cbv zeta. rewrite revert_runs; auto.
  destruct (accepts_revert o s K AC) as (NE & _ & _ & M).
  pose proof K as RT. apply is_revert_iff in RT.
  destruct (last_index_some _ _ M) as [i LI]. apply mem_In in M. apply installed_iff in NE.
  unfold do_link. rewrite RT. cbn [fst seq set_active_link]. rewrite LI.
  unfold do_configure. destruct (ohookcfg o =? 0); simpl; repeat split; auto;
    unfold tasks_for; rewrite K; unfold install_tasks; rewrite RT, M, NE; reflexivity.
Qed.

Theorem refused_unchanged : forall o k retain inuse s, accepts o s = false -> step o k retain inuse s = s.
Proof. intros. unfold step. rewrite H. reflexivity. Qed.

Theorem revert_default_target : forall o s,
  okind o = ORevert -> odefault o = true -> accepts o s = true ->
  exists i, last_index (cur s) (seq s) = Some (S i) /\ nth_error (seq s) i = Some (orev o).
Proof.
  intros o s K D AC. unfold accepts in AC. rewrite K, D in AC. bool_hyps.
  unfold previous in *. destruct (last_index (cur s) (seq s)) as [[|i]|]; try discriminate.
  exists i. split; auto. destruct (nth_error (seq s) i); [|discriminate]. bool_hyps. congruence.
Qed.

Theorem refresh_kept_bound : forall s o retain inuse,
  wf s -> okind o = ORefresh -> accepts o s = true -> (2 <= retain)%Z -> In (orev o) (seq s) ->
  (length (seq (run_change o 0 (tasks_for o s retain inuse) s)) <= length (seq s))%nat.
Proof.
  intros s o retain inuse W K AC R I. assert (OP : c10_op o) by (right; left; exact K).
  destruct (c10_completed s o retain inuse W OP AC R) as (_ & E & _ & _). rewrite E.
  destruct (wf_linked o s W OP AC) as (_ & _ & _ & _ & L). rewrite <- (L I). apply length_fl_le.
Qed.

Lemma fl_all_in : forall D (a : list N), incl a D -> fl D a = [].
Proof.
  intros D a I. unfold fl. induction a as [|x a IH]; [reflexivity|]. cbn.
  assert (M : mem x D = true) by (apply mem_In; apply I; left; reflexivity). rewrite M. cbn.
  apply IH. intros y Hy. apply I. right. exact Hy.
Qed.

Lemma skipn_skipn_N : forall (a b : nat) (l : list N), skipn a (skipn b l) = skipn (b + a) l.
Proof.
  intros a b. induction b as [|b IH]; intros l; [reflexivity|]. destruct l as [|x l]; [destruct a; reflexivity|]. simpl. apply IH.
Qed.

Lemma fl_ends : forall D (l : list N) n k,
  (n <= k)%nat -> incl (firstn n l) D -> incl (skipn k l) D -> (length (fl D l) <= k - n)%nat.
Proof.
  intros D l n k L IA IB. rewrite <- (firstn_skipn n l), fl_app, (fl_all_in D (firstn n l)) by exact IA. cbn [app].
  rewrite <- (firstn_skipn (k - n) (skipn n l)), fl_app, skipn_skipn_N, (fl_all_in D (skipn _ l)), app_nil_r.
  - etransitivity; [apply length_fl_le|apply firstn_le_length].
  - replace (n + (k - n))%nat with k by lia. exact IB.
Qed.

(* refresh to a not-yet-kept revision, none of the candidates in use: at most retain revisions are kept afterwards *)
Theorem refresh_new_bound : forall s o retain inuse ci,
  wf s -> okind o = ORefresh -> accepts o s = true -> (2 <= retain)%Z -> ~ In (orev o) (seq s) ->
  last_index (cur s) (seq s) = Some ci ->
  (forall r, In r (firstn (Z.to_nat (Z.of_nat ci + 2 - retain)) (seq s)) -> inuse r = false) ->
  (Z.of_nat (length (seq (run_change o 0 (tasks_for o s retain inuse) s))) <= retain)%Z.
Proof.
  intros s o retain inuse ci W K AC R NI LI NU. assert (OP : c10_op o) by (right; left; exact K).
  destruct (c10_completed s o retain inuse W OP AC R) as (_ & E & _ & _). rewrite E.
  destruct (wf_linked o s W OP AC) as (_ & _ & _ & SL & _). rewrite (SL NI).
  rewrite (gc_of_refresh o s retain inuse K) by apply (accepts_refresh o s K AC).
  rewrite (gc_new_revision s (orev o) retain inuse ci NI LI).
  set (n := Z.to_nat (Z.of_nat ci + 2 - retain)) in *.
  rewrite (filter_all (fun r => negb (inuse r)) (firstn n (seq s))) by (intros x Hx; rewrite (NU x Hx); reflexivity).
  set (D := skipn (S ci) (seq s) ++ firstn n (seq s)).
  assert (L1 : (length (fl D (seq s)) <= S ci - n)%nat).
  { apply fl_ends; [unfold n; lia|intros x Hx; apply in_or_app; right; exact Hx|intros x Hx; apply in_or_app; left; exact Hx]. }
  pose proof (length_fl_le D [orev o]) as L2. rewrite fl_app, app_length. cbn [length] in L2.
  clear -L1 L2 R. subst n. lia.
Qed.

Lemma discard_wf : forall r s, wf s -> In r (seq s) -> (r = cur s -> active s = false) -> wf (do_discard r s).
Proof.
  intros r s [W1 W2 W3 W4 W5 W6 W7 W8] IN CA.
  assert (NE : seq s <> []) by (intros E; rewrite E in IN; destruct IN). specialize (W2 NE).
  destruct (seq s) as [|a [|b l]] eqn:SQ; [congruence| |].
  - (* the last revision goes: the snap is gone *)
    destruct IN as [<-|[]]. unfold do_discard. rewrite SQ. unfold norm. simpl.
    assert (MT : rem a (mounted s) = []).
    { destruct (rem a (mounted s)) as [|u v] eqn:E; [reflexivity|].
      assert (I : In u (rem a (mounted s))) by (rewrite E; left; reflexivity).
      apply In_rem in I. destruct I as [I N]. apply W7 in I. destruct I as [I|[]]. congruence. }
    rewrite MT.
    assert (LK : link s = 0).
    { rewrite W8. destruct (active s) eqn:A; [|reflexivity]. destruct W2 as [E|[]]. pose proof (CA E) as F. congruence. }
    rewrite LK. constructor; simpl; try tauto; try constructor. intros x [].
  - (* another revision x stays; if the current revision of the inactive snap goes, the last remaining one becomes current *)
    assert (OT : exists x, In x (a :: b :: l) /\ x <> r).
    { inversion W1 as [|? ? Hab _]; subst. destruct (N.eq_dec a r) as [->|Na]; [exists b|exists a]; simpl; auto.
      split; [auto|]. intros ->. apply Hab. left. reflexivity. }
    destruct OT as (x & Ix & Xr). rewrite <- SQ in *. rewrite (do_discard_more r s x r) by auto.
    assert (Ix' : In x (rem r (seq s))) by (apply In_rem; auto).
    constructor; simpl.
    + apply NoDup_rem, W1.
    + intros _. destruct (cur s =? r) eqn:Q; [apply last_In; intros E; rewrite E in Ix'; destruct Ix'|].
      apply N.eqb_neq in Q. apply In_rem; auto.
    + intros E. rewrite E in Ix'. destruct Ix'.
    + intros y Hy. apply In_rem in Hy. apply In_rem. split; [apply W4; tauto|tauto].
    + apply sorted_rem, W5.
    + apply sorted_rem, W6.
    + intros y. rewrite !In_rem, W7. tauto.
    + rewrite W8. destruct (active s) eqn:A; [|reflexivity]. destruct (cur s =? r) eqn:Q; [|reflexivity].
      apply N.eqb_eq in Q. symmetry in Q. apply CA in Q. congruence.
Qed.

Theorem remove_rev_wf : forall o s retain inuse,
  wf s -> okind o = ORemoveRev -> accepts o s = true -> wf (run_change o 0 (tasks_for o s retain inuse) s).
Proof.
  intros o s retain inuse W K AC. rewrite run_change_ok, (remove_rev_ess o s retain inuse K AC W).
  change (wf (do_discard (orev o) s)). apply discard_wf; [exact W|apply (accepts_remove_rev o s K AC)..].
Qed.

(* completed enable: link-snap of the current revision of an inactive snap (it moves to the end of the kept list) *)
Theorem enable_wf : forall o s retain inuse,
  wf s -> okind o = OEnable -> accepts o s = true -> wf (run_change o 0 (tasks_for o s retain inuse) s).
Proof.
  intros o s retain inuse W K AC. rewrite run_change_ok, (enable_ess o s retain inuse K).
  destruct (accepts_enable o s K AC) as (NE & _ & RC).
  unfold run_ok. cbn [fold_left]. rewrite do_task_link.
  pose proof W as [W1 W2 W3 W4 W5 W6 W7 W8]. specialize (W2 NE).
  apply do_link_wf; auto; rewrite RC; auto.
  intros x. rewrite W7. split; [auto|]. intros [H| ->]; assumption.
Qed.

Lemma unlink_snap_wf : forall s, wf s -> seq s <> [] ->
  wf (do_unlink_snap s) /\ active (do_unlink_snap s) = false /\ seq (do_unlink_snap s) = seq s.
Proof.
  intros s [W1 W2 W3 W4 W5 W6 W7 W8] NE. unfold do_unlink_snap. rewrite norm_id by exact NE.
  split; [constructor; simpl; auto; intros Z; congruence|split; reflexivity].
Qed.

Theorem disable_wf : forall o s retain inuse,
  wf s -> okind o = ODisable -> accepts o s = true -> wf (run_change o 0 (tasks_for o s retain inuse) s).
Proof.
  intros o s retain inuse W K AC. rewrite run_change_ok, (disable_ess o s retain inuse K).
  apply (unlink_snap_wf s W), (accepts_disable o s K AC).
Qed.

(* snap set / refresh inhibition / a change of refresh.retain *)
Theorem poke_wf : forall o s k retain inuse,
  wf s -> (okind o = OSetCfg \/ okind o = OInhibit \/ okind o = ORetain) -> wf (step o k retain inuse s).
Proof.
  intros o s k retain inuse W K. unfold step. destruct (accepts o s) eqn:AC; [|exact W].
  assert (E : (match okind o with OSetCfg | OInhibit | ORetain => poke o s | _ => run_change o k (tasks_for o s retain inuse) s end)
              = poke o s) by (destruct K as [K|[K|K]]; rewrite K; reflexivity).
  rewrite E. unfold poke. destruct W as [W1 W2 W3 W4 W5 W6 W7 W8].
  destruct K as [K|[K|K]]; rewrite K; [| |constructor; auto];
    unfold accepts in AC; rewrite K in AC; unfold installed in AC;
    constructor; simpl; auto; intros Z; rewrite Z in AC; discriminate.
Qed.

Lemma In_seq_discard : forall d X x, In x (seq X) -> x <> d -> In d (seq X) -> In x (seq (do_discard d X)).
Proof. intros d X x Ix N Id. rewrite (do_discard_more d X x d) by auto. cbn [seq]. apply In_rem; auto. Qed.

Lemma active_discard : forall d X, active X = false -> active (do_discard d X) = false.
Proof.
  intros d X A. unfold do_discard.
  match goal with |- context [let '(_, _) := ?e in _] => destruct e as [sq' c'] end.
  unfold norm. destruct sq'; simpl; auto.
Qed.

Lemma discards_wf : forall o D X, wf X -> active X = false -> NoDup D -> incl D (seq X) ->
  wf (run_ok o (discards D) X) /\ active (run_ok o (discards D) X) = false.
Proof.
  induction D as [|d D IH]; intros X W A ND I; [split; assumption|].
  unfold discards. cbn [map]. rewrite run_ok_cons. fold (discards D). unfold do_task. cbn [fst snd].
  inversion ND; subst.
  assert (Id : In d (seq X)) by (apply I; left; reflexivity).
  apply IH; auto.
  - apply discard_wf; auto.
  - apply active_discard. exact A.
  - intros x Hx. apply In_seq_discard; auto; [apply I; right; exact Hx|intros ->; tauto].
Qed.

Lemma remove_order : forall s, wf s -> seq s <> [] ->
  NoDup (rev (rem (cur s) (seq s)) ++ [cur s]) /\ incl (rev (rem (cur s) (seq s)) ++ [cur s]) (seq s).
Proof.
  intros s W NE. pose proof (wf_cur s W NE) as Ic. split.
  - apply NoDup_snoc; [apply NoDup_rev, NoDup_rem, W|].
    intros I. apply in_rev in I. apply In_rem in I. tauto.
  - intros x Hx. apply in_app_iff in Hx. destruct Hx as [Hx|[<-|[]]]; auto.
    apply in_rev in Hx. apply In_rem in Hx. tauto.
Qed.

Theorem remove_wf : forall o s retain inuse,
  wf s -> okind o = ORemove -> accepts o s = true -> wf (run_change o 0 (tasks_for o s retain inuse) s).
Proof.
  intros o s retain inuse W K AC. rewrite run_change_ok, (remove_ess o s retain inuse K), run_ok_app.
  pose proof (accepts_remove o s K AC) as NE.
  destruct (remove_order s W NE) as [NDD ID].
  destruct (active s) eqn:A.
  - change (run_ok o [(KUnlinkSnap, cur s)] s) with (do_unlink_snap s).
    destruct (unlink_snap_wf s W NE) as (WX & AX & SX).
    apply discards_wf; auto. rewrite SX. exact ID.
  - apply discards_wf; auto.
Qed.

Theorem completed_wf : forall o retain inuse s, wf s -> (2 <= retain)%Z -> wf (step o 0 retain inuse s).
Proof.
  intros o retain inuse s W R.
  destruct (accepts o s) eqn:AC; [|rewrite refused_unchanged; auto].
  destruct (okind o) eqn:K; try (apply poke_wf; auto; fail); unfold step; rewrite AC, K.
  - apply c10_completed; auto. left; exact K.
  - apply c10_completed; auto. right; left; exact K.
  - apply c10_completed; auto. right; right; exact K.
  - apply remove_wf; auto.
  - apply remove_rev_wf; auto.
  - apply enable_wf; auto.
  - apply disable_wf; auto.
Qed.
