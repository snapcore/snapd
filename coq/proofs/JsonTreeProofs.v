(* Lemmas about V.lib.JsonTree: sorted association lists (lookup / aset / aremove, extensionality), the induction
   principle for trees, well-formedness, purge, paths, and what is read along a path after a write (walk / tset). *)
From Coq Require Import List NArith Bool Lia ZifyBool ZifyN.
Import ListNotations.
Require Import V.lib.JsonTree.
Open Scope N_scope.

Section Assoc.
Context {A : Type}.
Implicit Types (l : list (key * A)) (k j : key) (v : A).

Lemma lookup_aset : forall l k j v, lookup j (aset k v l) = if j =? k then Some v else lookup j l.
Proof.
  induction l as [|[k' v'] r IH]; intros k j v; cbn; [reflexivity|].
  destruct (k =? k') eqn:E; cbn.
  - assert (k = k') by lia; subst. now destruct (j =? k').
  - destruct (k <? k'); cbn; [reflexivity|]. rewrite IH.
    destruct (j =? k') eqn:E1; [|reflexivity]. destruct (j =? k) eqn:E2; [lia|reflexivity].
Qed.

Lemma lookup_aset_eq : forall l k v, lookup k (aset k v l) = Some v.
Proof. intros. now rewrite lookup_aset, N.eqb_refl. Qed.

Lemma lookup_aset_neq : forall l k j v, j <> k -> lookup j (aset k v l) = lookup j l.
Proof. intros l k j v H. rewrite lookup_aset. destruct (j =? k) eqn:E; [lia|reflexivity]. Qed.

Lemma lookup_aremove : forall l k j, lookup j (aremove k l) = if j =? k then None else lookup j l.
Proof.
  induction l as [|[k' v'] r IH]; intros k j; cbn.
  - now destruct (j =? k).
  - destruct (k =? k') eqn:E.
    + rewrite IH. destruct (j =? k) eqn:E2; [reflexivity|]. destruct (j =? k') eqn:E3; [lia|reflexivity].
    + cbn. rewrite IH. destruct (j =? k') eqn:E3; [|reflexivity]. destruct (j =? k) eqn:E2; [lia|reflexivity].
Qed.

Definition above k l : Prop := forall j, In j (map fst l) -> k < j.

Lemma sorted_cons : forall k (ks : list key), sorted (k :: ks) = true <-> (forall j, In j ks -> k < j) /\ sorted ks = true.
Proof.
  intros k ks. revert k. induction ks as [|k' r IH]; intros k.
  - cbn. split; [intros _; split; [intros j []|reflexivity]|reflexivity].
  - change (sorted (k :: k' :: r)) with ((k <? k') && sorted (k' :: r)). split.
    + intros H. apply andb_prop in H. destruct H as [H1 H2]. split; [|exact H2].
      intros j [->|Hj]; [lia|]. apply IH in H2. destruct H2 as [H2 _]. specialize (H2 j Hj). lia.
    + intros [H1 H2]. apply andb_true_intro. split; [|exact H2]. specialize (H1 k' (or_introl eq_refl)). lia.
Qed.

Lemma lookup_none_notin : forall l k, ~ In k (map fst l) -> lookup k l = None.
Proof.
  induction l as [|[k' v'] r IH]; intros k H; cbn; [reflexivity|].
  destruct (k =? k') eqn:E.
  - exfalso. apply H. left. cbn. lia.
  - apply IH. intros Hin. apply H. now right.
Qed.

Lemma lookup_some_in : forall l k v, lookup k l = Some v -> In k (map fst l).
Proof.
  induction l as [|[k' v'] r IH]; intros k v H; cbn in *; [discriminate|].
  destruct (k =? k') eqn:E; [left; lia|right; eauto].
Qed.

Lemma lookup_in : forall l k v, lookup k l = Some v -> In (k, v) l.
Proof.
  induction l as [|[k' v'] r IH]; intros k v H; cbn in *; [discriminate|].
  destruct (k =? k') eqn:E.
  - injection H as <-. left. f_equal. lia.
  - right; eauto.
Qed.

Lemma in_lookup : forall l k v, sorted (map fst l) = true -> In (k, v) l -> lookup k l = Some v.
Proof.
  induction l as [|[k' v'] r IH]; intros k v S H; [destruct H|].
  cbn [map fst] in S. apply sorted_cons in S. destruct S as [S1 S2]. cbn.
  destruct H as [H|H].
  - injection H as -> ->. now rewrite N.eqb_refl.
  - destruct (k =? k') eqn:E.
    + assert (k = k') by lia; subst. specialize (S1 k' (in_map fst _ _ H)). lia.
    + now apply IH.
Qed.

Lemma keys_aset : forall l k v j, In j (map fst (aset k v l)) <-> j = k \/ In j (map fst l).
Proof.
  induction l as [|[k' v'] r IH]; intros k v j; cbn.
  - intuition.
  - destruct (k =? k') eqn:E; cbn.
    + assert (k = k') by lia; subst. intuition.
    + destruct (k <? k'); cbn; [intuition|]. rewrite IH. intuition.
Qed.

Lemma sorted_aset : forall l k v, sorted (map fst l) = true -> sorted (map fst (aset k v l)) = true.
Proof.
  induction l as [|[k' v'] r IH]; intros k v S; cbn; [reflexivity|].
  cbn [map fst] in S. pose proof S as S0. apply sorted_cons in S. destruct S as [S1 S2].
  destruct (k =? k') eqn:E; cbn [map fst].
  - assert (k = k') by lia; subst. apply sorted_cons. now split.
  - destruct (k <? k') eqn:L; cbn [map fst].
    + apply sorted_cons. split; [|exact S0]. intros j [<-|Hj]; [lia|]. specialize (S1 j Hj). lia.
    + apply sorted_cons. split; [|now apply IH]. intros j Hj. apply keys_aset in Hj. destruct Hj as [->|Hj]; [lia|auto].
Qed.

Lemma keys_aremove : forall l k j, In j (map fst (aremove k l)) -> In j (map fst l).
Proof.
  induction l as [|[k' v'] r IH]; intros k j; cbn; [auto|].
  destruct (k =? k'); cbn; intros H; [right; eauto|]. destruct H; [now left|right; eauto].
Qed.

Lemma sorted_aremove : forall l k, sorted (map fst l) = true -> sorted (map fst (aremove k l)) = true.
Proof.
  induction l as [|[k' v'] r IH]; intros k S; cbn; [reflexivity|].
  cbn [map fst] in S. apply sorted_cons in S. destruct S as [S1 S2].
  destruct (k =? k'); [now apply IH|]. cbn [map fst]. apply sorted_cons. split; [|now apply IH].
  intros j Hj. apply S1. eapply keys_aremove; eauto.
Qed.

Lemma assoc_ext : forall l1 l2, sorted (map fst l1) = true -> sorted (map fst l2) = true ->
  (forall k, lookup k l1 = lookup k l2) -> l1 = l2.
Proof.
  induction l1 as [|[k1 v1] r1 IH]; intros l2 S1 S2 H.
  - destruct l2 as [|[k2 v2] r2]; [reflexivity|]. specialize (H k2). cbn in H. rewrite N.eqb_refl in H. discriminate.
  - destruct l2 as [|[k2 v2] r2].
    + specialize (H k1). cbn in H. rewrite N.eqb_refl in H. discriminate.
    + cbn [map fst] in S1, S2. apply sorted_cons in S1. apply sorted_cons in S2.
      destruct S1 as [A1 B1]. destruct S2 as [A2 B2].
      assert (k1 = k2).
      { pose proof (H k1) as H1. pose proof (H k2) as H2. cbn in H1, H2. rewrite N.eqb_refl in H1, H2.
        destruct (k1 =? k2) eqn:E; [lia|]. destruct (k2 =? k1) eqn:E'; [lia|].
        symmetry in H1. apply lookup_some_in in H1. apply lookup_some_in in H2.
        specialize (A2 _ H1). specialize (A1 _ H2). lia. }
      subst k2. pose proof (H k1) as H1. cbn in H1. rewrite N.eqb_refl in H1. injection H1 as ->.
      f_equal. apply IH; auto. intros k. specialize (H k). cbn in H.
      destruct (k =? k1) eqn:E; [|exact H].
      assert (k = k1) by lia; subst. rewrite !lookup_none_notin; auto.
      * intros Hin. specialize (A2 _ Hin). lia.
      * intros Hin. specialize (A1 _ Hin). lia.
Qed.

Lemma aset_aset_same : forall l k v v', sorted (map fst l) = true -> aset k v (aset k v' l) = aset k v l.
Proof.
  intros. apply assoc_ext; auto using sorted_aset. intros j. rewrite !lookup_aset. now destruct (j =? k).
Qed.

Lemma aset_agree : forall l0 l k v, sorted (map fst l0) = true -> sorted (map fst l) = true -> lookup k l = Some v ->
  (forall j, j <> k -> lookup j l0 = lookup j l) -> aset k v l0 = l.
Proof.
  intros l0 l k v S0 S L H. apply assoc_ext; auto using sorted_aset. intros j. rewrite lookup_aset.
  destruct (j =? k) eqn:E; [|apply H; lia]. assert (j = k) by lia. now subst.
Qed.

(* a Go map whose members are well formed: wf_tree (Obj l) is wf_map wf_tree l, wf_change (Patch m) is wf_map wf_change m,
   both by computation *)
Definition wf_map (P : A -> bool) l : bool := sorted (map fst l) && forallb (fun kv => P (snd kv)) l.

Lemma wf_map_lookup : forall (P : A -> bool) l,
  wf_map P l = true <-> sorted (map fst l) = true /\ (forall k c, lookup k l = Some c -> P c = true).
Proof.
  intros P l. unfold wf_map. rewrite andb_true_iff, forallb_forall. split; intros [S H]; split; auto.
  - intros k c Hl. apply lookup_in in Hl. exact (H _ Hl).
  - intros [k c] Hin. apply H with k. now apply in_lookup.
Qed.

Lemma wf_map_member : forall (P : A -> bool) l k, wf_map P l = true ->
  match lookup k l with Some c => P c = true | None => True end.
Proof. intros P l k H. apply wf_map_lookup in H. destruct H as [_ H]. destruct (lookup k l) eqn:E; eauto. Qed.

Lemma wf_map_aset : forall (P : A -> bool) l k v, wf_map P l = true -> P v = true -> wf_map P (aset k v l) = true.
Proof.
  intros P l k v Hl Hv. apply wf_map_lookup in Hl. destruct Hl as [S H]. apply wf_map_lookup. split; [now apply sorted_aset|].
  intros j c. rewrite lookup_aset. destruct (j =? k); [now intros [= <-]|apply H].
Qed.

Lemma wf_map_aremove : forall (P : A -> bool) l k, wf_map P l = true -> wf_map P (aremove k l) = true.
Proof.
  intros P l k Hl. apply wf_map_lookup in Hl. destruct Hl as [S H]. apply wf_map_lookup. split; [now apply sorted_aremove|].
  intros j c. rewrite lookup_aremove. destruct (j =? k); [discriminate|apply H].
Qed.

End Assoc.

Lemma lookup_map : forall {A B : Type} (g : key * A -> B) (l : list (key * A)) k,
  lookup k (map (fun kv => (fst kv, g kv)) l) = option_map (fun v => g (k, v)) (lookup k l).
Proof.
  induction l as [|[k' v'] r IH]; intros k; cbn; [reflexivity|]. destruct (k =? k') eqn:E; [|apply IH].
  assert (k = k') by lia; subst. reflexivity.
Qed.

Lemma keys_map : forall {A B : Type} (g : key * A -> B) (l : list (key * A)),
  map fst (map (fun kv => (fst kv, g kv)) l) = map fst l.
Proof. induction l as [|[k v] r IH]; cbn; [reflexivity|now rewrite IH]. Qed.

(* One pass over a key-sorted list of updates, each setting its key to a value computed from what the key holds
   (applyChanges; the loop of Transaction.Commit over the snaps with changes): a key is set at most once, so from what
   the starting list held. *)
Section FoldAset.
Context {A B : Type} (g : key -> B -> option A -> A).

Lemma sorted_fold_aset : forall (m : list (key * B)) (l : list (key * A)), sorted (map fst l) = true ->
  sorted (map fst (fold_left (fun acc kc => aset (fst kc) (g (fst kc) (snd kc) (lookup (fst kc) acc)) acc) m l)) = true.
Proof. induction m as [|[k c] r IH]; intros l S; cbn; [exact S|]. apply IH. now apply sorted_aset. Qed.

Lemma lookup_fold_aset : forall (m : list (key * B)) (l : list (key * A)) j, sorted (map fst m) = true ->
  lookup j (fold_left (fun acc kc => aset (fst kc) (g (fst kc) (snd kc) (lookup (fst kc) acc)) acc) m l) =
  match lookup j m with Some c => Some (g j c (lookup j l)) | None => lookup j l end.
Proof.
  induction m as [|[k c] r IH]; intros l j S; cbn [fold_left lookup fst snd]; [reflexivity|].
  cbn [map fst] in S. apply sorted_cons in S. destruct S as [S1 S2]. rewrite IH by exact S2.
  destruct (j =? k) eqn:E.
  - assert (j = k) by lia; subst. rewrite lookup_none_notin.
    + apply lookup_aset_eq.
    + intros Hin. specialize (S1 _ Hin). lia.
  - now rewrite lookup_aset_neq by lia.
Qed.
End FoldAset.

Lemma tree_ind' : forall P : tree -> Prop,
  P Null -> (forall z, P (Atom z)) ->
  (forall l, Forall (fun kv => P (snd kv)) l -> P (Obj l)) ->
  forall t, P t.
Proof.
  intros P HN HA HO. fix IH 1. intros [| z | l]; [exact HN|apply HA|].
  apply HO. induction l as [|[k v] r IHl]; constructor; [apply IH|exact IHl].
Qed.

Lemma wf_obj : forall l, wf_tree (Obj l) = true <->
  sorted (map fst l) = true /\ (forall k c, lookup k l = Some c -> wf_tree c = true).
Proof. exact (wf_map_lookup wf_tree). Qed.

Lemma wf_aset : forall l k v, wf_tree (Obj l) = true -> wf_tree v = true -> wf_tree (Obj (aset k v l)) = true.
Proof. exact (wf_map_aset wf_tree). Qed.

Lemma wf_aremove : forall l k, wf_tree (Obj l) = true -> wf_tree (Obj (aremove k l)) = true.
Proof. exact (wf_map_aremove wf_tree). Qed.

Lemma wf_lookup : forall l k c, wf_tree (Obj l) = true -> lookup k l = Some c -> wf_tree c = true.
Proof. intros l k c H. apply wf_obj in H. destruct H as [_ H]. apply H. Qed.

Definition wf_opt (o : option tree) : Prop := match o with Some t => wf_tree t = true | None => True end.

Lemma wf_opt_lookup : forall l k, wf_tree (Obj l) = true -> wf_opt (lookup k l).
Proof. intros l k. exact (wf_map_member wf_tree l k). Qed.

Lemma wf_nest : forall p v, wf_tree v = true -> wf_tree (nest p v) = true.
Proof. induction p as [|k r IH]; intros v H; cbn; [exact H|]. now rewrite IH. Qed.

Lemma tset_none_nest : forall p v, tset p v None = nest p v.
Proof. induction p as [|k r IH]; intros v; cbn; [reflexivity|now rewrite IH]. Qed.

Lemma wf_tset : forall p v o, wf_tree v = true -> wf_opt o -> wf_tree (tset p v o) = true.
Proof.
  induction p as [|k r IH]; intros v o Hv Ho; [exact Hv|].
  assert (F : wf_tree (Obj [(k, tset r v None)]) = true).
  { cbn. rewrite IH; cbn; auto. }
  destruct o as [[| z | l]|]; cbn [tset]; try exact F.
  apply wf_aset; [exact Ho|]. apply IH; [exact Hv|]. now apply wf_opt_lookup.
Qed.

Lemma purge_obj : forall l, purge (Obj l) = Some (Obj (purge_list l)).
Proof.
  intros l. reflexivity.
Qed.

Lemma keys_purge_list : forall l j, In j (map fst (purge_list l)) -> In j (map fst l).
Proof.
  induction l as [|[k v] r IH]; intros j; cbn; [auto|]. destruct (purge v); cbn; intros H.
  - destruct H; [now left|right; auto].
  - right; auto.
Qed.

Lemma sorted_purge_list : forall l, sorted (map fst l) = true -> sorted (map fst (purge_list l)) = true.
Proof.
  induction l as [|[k v] r IH]; intros S; cbn; [reflexivity|].
  cbn [map fst] in S. apply sorted_cons in S. destruct S as [S1 S2].
  destruct (purge v); [|now apply IH]. cbn [map fst]. apply sorted_cons. split; [|now apply IH].
  intros j Hj. apply S1. now apply keys_purge_list.
Qed.

Lemma lookup_purge_list : forall l k, sorted (map fst l) = true ->
  lookup k (purge_list l) = match lookup k l with Some c => purge c | None => None end.
Proof.
  induction l as [|[k' v] r IH]; intros k S; cbn; [reflexivity|].
  cbn [map fst] in S. apply sorted_cons in S. destruct S as [S1 S2].
  destruct (k =? k') eqn:E.
  - assert (k = k') by lia; subst. destruct (purge v) eqn:P; cbn.
    + now rewrite N.eqb_refl.
    + apply lookup_none_notin. intros Hin. apply keys_purge_list in Hin. specialize (S1 _ Hin). lia.
  - destruct (purge v); cbn; [rewrite E|]; now apply IH.
Qed.

Lemma wf_purge : forall t t', wf_tree t = true -> purge t = Some t' -> wf_tree t' = true.
Proof.
  induction t as [| z | l IH] using tree_ind'; intros t' W P.
  - discriminate.
  - injection P as <-. reflexivity.
  - rewrite purge_obj in P. injection P as <-. apply wf_obj in W. destruct W as [S W].
    apply wf_obj. split; [now apply sorted_purge_list|].
    intros k c. rewrite lookup_purge_list by exact S. destruct (lookup k l) eqn:E; [|discriminate].
    intros Pc. rewrite Forall_forall in IH. apply lookup_in in E as Hin. apply (IH _ Hin c); [|exact Pc].
    cbn. eapply W. exact E.
Qed.

Lemma wf_purge_list : forall l, wf_tree (Obj l) = true -> wf_tree (Obj (purge_list l)) = true.
Proof. intros l W. eapply wf_purge; [exact W|apply purge_obj]. Qed.

Lemma is_prefix_refl : forall p, is_prefix p p = true.
Proof. induction p as [|x p IH]; cbn; [reflexivity|]. now rewrite N.eqb_refl. Qed.

Lemma diverge_nil_r : forall q, diverge q [] = false.
Proof. intros q. unfold diverge. cbn. now rewrite andb_false_r. Qed.

Lemma diverge_cons : forall k q k' p, diverge (k :: q) (k' :: p) = if k =? k' then diverge q p else true.
Proof. intros. unfold diverge. cbn. rewrite (N.eqb_sym k' k). destruct (k =? k'); reflexivity. Qed.

(* What a walk down a path finds, starting from a node that may be absent: the node at its end, nothing (a member is
   missing, or a null stands where an object is needed), or a scalar in the way while keys remain. The readers of the
   models (getFromConfig, JSONDataBag.get) are renderings of walk below the top level. *)
Inductive hit := At (t : tree) | Missing | Blocked.

Fixpoint walk (p : path) (o : option tree) : hit :=
  match p with
  | [] => match o with Some t => At t | None => Missing end
  | k :: r => match o with
              | Some (Obj l) => walk r (lookup k l)
              | Some (Atom _) => Blocked
              | _ => Missing
              end
  end.

Lemma walk_none : forall p, walk p None = Missing.
Proof. destruct p; reflexivity. Qed.

Definition opurge (o : option tree) : option tree := match o with Some t => purge t | None => None end.

Lemma walk_purge : forall p o, wf_opt o -> walk p (opurge o) =
  match walk p o with At t => match purge t with Some t' => At t' | None => Missing end | h => h end.
Proof.
  induction p as [|k r IH]; intros o W.
  - destruct o as [t|]; cbn; [|reflexivity]. now destruct (purge t).
  - destruct o as [[| z | l]|]; cbn [opurge walk]; try reflexivity.
    rewrite purge_obj. cbn [walk]. pose proof W as S. apply wf_obj in S. destruct S as [S _].
    rewrite lookup_purge_list by exact S. apply (IH (lookup k l)). now apply wf_opt_lookup.
Qed.

Definition members (o : option tree) : list (key * tree) := match o with Some (Obj l) => l | _ => [] end.

Lemma tset_cons : forall k r v o, tset (k :: r) v o = Obj (aset k (tset r v (lookup k (members o))) (members o)).
Proof. intros k r v o. destruct o as [[| z | l]|]; reflexivity. Qed.

Lemma walk_tset_prefix : forall p r v o,
  walk p (Some (tset (p ++ r) v o)) = At (tset r v (match walk p o with At t => Some t | _ => None end)).
Proof.
  induction p as [|k p IH]; intros r v o; [now destruct o|].
  cbn [app]. rewrite tset_cons. cbn [walk]. rewrite lookup_aset_eq, IH.
  destruct o as [[| z | l]|]; cbn [members lookup walk]; now rewrite ?walk_none.
Qed.

Lemma walk_tset_same : forall p v o, walk p (Some (tset p v o)) = At v.
Proof. intros p v o. rewrite <- (app_nil_r p) at 2. apply walk_tset_prefix. Qed.

(* a write leaves every diverging path as it reads, unless both walks run into a scalar (the write replaces a scalar
   on its way by an object, and that scalar may be on the common part of the two paths) *)
Lemma walk_tset_diverge : forall p q v o, diverge q p = true -> walk p o <> Blocked \/ walk q o <> Blocked ->
  walk q (Some (tset p v o)) = walk q o.
Proof.
  induction p as [|k p IH]; intros q v o D H; [now rewrite diverge_nil_r in D|].
  destruct q as [|k' q]; [discriminate|]. rewrite diverge_cons in D. rewrite tset_cons. cbn [walk]. rewrite lookup_aset.
  destruct (k' =? k) eqn:E.
  - (* same first key: below it by induction; where o is no object the write starts from nothing, and so does q *)
    assert (k' = k) by lia; subst k'. destruct o as [[| z | l]|]; cbn [members lookup walk] in *.
    + rewrite IH, walk_none; auto. left. now rewrite walk_none.
    + destruct H; congruence.
    + now apply IH.
    + rewrite IH, walk_none; auto. left. now rewrite walk_none.
  - (* another first key: the member q starts with is as it was, or was never there *)
    destruct o as [[| z | l]|]; cbn [members lookup walk] in *; try apply walk_none; [destruct H; congruence|reflexivity].
Qed.
