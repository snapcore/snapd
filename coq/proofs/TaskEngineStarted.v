(* Proofs about models/TaskEngine.v (C01): only started work is undone. A task whose status is neither Do nor
   Hold has had its do handler started; hence every start of an undo handler is preceded, in the start log, by a start
   of the do handler of the same task. *)
From Coq Require Import List Arith.
Import ListNotations.
Require Import V.models.TaskEngine V.proofs.TaskEngineProofs V.proofs.TaskEngineReady V.proofs.TaskEngineDoing.

Definition started_in (lg : list start_rec) (t : nat) : Prop :=
  exists r, In r lg /\ sr_t r = t /\ sr_undo r = false.
Definition sinv (s : state) : Prop :=
  forall t, st s t <> Do -> st s t <> Hold -> started_in (slog s) t.
(* the log is most recent first: every undo start has a do start of the same task further down *)
Definition undo_after_do (lg : list start_rec) : Prop :=
  forall pre r post, lg = pre ++ r :: post -> sr_undo r = true -> started_in post (sr_t r).

Definition fresh_src (x nw : status) : Prop := (x <> Do /\ x <> Hold) \/ nw = Do \/ nw = Hold.

Lemma sinv_write : forall s s' t nw,
  sinv s -> slog s' = slog s ->
  (forall u, st s' u = st s u \/ (u = t /\ st s' u = nw)) -> fresh_src (st s t) nw -> sinv s'.
Proof.
  intros s s' t nw S L W F u H1 H2. rewrite L.
  destruct (W u) as [E|[-> E]].
  - rewrite E in *. apply S; assumption.
  - rewrite E in *. destruct F as [[A B]|[A|A]]; [apply S; assumption | congruence | congruence].
Qed.

Lemma sinv_set_status : forall s t nw, sinv s -> fresh_src (st s t) nw -> sinv (set_status s t nw).
Proof. intros. eapply sinv_write; eauto; [apply slog_set_status | intros u; apply st_set_status]. Qed.
Lemma sinv_put : forall s t nw, sinv s -> fresh_src (st s t) nw -> sinv (put s t nw).
Proof. intros s t nw S F. apply (sinv_write s (put s t nw) t nw S eq_refl); [intros u; apply st_put | exact F]. Qed.
Lemma sinv_change_st : forall s t nw, sinv s -> fresh_src (st s t) nw -> sinv (change_st s t nw).
Proof. intros. eapply sinv_write; eauto; [apply slog_change_st | intros u; apply st_change_st]. Qed.

Lemma sinv_irrel : forall s t f, (forall tk, t_st (f tk) = t_st tk) -> sinv s -> sinv (with_tasks s (upd (tasks s) t f)).
Proof. intros s t f Hf S u H1 H2. rewrite st_irrel in H1, H2 by assumption. apply S; assumption. Qed.

Lemma sinv_abort_write : forall s t, sinv s -> sinv (abort_write s t).
Proof.
  intros s t S. rewrite abort_write_eq. unfold eff_status. fold (st s t).
  destruct (abort_to _) as [nw|] eqn:E; [apply sinv_put|]; auto.
  destruct (st s t); simpl in E; try discriminate E; try (left; split; discriminate).
  inversion E. right; right; reflexivity.
Qed.

Lemma sinv_ready_detect : forall s, sinv s -> sinv (ready_detect s).
Proof. intros s S u H1 H2. rewrite slog_ready_detect. rewrite st_ready_detect in H1, H2. apply S; assumption. Qed.
Lemma sinv_abort_lanes_top : forall s lanes, sinv s -> sinv (abort_lanes_top s lanes).
Proof. intros. apply sinv_ready_detect, (abort_lanes_P sinv); auto using sinv_abort_write. Qed.
Lemma sinv_abort_change : forall s, sinv s -> sinv (abort_change s).
Proof. intros. apply sinv_ready_detect, (abort_tasks_P sinv); auto using sinv_abort_write. Qed.

Lemma started_mono : forall lg r t, started_in lg t -> started_in (r :: lg) t.
Proof. intros lg r t (x & A & B & C). exists x. split; [right; assumption | auto]. Qed.

Lemma uad_cons : forall lg r, undo_after_do lg -> (sr_undo r = true -> started_in lg (sr_t r)) -> undo_after_do (r :: lg).
Proof.
  intros lg r U H pre x post E Hx. destruct pre as [|p pre]; simpl in E.
  - injection E as -> ->. auto.
  - injection E as -> E. eapply U; eauto.
Qed.

Lemma sinv_run : forall s t, sinv s -> undo_after_do (slog s) -> sinv (run s t) /\ undo_after_do (slog (run s t)).
Proof.
  intros s t S U.
  assert (Hs : sr_undo (run_rec s t) = true -> started_in (slog s) t).
  { unfold run_rec; cbn [sr_undo]. intros Hu. apply S; destruct (st s t); try discriminate Hu; discriminate. }
  split; [|rewrite slog_run; apply uad_cons; assumption].
  intros u H1 H2. rewrite slog_run. destruct (Nat.eq_dec u t) as [->|N].
  - destruct (sr_undo (run_rec s t)) eqn:Eu; [apply started_mono; auto|].
    exists (run_rec s t). split; [left; reflexivity | split; [reflexivity | exact Eu]].
  - rewrite st_run_other in H1, H2 by assumption. apply started_mono. apply S; assumption.
Qed.

Lemma sinv_try_undo : forall s t, sinv s -> st s t = Abort -> sinv (try_undo s t).
Proof. intros s t S E. unfold try_undo. des_if; apply sinv_set_status; auto; left; rewrite E; split; discriminate. Qed.

Definition both (s : state) : Prop := sinv s /\ undo_after_do (slog s).

Lemma unr_fresh : forall x nw, unr x = true -> fresh_src x nw.
Proof. intros x nw H. left. destruct x; try discriminate H; split; discriminate. Qed.

Lemma both_move : forall s e s', move s e s' -> inv s -> both s -> both s'.
Proof.
  intros s e s' M I [S U].
  destruct (slog_move s e s' M) as [E|(t0 & -> & _)]; [split; [|rewrite E; exact U] | apply sinv_run; assumption].
  destruct M.
  - apply sinv_try_undo; assumption.
  - apply sinv_set_status; auto. left. rewrite H0. split; discriminate.
  - apply sinv_run; assumption.
  - apply (sinv_set_status (remove_running s t)); auto. apply unr_fresh. exact (i_run s I t H0).
  - exact S.
  - apply (sinv_try_undo (remove_running s t)); assumption.
  - apply (sinv_irrel (remove_running s t)); [reflexivity | exact S].
  - rewrite set_to_wait_eq by assumption. apply sinv_change_st.
    + apply (sinv_irrel (remove_running s t)); [reflexivity | exact S].
    + rewrite st_irrel by reflexivity. apply unr_fresh. exact (i_run s I t H0).
  - destruct (inv_reap s t I) as [I0 _].
    destruct (inv_abort_lanes_top _ t (lanes_of (get s t)) I0 (i_run s I t H0)) as (_ & U1 & _).
    apply sinv_set_status; [apply (sinv_abort_lanes_top (remove_running s t)); exact S | apply unr_fresh; exact U1].
  - apply sinv_abort_change; exact S.
  - exact S.
  - apply sinv_set_status; auto. left. rewrite H0. split; discriminate.
Qed.

Lemma both_init : forall g, both (init_state g).
Proof.
  intros g. split.
  - intros t H1 H2. exfalso. destruct (get_init g t) as ([(_ & E & _)|[_ E]] & _); [|unfold st in H2; rewrite E in H2]; auto.
  - intros pre r post E. destruct pre; discriminate E.
Qed.
