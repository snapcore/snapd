(* C27. What the loop body of sanitizeDesktopFile lets through (`process_line_class`: the line itself, an Exec= line of the
   fixed form, a renamed Icon= line); how the BAMF_DESKTOP_FILE_HINT argument stands in an Exec= line and is read back
   (`hint_arg`); and that the ${SNAP} substitution keeps a line inside the allowlist (`alt_ok`). *)
From Coq Require Import List NArith Bool Arith Lia String.
Import ListNotations.
Require Import V.lib.Bytes V.lib.Regex V.gen.DesktopRegexes V.models.Desktop V.proofs.BytesFacts V.proofs.ListFacts
  V.proofs.RegexProofs.
Open Scope string_scope. Open Scope list_scope. Open Scope N_scope.

Lemma after_eq_exec x : after_eq (lit_exec ++ x) = x.
Proof. reflexivity. Qed.

Definition exec_form (i : dinfo) (df b : bytes) : Prop :=
  exists app rest, In app (d_apps i) /\ b = lit_exec ++ exec_env df ++ wrapper i app ++ rest /\
                   (rest = [] \/ exists r', rest = 32 :: r').

Lemma exec_loop_form i df cmd : forall apps b,
  exec_loop i df (lit_exec ++ cmd) cmd apps = Some b ->
  exists app rest, In app apps /\ b = lit_exec ++ exec_env df ++ wrapper i app ++ rest /\
                   (rest = [] \/ exists r', rest = 32 :: r') /\ exists pre, cmd = pre ++ rest.
Proof.
  induction apps as [|ap apps IH]; intros b H; [discriminate |].
  cbn [exec_loop] in H.
  destruct (beq cmd (valid_cmd i ap)) eqn:E1.
  - injection H as <-. exists ap, []. rewrite app_nil_r.
    repeat split; [left; reflexivity | left; reflexivity | exists cmd; symmetry; apply app_nil_r].
  - destruct (has_prefix (valid_cmd i ap ++ [32]) cmd) eqn:E2.
    + apply has_prefix_split in E2 as (r & ->). rewrite <- app_assoc in H |- *.
      change (skipn _ _) with (skipn (List.length (valid_cmd i ap)) (valid_cmd i ap ++ 32 :: r)) in H.
      rewrite skipn_app_exact in H. injection H as <-. exists ap, (32 :: r).
      repeat split; [left; reflexivity | right; exists r; reflexivity | exists (valid_cmd i ap); reflexivity].
    + destruct (IH b H) as (a & rest & Hin & Hb). exists a, rest. split; [right; exact Hin | exact Hb].
Qed.

Lemma rewrite_exec_form i df line b :
  has_prefix lit_exec line = true -> rewrite_exec i df line = Some b ->
  exists app rest, In app (d_apps i) /\ b = lit_exec ++ exec_env df ++ wrapper i app ++ rest /\
                   (rest = [] \/ exists r', rest = 32 :: r') /\ exists pre, line = pre ++ rest.
Proof.
  intros Hp H. apply has_prefix_split in Hp as (cmd & ->).
  unfold rewrite_exec in H. rewrite after_eq_exec in H.
  destruct (exec_loop i df (lit_exec ++ cmd) cmd (d_apps i)) as [l |] eqn:E.
  - injection H as <-. destruct (exec_loop_form _ _ _ _ _ E) as (a & rest & Hin & Hb & Hr & pre & ->).
    exists a, rest. repeat split; [exact Hin | exact Hb | exact Hr |]. exists (lit_exec ++ pre). apply app_assoc.
  - destruct (existsb (beq (trim_ext (base df))) (d_apps i)) eqn:Ex; [| discriminate].
    injection H as <-. apply existsb_exists in Ex as (a & Hin & Ha). apply beq_eq in Ha. rewrite Ha.
    exists a, []. rewrite app_nil_r.
    repeat split; [exact Hin | left; reflexivity | exists (lit_exec ++ cmd); symmetry; apply app_nil_r].
Qed.

Lemma rewrite_icon_class i line b :
  rewrite_icon i line = Some b ->
  (b = line /\ (existsb (N.eqb 47) (after_eq line) = true ->
                has_prefix lit_snapdir (after_eq line) = true /\ clean_same (after_eq line) = true)) \/
  (existsb (N.eqb 47) (after_eq line) = false /\
   exists pre rest, after_eq line = pre ++ rest /\
                    b = lit_icon ++ lit_snapdot ++ instance_name (d_snap i) (d_key i) ++ [46] ++ rest).
Proof.
  unfold rewrite_icon. destruct (existsb (N.eqb 47) (after_eq line)) eqn:Es.
  - destruct (has_prefix lit_snapdir (after_eq line)); cbn [negb]; [| discriminate].
    destruct (clean_same (after_eq line)); cbn [negb]; [| discriminate].
    intros H. injection H as <-. left. auto.
  - destruct (has_prefix (lit_snapdot ++ d_snap i ++ [46]) (after_eq line)) eqn:Ep.
    + intros H. apply has_prefix_split in Ep as (rest & Ep). rewrite Ep, skipn_app_exact in H.
      right. split; [reflexivity |]. exists (lit_snapdot ++ d_snap i ++ [46]), rest. split; congruence.
    + destruct (has_prefix lit_snapdot (after_eq line)); [discriminate |].
      intros H. injection H as <-. left. split; [reflexivity | discriminate].
Qed.

Lemma exec_not_icon x : has_prefix lit_icon (lit_exec ++ x) = false.
Proof. reflexivity. Qed.
Lemma icon_not_exec l : has_prefix lit_icon l = true -> has_prefix lit_exec l = false.
Proof. intros H. apply has_prefix_split in H as (x & ->). reflexivity. Qed.

Lemma process_line_class i df line b :
  process_line i df line = Some b ->
  valid_line line = true /\
  ((b = line /\ has_prefix lit_exec line = false) \/
   (has_prefix lit_exec line = true /\ exec_form i df b) \/
   (has_prefix lit_exec line = false /\ has_prefix lit_icon line = true /\ has_prefix lit_icon b = true)).
Proof.
  unfold process_line. destruct (valid_line line); cbn [negb]; [| discriminate].
  intros H. split; [reflexivity |].
  destruct (has_prefix lit_exec line) eqn:Ee.
  - destruct (rewrite_exec i df line) as [l1 |] eqn:Er; [| discriminate].
    destruct (rewrite_exec_form i df line l1 Ee Er) as (app & rest & Hin & -> & Hr & _).
    rewrite exec_not_icon in H. injection H as <-.
    right. left. split; [reflexivity |]. exists app, rest. auto.
  - destruct (has_prefix lit_icon line) eqn:Ei; [| injection H as <-; auto].
    right. right. apply rewrite_icon_class in H as [[-> _] | (_ & pre & rest & _ & ->)]; auto.
Qed.

Lemma process_line_exec i df line b :
  process_line i df line = Some b -> has_prefix lit_exec b = true -> exec_form i df b.
Proof.
  intros H Hb. apply process_line_class in H as [_ [[-> He] | [[_ F] | (_ & _ & Hi)]]].
  - congruence.
  - exact F.
  - apply icon_not_exec in Hi. congruence.
Qed.

Lemma process_line_icon i df line b :
  process_line i df line = Some b -> has_prefix lit_icon line = true ->
  existsb (N.eqb 47) (after_eq line) = true ->
  b = line /\ has_prefix lit_snapdir (after_eq line) = true /\ clean_same (after_eq line) = true.
Proof.
  unfold process_line. destruct (valid_line line); cbn [negb]; [| discriminate].
  intros H Hi Hs. rewrite (icon_not_exec _ Hi), Hi in H.
  apply rewrite_icon_class in H as [[-> Hc] | [Hn _]]; [auto | congruence].
Qed.

Lemma in_sanitize_lines i df lines l :
  In l (sanitize_lines i df lines) ->
  l = xsnap_line i \/ exists line b, In line lines /\ process_line i df line = Some b /\ l = subst_snap (d_mount i) b.
Proof.
  unfold sanitize_lines. intros H. apply in_flat_map in H as (line & Hin & Hl).
  unfold emit in Hl. destruct (process_line i df line) as [b |] eqn:Ep; [| contradiction].
  assert (G : l = subst_snap (d_mount i) b \/ l = xsnap_line i).
  { destruct (beq (subst_snap (d_mount i) b) lit_desktop_entry); cbn in Hl; intuition auto. }
  destruct G as [-> | ->]; [right | left; reflexivity].
  exists line, b. auto.
Qed.

Lemma xsnap_not_entry i : beq (xsnap_line i) lit_desktop_entry = false.
Proof. reflexivity. Qed.

Theorem tagged i df lines : tagged_ok i (sanitize_lines i df lines) = true.
Proof.
  unfold sanitize_lines. induction lines as [|line lines IH]; [reflexivity |].
  cbn [flat_map]. unfold emit at 1. destruct (process_line i df line) as [b |]; [| exact IH].
  destruct (beq (subst_snap (d_mount i) b) lit_desktop_entry) eqn:E.
  - cbn [app tagged_ok]. rewrite E, beq_refl, xsnap_not_entry. cbn [andb]. exact IH.
  - cbn [app tagged_ok]. rewrite E. cbn [andb]. exact IH.
Qed.

Definition no_space (c : N) : bool := negb (c =? 32).
Definition no_dollar (c : N) : bool := negb (c =? 36).
(* wrapper paths: no space, =, $, double quote, % (they are built from validated snap and app names) *)
Definition plain (c : N) : bool :=
  negb (c =? 32) && negb (c =? 61) && negb (c =? 36) && negb (c =? 34) && negb (c =? 37).
(* bytes that mean nothing inside a double-quoted argument *)
Definition neutral (c : N) : bool := negb (c =? 34) && negb (c =? 92) && negb (c =? 36).
(* the mount directory (built from the validated instance name and the revision) *)
Definition mount_ok (m : bytes) : bool := negb (is_nil_b m) && forallb neutral m.

Lemma existsb_false_of_forallb (p q : N -> bool) l :
  (forall c, q c = true -> p c = false) -> forallb q l = true -> existsb p l = false.
Proof.
  intros Hpq. induction l as [|c l IH]; cbn; [reflexivity |]. intros H. apply andb_true_iff in H as [Hc Hl].
  rewrite (Hpq c Hc), (IH Hl). reflexivity.
Qed.

Lemma forallb_of_existsb_false (p : N -> bool) l : existsb p l = false -> forallb (fun c => negb (p c)) l = true.
Proof.
  induction l as [|c l IH]; cbn; [reflexivity |]. intros H. apply orb_false_iff in H as [Hc Hl].
  rewrite Hc, (IH Hl). reflexivity.
Qed.

Lemma plain_no_space c : plain c = true -> no_space c = true.
Proof. unfold plain, no_space. rewrite !andb_true_iff. tauto. Qed.
Lemma plain_no_dollar c : plain c = true -> no_dollar c = true.
Proof. unfold plain, no_dollar. rewrite !andb_true_iff. tauto. Qed.
Lemma plain_not_eq c : plain c = true -> (61 =? c) = false.
Proof. unfold plain. rewrite !andb_true_iff, !negb_true_iff, (N.eqb_sym 61). tauto. Qed.
Lemma plain_not_pct c : plain c = true -> (c =? 37) = false.
Proof. unfold plain. rewrite !andb_true_iff, !negb_true_iff. tauto. Qed.

Lemma subst_prefix m a : forall s, forallb no_dollar a = true -> subst_snap m (a ++ s) = a ++ subst_snap m s.
Proof.
  unfold subst_snap. induction a as [|x a IH]; intros s H; [reflexivity |].
  cbn in H. apply andb_true_iff in H as [Hx Ha]. unfold no_dollar in Hx. apply negb_true_iff in Hx.
  cbn [app replace_all]. cbn [lit_snapvar has_prefix]. rewrite N.eqb_sym, Hx. cbn [andb]. rewrite (IH s Ha). reflexivity.
Qed.

Lemma subst_space m r : subst_snap m (32 :: r) = 32 :: subst_snap m r.
Proof. reflexivity. Qed.

Lemma has_prefix_app_stop x t : forall p a,
  forallb (fun c => negb (c =? x)) p = true -> has_prefix p (a ++ x :: t) = has_prefix p a.
Proof.
  induction p as [|y p IH]; intros a H; [reflexivity |].
  cbn in H. apply andb_true_iff in H as [Hy Hp]. apply negb_true_iff in Hy.
  destruct a as [|z a]; cbn [app has_prefix].
  - rewrite Hy. reflexivity.
  - rewrite (IH a Hp). reflexivity.
Qed.

(* scanning the inside of a double-quoted argument: QN normal, QE after a backslash. `good st s`: from state st the
   scan of s meets no closing quote and no unescaped $, and ends in the normal state *)
Inductive qst := QN | QE.

Fixpoint good (st : qst) (s : bytes) : bool :=
  match s with
  | [] => match st with QN => true | QE => false end
  | c :: r => match st with
              | QE => good QN r
              | QN => if c =? 34 then false else if c =? 92 then good QE r else if c =? 36 then false else good QN r
              end
  end.

Lemma good_esc_all a : good QN (esc_all a) = true.
Proof.
  induction a as [|c a IH]; [reflexivity |].
  unfold esc_all in *. cbn [flat_map]. unfold esc at 1.
  destruct ((c =? 34) || (c =? 96) || (c =? 36) || (c =? 92)) eqn:E.
  - cbn [app good]. change (92 =? 34) with false. change (92 =? 92) with true. cbv iota. exact IH.
  - apply orb_false_iff in E as [E E4]. apply orb_false_iff in E as [E E3]. apply orb_false_iff in E as [E1 E2].
    cbn [app good]. rewrite E1, E4, E3. exact IH.
Qed.

Lemma good_neutral_app x s : forallb neutral x = true -> good QN (x ++ s) = good QN s.
Proof.
  induction x as [|c x IH]; intros H; [reflexivity |].
  cbn in H. apply andb_true_iff in H as [Hc Hx]. unfold neutral in Hc.
  rewrite !andb_true_iff, !negb_true_iff in Hc. destruct Hc as [[H1 H2] H3]. cbn [app good]. rewrite H1, H2, H3. auto.
Qed.

Lemma good_mount_escaped m s : mount_ok m = true -> good QE (m ++ s) = good QN s.
Proof.
  unfold mount_ok. destruct m as [|c m']; [discriminate |]. cbn [is_nil_b negb andb forallb].
  intros H. apply andb_true_iff in H as [_ H]. cbn [app good]. apply good_neutral_app. exact H.
Qed.

Lemma good_cons st c r : good st (c :: r) = true -> exists st', forall r', good st (c :: r') = good st' r'.
Proof.
  destruct st; cbn [good]; [| exists QN; reflexivity].
  destruct (c =? 34); [discriminate |]. destruct (c =? 92); [exists QE; reflexivity |].
  destruct (c =? 36); [discriminate | exists QN; reflexivity].
Qed.

(* substituting inside a quoted argument keeps it a well-formed quoted argument. The bytes of a matched ${SNAP} still to be
   passed over (the counter of replace_all) are part of the statement, so the induction is on the argument itself *)
Lemma subst_quoted m t : mount_ok m = true ->
  forall E k st, (k <= List.length E)%nat -> good st (skipn k E) = true ->
  exists E', replace_all lit_snapvar m k (E ++ 34 :: t) = E' ++ 34 :: subst_snap m t /\ good st E' = true.
Proof.
  intros Hm. unfold subst_snap. induction E as [|c r IH]; intros k st Hk Hg.
  - assert (k = 0)%nat by (cbn in Hk; lia). subst k. exists []. split; [reflexivity | exact Hg].
  - destruct k as [|k]; cbn [app replace_all]; [| apply IH; [cbn in Hk; lia | exact Hg]].
    cbn [skipn] in Hg. change (c :: r ++ 34 :: t) with ((c :: r) ++ 34 :: t).
    rewrite (has_prefix_app_stop 34 t lit_snapvar (c :: r) eq_refl).
    destruct (has_prefix lit_snapvar (c :: r)) eqn:Hp.
    + apply has_prefix_split in Hp as (r' & Hp). cbn [lit_snapvar app] in Hp. injection Hp as -> ->.
      destruct st; [cbn in Hg; discriminate |].
      destruct (IH 6%nat QN) as (E'' & HE & HgE); [cbn; lia | exact Hg |].
      change (List.length lit_snapvar - 1)%nat with 6%nat. rewrite HE. exists (m ++ E''). split.
      * rewrite <- app_assoc. reflexivity.
      * rewrite good_mount_escaped by exact Hm. exact HgE.
    + destruct (good_cons st c r Hg) as (st' & Hst). rewrite Hst in Hg.
      destruct (IH 0%nat st') as (E'' & HE & HgE); [lia | exact Hg |].
      exists (c :: E''). split; [rewrite HE; reflexivity | rewrite Hst; exact HgE].
Qed.

Lemma tw_word : forall P acc rest, forallb no_space P = true -> (rest = [] \/ exists r', rest = 32 :: r') ->
  twords TWord acc (P ++ rest) = (rev acc ++ P) :: twords TSpace [] (tl rest).
Proof.
  induction P as [|c P IH]; intros acc rest H Hr.
  - rewrite app_nil_r. destruct Hr as [-> | (r' & ->)]; reflexivity.
  - cbn in H. apply andb_true_iff in H as [Hc HP]. unfold no_space in Hc. apply negb_true_iff in Hc.
    cbn [app twords]. rewrite Hc, (IH _ _ HP Hr). cbn [rev]. rewrite <- app_assoc. reflexivity.
Qed.

Definition tq (st : qst) : tst := match st with QN => TQuote | QE => TQuoteEsc end.

Lemma tw_quote : forall E st acc Y, good st E = true ->
  exists w, twords (tq st) acc (E ++ 34 :: Y) = (rev acc ++ w) :: twords TSpace [] Y.
Proof.
  induction E as [|c r IH]; intros st acc Y H.
  - destruct st; [| discriminate]. exists []. cbn. rewrite app_nil_r. reflexivity.
  - destruct st.
    + cbn [good] in H. destruct (c =? 34) eqn:E1; [discriminate |].
      destruct (c =? 92) eqn:E2.
      * destruct (IH QE acc Y H) as (w & Hw). exists w. cbn [app tq twords]. rewrite E1, E2. exact Hw.
      * destruct (c =? 36); [discriminate |].
        destruct (IH QN (c :: acc) Y H) as (w & Hw). exists (c :: w). cbn [app tq twords]. rewrite E1, E2.
        cbn [tq] in Hw. rewrite Hw. cbn [rev]. rewrite <- app_assoc. reflexivity.
    + cbn [good] in H. destruct (IH QN (c :: acc) Y H) as (w & Hw). exists (c :: w). cbn [app tq twords].
      cbn [tq] in Hw. rewrite Hw. cbn [rev]. rewrite <- app_assoc. reflexivity.
Qed.

Lemma tw_plain_first w rest :
  forallb plain w = true -> w <> [] -> (rest = [] \/ exists r', rest = 32 :: r') ->
  exists tl, twords TSpace [] (w ++ rest) = w :: tl.
Proof.
  intros Hw Hne Hr. destruct w as [|c w']; [congruence |].
  cbn in Hw. apply andb_true_iff in Hw as [Hc Hw'].
  assert (Hs : forallb no_space w' = true) by (eapply forallb_impl; [apply plain_no_space | exact Hw']).
  unfold plain in Hc. rewrite !andb_true_iff, !negb_true_iff in Hc. destruct Hc as [[[[H32 _] _] H34] _].
  cbn [app twords]. rewrite H32, H34, (tw_word w' [c] rest Hs Hr). eexists. reflexivity.
Qed.

Lemma unpercent_id : forall w, forallb plain w = true -> unpercent w = w.
Proof.
  induction w as [|c r IH]; intros H; [reflexivity |].
  cbn in H. apply andb_true_iff in H as [Hc Hr]. destruct r as [|d r']; [reflexivity |].
  change (unpercent (c :: d :: r')) with (if (c =? 37) && (d =? 37) then 37 :: unpercent r' else c :: unpercent (d :: r')).
  rewrite (plain_not_pct _ Hc). cbn [andb]. rewrite (IH Hr). reflexivity.
Qed.

Lemma hint_assignment x : is_assignment (lit_hint ++ x) = true.
Proof. unfold is_assignment. rewrite existsb_app. reflexivity. Qed.

(* env(1) skips the assignment and runs the next word, which is not one *)
Lemma env_program_assignment w2 w tl :
  is_assignment w2 = true -> forallb plain w = true -> env_program (w2 :: w :: tl) = Some w.
Proof.
  intros H2 Hw. cbn [env_program]. rewrite H2.
  assert (Hna : is_assignment w = false) by (apply (existsb_false_of_forallb (N.eqb 61) plain); [apply plain_not_eq | exact Hw]).
  rewrite Hna. reflexivity.
Qed.

(* The hint argument: how BAMF_DESKTOP_FILE_HINT=<df> stands in the line. Either as it is, free of spaces and $, or in
   double quotes around a body that keeps the quote open to its end. Both quoteExecArg's output and its ${SNAP}
   substitution are of this kind, and either way the desktop environment reads it as one assignment word. *)
Inductive hint_arg : bytes -> Prop :=
| HA_plain a : forallb no_space a = true -> forallb no_dollar a = true -> hint_arg (lit_hint ++ a)
| HA_quoted E : good QN E = true -> hint_arg (34 :: lit_hint ++ E ++ [34]).

Lemma not_reserved_no_space_dollar c : negb (is_reserved c) = true -> no_space c = true /\ no_dollar c = true.
Proof.
  unfold is_reserved, no_space, no_dollar. intros H. apply negb_true_iff in H.
  destruct (N.eqb_spec c 32) as [-> |]; [discriminate |].
  destruct (N.eqb_spec c 36) as [-> |]; [discriminate | split; reflexivity].
Qed.

Lemma quote_hint_arg df : hint_arg (quote_exec_arg (lit_hint ++ df)).
Proof.
  unfold quote_exec_arg. change (pdouble (lit_hint ++ df)) with (lit_hint ++ pdouble df).
  destruct (existsb is_reserved (lit_hint ++ pdouble df)) eqn:Eres; cbn [negb].
  - change (esc_all (lit_hint ++ pdouble df)) with (lit_hint ++ esc_all (pdouble df)).
    rewrite <- app_assoc. apply HA_quoted, good_esc_all.
  - apply forallb_of_existsb_false in Eres. rewrite forallb_app in Eres. apply andb_true_iff in Eres as [_ H].
    constructor; refine (forallb_impl _ _ _ _ H); intros c Hc; apply not_reserved_no_space_dollar in Hc; apply Hc.
Qed.

Lemma quoted_app E t : (34 :: lit_hint ++ E ++ [34]) ++ t = (34 :: lit_hint) ++ E ++ 34 :: t.
Proof. cbn [app]. rewrite <- !app_assoc. reflexivity. Qed.

Lemma subst_hint_arg m q t : mount_ok m = true -> hint_arg q ->
  exists q', hint_arg q' /\ subst_snap m (q ++ t) = q' ++ subst_snap m t.
Proof.
  intros Hm [a Hs Hd | E Hg].
  - exists (lit_hint ++ a). split; [constructor; assumption |].
    rewrite <- !app_assoc, (subst_prefix m lit_hint _ eq_refl), (subst_prefix m a t Hd). reflexivity.
  - destruct (subst_quoted m t Hm E 0%nat QN (Nat.le_0_l _) Hg) as (E' & HE & Hg'). fold (subst_snap m (E ++ 34 :: t)) in HE.
    exists (34 :: lit_hint ++ E' ++ [34]). split; [constructor; exact Hg' |].
    rewrite !quoted_app, (subst_prefix m (34 :: lit_hint) _ eq_refl), HE. reflexivity.
Qed.

Lemma tw_hint_arg q Y : hint_arg q ->
  exists v, is_assignment v = true /\ twords TSpace [] (lit_env ++ q ++ 32 :: Y) = [101;110;118] :: v :: twords TSpace [] Y.
Proof.
  intros [a Hs _ | E Hg].
  - exists (lit_hint ++ a). split; [apply hint_assignment |]. rewrite <- app_assoc.
    change (twords TSpace [] (lit_env ++ lit_hint ++ a ++ 32 :: Y))
      with ([101;110;118] :: twords TWord (rev lit_hint) (a ++ 32 :: Y)).
    rewrite (tw_word a (rev lit_hint) (32 :: Y) Hs (or_intror (ex_intro _ Y eq_refl))), rev_involutive. reflexivity.
  - destruct (tw_quote E QN (rev lit_hint) (32 :: Y) Hg) as (w0 & Hw0). cbn [tq] in Hw0. rewrite rev_involutive in Hw0.
    exists (lit_hint ++ w0). split; [apply hint_assignment |]. rewrite quoted_app.
    change (twords TSpace [] (lit_env ++ (34 :: lit_hint) ++ E ++ 34 :: 32 :: Y))
      with ([101;110;118] :: twords TQuote (rev lit_hint) (E ++ 34 :: 32 :: Y)).
    rewrite Hw0. reflexivity.
Qed.

Theorem exec_output_launches i df b :
  exec_form i df b ->
  mount_ok (d_mount i) = true ->
  (forall app, In app (d_apps i) -> forallb plain (wrapper i app) = true) ->
  exists app, In app (d_apps i) /\
    has_prefix (lit_exec ++ lit_env) (subst_snap (d_mount i) b) = true /\
    launched (subst_snap (d_mount i) b) = Some (wrapper i app).
Proof.
  intros (ap0 & rest & Hin & -> & Hr) Hm Hw. specialize (Hw ap0 Hin). exists ap0. split; [exact Hin |].
  set (m := d_mount i) in *. set (w := wrapper i ap0) in *.
  assert (Hwd : forallb no_dollar w = true) by (eapply forallb_impl; [apply plain_no_dollar | exact Hw]).
  assert (Hne : w <> []) by (unfold w, wrapper; destruct (d_bindir i); discriminate).
  assert (Hr' : subst_snap m rest = [] \/ exists r', subst_snap m rest = 32 :: r').
  { destruct Hr as [-> | (r' & ->)]; [left; reflexivity | right; rewrite subst_space; eexists; reflexivity]. }
  destruct (tw_plain_first w (subst_snap m rest) Hw Hne Hr') as (tl & Htl).
  destruct (subst_hint_arg m _ (32 :: w ++ rest) Hm (quote_hint_arg df)) as (q & Hq & Hs).
  destruct (tw_hint_arg q (w ++ subst_snap m rest) Hq) as (v & Hv & Htw).
  assert (E : subst_snap m (lit_exec ++ exec_env df ++ w ++ rest) = lit_exec ++ lit_env ++ q ++ 32 :: w ++ subst_snap m rest).
  { unfold exec_env. rewrite <- !app_assoc. cbn [app].
    rewrite (subst_prefix m lit_exec _ eq_refl), (subst_prefix m lit_env _ eq_refl), Hs, subst_space, (subst_prefix m w rest Hwd).
    reflexivity. }
  rewrite E. split; [reflexivity |].
  unfold launched. rewrite after_eq_exec, Htw, Htl, beq_refl, (env_program_assignment v w tl Hv Hw). cbn [option_map].
  rewrite (unpercent_id w Hw). reflexivity.
Qed.

(* the finding repaired by 0f3f7c0: the name of a desktop file called `a sh -c id x.desktop` is ONE quoted word after env *)
Definition bad_info : dinfo := mkInfo (bs "foo") [] [bs "app"] (bs "/snap/bin") (bs "/snap/foo/7").
Definition bad_df : bytes := bs "/var/lib/snapd/desktop/applications/foo_a sh -c id x.desktop".
Definition bad_content : bytes := bs "Exec=foo.app %U".

Lemma exec_filename_quoted_example :
  sanitize_lines bad_info bad_df [bad_content] =
    [bs "Exec=env " ++ [34] ++ bs "BAMF_DESKTOP_FILE_HINT=/var/lib/snapd/desktop/applications/foo_a sh -c id x.desktop" ++ [34] ++
     bs " /snap/bin/foo.app %U"] /\
  twords TSpace [] (after_eq (hd [] (sanitize_lines bad_info bad_df [bad_content]))) =
    [bs "env"; bs "BAMF_DESKTOP_FILE_HINT=/var/lib/snapd/desktop/applications/foo_a sh -c id x.desktop"; bs "/snap/bin/foo.app"; bs "%U"] /\
  launched (hd [] (sanitize_lines bad_info bad_df [bad_content])) = Some (bs "/snap/bin/foo.app").
Proof. vm_compute. repeat split; reflexivity. Qed.

(* a name with quotes, backslash, dollar, percent and ${SNAP}: still the wrapper *)
Lemma exec_filename_nasty_example :
  mount_ok (d_mount bad_info) = true /\
  launched (hd [] (sanitize_lines bad_info (bs "/d/foo_a" ++ [34; 32; 92; 34] ++ bs " sh ${SNAP} 100%U `id`.desktop") [bad_content]))
    = Some (bs "/snap/bin/foo.app").
Proof. vm_compute. split; reflexivity. Qed.

Lemma exec_ok_example :
  sanitize bad_info (bs "/var/lib/snapd/desktop/applications/foo_app.desktop")
           (bs "[Desktop Entry]" ++ [10] ++ bs "TryExec=/bin/sh" ++ [10] ++ bs "Exec=foo.app %U" ++ [10] ++ bs "Icon=${SNAP}/meta/gui/icon.png" ++ [10]) =
  bs "[Desktop Entry]" ++ [10] ++ bs "X-SnapInstanceName=foo" ++ [10] ++
  bs "Exec=env BAMF_DESKTOP_FILE_HINT=/var/lib/snapd/desktop/applications/foo_app.desktop /snap/bin/foo.app %U" ++ [10] ++
  bs "Icon=/snap/foo/7/meta/gui/icon.png" ++ [10].
Proof. vm_compute. reflexivity. Qed.

Definition byte_ok (c : N) : bool := c <=? 255.
Definition bytes_ok (s : bytes) : bool := forallb byte_ok s.
Definition info_ok (i : dinfo) : bool :=
  bytes_ok (d_mount i) && bytes_ok (d_bindir i) && bytes_ok (d_snap i) && bytes_ok (d_key i) && forallb bytes_ok (d_apps i).

(* no byte class of the expression contains $ *)
Fixpoint nd_re (r : regex) : bool :=
  match r with
  | Empty | Eps => true
  | Cls rs => negb (in_ranges 36 rs)
  | Cat a b | Alt a b => nd_re a && nd_re b
  | Star a => nd_re a
  end.

Lemma nd_re_avoids r : nd_re r = avoids 36 r.
Proof. induction r; cbn; congruence. Qed.

Lemma nd_lang r s : lang r s -> nd_re r = true -> forallb no_dollar s = true.
Proof. rewrite nd_re_avoids. apply lang_avoids. Qed.

(* an allowlist alternative is either $-free as a whole, or a $-free expression followed by "anything" *)
Definition alt_ok (a : regex) : bool :=
  nd_re a || match a with Cat r t => nd_re r && req t (Star AnyByte) | _ => false end.

Lemma alts_ok : forallb alt_ok valid_line_alts = true.
Proof. vm_compute. reflexivity. Qed.

Lemma subst_no_dollar m s : forallb no_dollar s = true -> subst_snap m s = s.
Proof. intros H. rewrite <- (app_nil_r s) at 1. rewrite (subst_prefix m s [] H). apply app_nil_r. Qed.

Lemma in_any c : in_ranges c [(0, 255)] = byte_ok c.
Proof. unfold byte_ok. destruct c; cbn [in_ranges]; rewrite orb_false_r; reflexivity. Qed.

Lemma lang_any s : bytes_ok s = true -> lang (Star AnyByte) s.
Proof. apply (lang_star_class _ byte_ok s in_any). Qed.

Lemma alt_subst m a line :
  alt_ok a = true -> lang a line -> bytes_ok (subst_snap m line) = true ->
  lang a (subst_snap m line).
Proof.
  unfold alt_ok. intros Ha Hl Hb. apply orb_true_iff in Ha as [Ha | Ha].
  - rewrite (subst_no_dollar m line (nd_lang a line Hl Ha)). exact Hl.
  - destruct a; try discriminate. apply andb_true_iff in Ha as [Hn Hq]. apply req_eq in Hq. subst a2.
    apply lang_cat_inv in Hl as (p & rest & -> & Hp & _).
    pose proof (nd_lang a1 p Hp Hn) as Hd. rewrite (subst_prefix m p rest Hd) in *.
    constructor; [exact Hp |]. apply lang_any. unfold bytes_ok in *. rewrite forallb_app in Hb.
    apply andb_true_iff in Hb as [_ Hb]. exact Hb.
Qed.

Lemma replace_all_bytes_ok old m : bytes_ok m = true -> forall s k, bytes_ok s = true -> bytes_ok (replace_all old m k s) = true.
Proof.
  intros Hm. unfold bytes_ok in *. induction s as [|c r IH]; intros k Hs; [reflexivity |].
  cbn in Hs. apply andb_true_iff in Hs as [Hc Hr]. cbn [replace_all]. destruct k.
  - destruct (has_prefix old (c :: r)).
    + rewrite forallb_app, Hm. apply IH. exact Hr.
    + cbn. rewrite Hc. apply IH. exact Hr.
  - apply IH. exact Hr.
Qed.

Lemma valid_line_subst m line :
  valid_line line = true -> bytes_ok m = true -> bytes_ok line = true -> valid_line (subst_snap m line) = true.
Proof.
  unfold valid_line. intros Hv Hm Hl. apply existsb_exists in Hv as (a & Hin & Ha).
  apply existsb_exists. exists a. split; [exact Hin |].
  apply rmatch_lang. apply rmatch_lang in Ha.
  apply alt_subst; [| exact Ha | apply replace_all_bytes_ok; assumption].
  pose proof alts_ok as H. rewrite forallb_forall in H. apply H. exact Hin.
Qed.

Lemma key_prefix_valid key y :
  existsb (req (search_r (Lit key))) valid_line_alts = true -> bytes_ok y = true -> valid_line (key ++ y) = true.
Proof.
  intros He Hy. apply existsb_exists in He as (a & Hin & Ha). apply req_eq in Ha. subst a.
  unfold valid_line. apply existsb_exists. exists (search_r (Lit key)). split; [exact Hin |].
  apply rmatch_lang, lang_lit_cat. exists y. split; [reflexivity | apply lang_any; exact Hy].
Qed.

Lemma ok_app a b : bytes_ok (a ++ b) = bytes_ok a && bytes_ok b.
Proof. apply forallb_app. Qed.
Lemma ok_flat_map (f : N -> bytes) s : (forall c, byte_ok c = true -> bytes_ok (f c) = true) -> bytes_ok s = true -> bytes_ok (flat_map f s) = true.
Proof.
  intros Hf. unfold bytes_ok in *. induction s as [|c r IH]; intros H; [reflexivity |].
  cbn in H. apply andb_true_iff in H as [Hc Hr]. cbn [flat_map]. rewrite forallb_app, (Hf c Hc), (IH Hr). reflexivity.
Qed.
Lemma ok_split_first c : forall s a b, split_first c s = Some (a, b) -> bytes_ok s = true -> bytes_ok b = true.
Proof.
  unfold bytes_ok. induction s as [|x r IH]; intros a b; cbn; [discriminate |].
  intros H Hs. apply andb_true_iff in Hs as [_ Hr]. destruct (x =? c).
  - injection H as _ <-. exact Hr.
  - destruct (split_first c r) as [[a' b'] |]; [| discriminate]. injection H as _ <-. eapply IH; [reflexivity | exact Hr].
Qed.
Lemma ok_after_eq line : bytes_ok line = true -> bytes_ok (after_eq line) = true.
Proof. unfold after_eq. intros H. destruct (split_first 61 line) as [[a b] |] eqn:E; [eapply ok_split_first; eassumption | reflexivity]. Qed.

Lemma ok_quote arg : bytes_ok arg = true -> bytes_ok (quote_exec_arg arg) = true.
Proof.
  intros H. unfold quote_exec_arg.
  assert (Hp : bytes_ok (pdouble arg) = true).
  { apply ok_flat_map; [| exact H]. intros c Hc. destruct (c =? 37); cbn; rewrite ?Hc; reflexivity. }
  destruct (existsb is_reserved (pdouble arg)); cbn [negb]; [| exact Hp].
  rewrite !ok_app. cbn [bytes_ok forallb]. change (byte_ok 34) with true. cbn [andb]. rewrite andb_true_r.
  apply ok_flat_map; [| exact Hp]. intros c Hc. unfold esc.
  destruct ((c =? 34) || (c =? 96) || (c =? 36) || (c =? 92)); cbn; rewrite Hc; reflexivity.
Qed.

Lemma ok_instance snap key : bytes_ok snap = true -> bytes_ok key = true -> bytes_ok (instance_name snap key) = true.
Proof. intros Hs Hk. unfold instance_name. destruct (is_nil_b key); [exact Hs |]. rewrite !ok_app, Hs, Hk. reflexivity. Qed.

Lemma info_ok_parts i : info_ok i = true ->
  bytes_ok (d_mount i) = true /\ bytes_ok (d_bindir i) = true /\ bytes_ok (d_snap i) = true /\ bytes_ok (d_key i) = true /\
  forall a, In a (d_apps i) -> bytes_ok a = true.
Proof.
  unfold info_ok. intros H. apply andb_true_iff in H as [H H5]. apply andb_true_iff in H as [H H4].
  apply andb_true_iff in H as [H H3]. apply andb_true_iff in H as [H1 H2].
  repeat split; auto. intros a Ha. rewrite forallb_forall in H5. auto.
Qed.

Lemma ok_wrapper i a : info_ok i = true -> bytes_ok a = true -> bytes_ok (wrapper i a) = true.
Proof.
  intros Hi Ha. destruct (info_ok_parts i Hi) as (_ & Hb & Hs & Hk & _).
  unfold wrapper, join_snap_app. rewrite !ok_app, Hb. cbn [bytes_ok forallb]. change (byte_ok 47) with true. cbn [andb].
  destruct (beq (d_snap i) a); [apply ok_instance; assumption |].
  rewrite !ok_app, (ok_instance _ _ Hs Hk), Ha. reflexivity.
Qed.

Lemma ok_exec_env df : bytes_ok df = true -> bytes_ok (exec_env df) = true.
Proof.
  intros H. unfold exec_env. rewrite !ok_app. rewrite ok_quote by (rewrite ok_app, H; reflexivity). reflexivity.
Qed.

Lemma ok_suffix pre rest : bytes_ok (pre ++ rest) = true -> bytes_ok rest = true.
Proof. rewrite ok_app. intros H. apply andb_true_iff in H as [_ H]. exact H. Qed.

Lemma ok_process_line i df line b :
  info_ok i = true -> bytes_ok df = true -> bytes_ok line = true -> process_line i df line = Some b -> bytes_ok b = true.
Proof.
  intros Hi Hd Hl. destruct (info_ok_parts i Hi) as (_ & _ & Hs & Hk & Happs).
  unfold process_line. destruct (negb (valid_line line)); [discriminate |].
  assert (Icon : forall l1, bytes_ok l1 = true ->
            (if has_prefix lit_icon l1 then rewrite_icon i l1 else Some l1) = Some b -> bytes_ok b = true).
  { intros l1 H1. destruct (has_prefix lit_icon l1); [| intros [= <-]; exact H1].
    intros H. apply rewrite_icon_class in H as [[-> _] | (_ & pre & rest & E & ->)]; [exact H1 |].
    apply ok_after_eq in H1. rewrite E in H1. rewrite !ok_app, (ok_instance _ _ Hs Hk), (ok_suffix _ _ H1). reflexivity. }
  destruct (has_prefix lit_exec line) eqn:He; [| apply Icon; exact Hl].
  destruct (rewrite_exec i df line) as [l1 |] eqn:E; [| discriminate]. apply Icon.
  destruct (rewrite_exec_form i df line l1 He E) as (a & rest & Hin & -> & _ & pre & Ep). rewrite Ep in Hl.
  rewrite !ok_app, (ok_exec_env df Hd), (ok_wrapper i a Hi (Happs a Hin)), (ok_suffix _ _ Hl). reflexivity.
Qed.

Theorem output_lines_allowlisted i df lines l :
  info_ok i = true -> bytes_ok df = true -> Forall (fun x => bytes_ok x = true) lines ->
  In l (sanitize_lines i df lines) -> valid_line l = true \/ l = xsnap_line i.
Proof.
  intros Hi Hd Hls Hin. destruct (info_ok_parts i Hi) as (Hm & _).
  apply in_sanitize_lines in Hin as [-> | (line & b & Hline & Hp & ->)]; [right; reflexivity | left].
  rewrite Forall_forall in Hls. pose proof (Hls line Hline) as Hl.
  pose proof (ok_process_line i df line b Hi Hd Hl Hp) as Hb.
  assert (Hsb : bytes_ok (subst_snap (d_mount i) b) = true) by (apply replace_all_bytes_ok; assumption).
  assert (Key : forall key y, forallb no_dollar key = true -> existsb (req (search_r (Lit key))) valid_line_alts = true ->
                b = key ++ y -> valid_line (subst_snap (d_mount i) b) = true).
  { intros key y Hk He ->. rewrite (subst_prefix _ key y Hk) in *. apply key_prefix_valid; [exact He |].
    rewrite ok_app in Hsb. apply andb_true_iff in Hsb as [_ Hsb]. exact Hsb. }
  destruct (process_line_class i df line b Hp) as [Hv [[-> _] | [[_ (ap0 & rest & _ & Eb & _)] | (_ & _ & Hic)]]].
  - apply valid_line_subst; assumption.
  - exact (Key lit_exec _ eq_refl eq_refl Eb).
  - apply has_prefix_split in Hic as (y & Eb). exact (Key lit_icon y eq_refl eq_refl Eb).
Qed.
