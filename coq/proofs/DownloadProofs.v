(* C31 -- proofs about models/Download.v (store/store_download.go). All theorems are for EVERY server script,
   retry budget and pre-existing partial file, by induction on the retry budget. *)
From Coq Require Import List NArith Bool Arith Lia ZifyBool.
Import ListNotations.
Require Import V.lib.Bytes V.models.Download V.proofs.BytesFacts.
Open Scope N_scope.

Lemma beq_refl : forall a, beq a a = true.
Proof. exact BytesFacts.beq_refl. Qed.

Lemma write_at_length : forall f pos data, (pos <= length f)%nat ->
  length (write_at f pos data) = Nat.max (length f) (pos + length data).
Proof.
  intros f pos data H. unfold write_at. rewrite !app_length, firstn_length, skipn_length. lia.
Qed.

Lemma write_at_firstn : forall f pos data, (pos <= length f)%nat ->
  firstn (pos + length data) (write_at f pos data) = firstn pos f ++ data.
Proof.
  intros f pos data H. unfold write_at.
  assert (L : length (firstn pos f) = pos) by (rewrite firstn_length; lia).
  rewrite firstn_app, L.
  replace (pos + length data - pos)%nat with (length data) by lia.
  rewrite firstn_all2 by lia.
  rewrite firstn_app, Nat.sub_diag, firstn_O, app_nil_r.
  now rewrite firstn_all.
Qed.

Lemma write_at_end : forall f data, write_at f (length f) data = f ++ data.
Proof.
  intros f data. unfold write_at. rewrite firstn_all, skipn_all2 by lia. now rewrite app_nil_r.
Qed.

Lemma delivered_length : forall c p, (length (delivered c p) <= length p)%nat.
Proof. intros [|n|n] p; cbn [delivered]; try rewrite firstn_length; lia. Qed.

Lemma max_le_l : forall a b, (a <= Nat.max a b)%nat. Proof. lia. Qed.

Lemma next_beh_not_redirect : forall s b rest, next_beh s = (b, rest) -> b <> Redirect.
Proof.
  induction s as [|x s IH]; intros b rest H; cbn [next_beh] in H.
  - inversion H; discriminate.
  - destruct x; try (inversion H; discriminate). now apply IH in H.
Qed.

(* dl_loop written with the `continue` as an explicit continuation, to do the case analysis once *)
Definition attempt (trunc : bool) (k : option (list beh -> bytes -> nat -> nat -> derr * bytes * nat * list beh))
  (script : list beh) (expected f : bytes) (pos resume : nat) : derr * bytes * nat * list beh :=
  let ranged := (0 <? resume)%nat in
  let h0 := if ranged then f else [] in
  let pos0 := if ranged then length f else pos in
  if ranged && negb (length f =? resume)%nat then (EOther, f, pos0, script) else
  let (b, rest) := next_beh script in
  match b with
  | Redirect => (EOther, f, pos0, rest)
  | Garbage => (EOther, f, pos0, rest)
  | Drop => match k with Some k => k rest f pos0 resume | None => (EOther, f, pos0, rest) end
  | Resp status hr body c =>
      let honoured := ranged && hr in
      let st := if honoured then 206 else status in
      let payload := if honoured then skipn resume body else body in
      let reset := ranged && negb (st =? 206) in
      let f1 := if reset && trunc then [] else f in
      let h1 := if reset then [] else h0 in
      let pos1 := if reset then O else pos0 in
      let resume1 := if reset then O else resume in
      if (500 <=? st) && is_some k then
        match k with Some k => k rest f1 pos1 resume1 | None => (EOther, f1, pos1, rest) end
      else if negb (status_ok st) then (EOther, f1, pos1, rest)
      else
        let data := delivered c payload in
        let f2 := write_at f1 pos1 data in
        let pos2 := (pos1 + length data)%nat in
        let h2 := h1 ++ data in
        match c with
        | Full => if beq h2 expected then (ENone, f2, pos2, rest) else (EHash, f2, pos2, rest)
        | BadChunk _ => (EOther, f2, pos2, rest)
        | EarlyClose _ =>
            match k with Some k => k rest f2 (length f2) (length f2) | None => (EOther, f2, pos2, rest) end
        end
  end.

Lemma dl_loop_unfold : forall trunc r script expected f pos resume,
  dl_loop trunc r script expected f pos resume =
  attempt trunc (match r with
                 | O => None
                 | S r' => Some (fun s f p q => dl_loop trunc r' s expected f p q)
                 end) script expected f pos resume.
Proof.
  intros trunc r script expected f pos resume. destruct r; cbn [dl_loop attempt is_some Nat.eqb negb];
  rewrite ?andb_true_r, ?andb_false_r; reflexivity.
Qed.

Section Invariant.
  Variable trunc : bool.
  Variable expected : bytes.
  Variable Pre : list beh -> bytes -> nat -> nat -> Prop.       (* script f pos resume *)
  Variable Post : derr -> bytes -> nat -> list beh -> Prop.     (* err f' pos' rest *)

  Hypothesis step : forall k script f pos resume,
    Pre script f pos resume ->
    (forall kk, k = Some kk -> forall s f1 p1 r1 e f' p' rest, Pre s f1 p1 r1 -> kk s f1 p1 r1 = (e, f', p', rest) -> Post e f' p' rest) ->
    forall e f' p' rest, attempt trunc k script expected f pos resume = (e, f', p', rest) -> Post e f' p' rest.

  Lemma dl_loop_rule : forall r script f pos resume e f' p' rest,
    Pre script f pos resume ->
    dl_loop trunc r script expected f pos resume = (e, f', p', rest) -> Post e f' p' rest.
  Proof.
    induction r as [|r IH]; intros script f pos resume e f' p' rest HP H; rewrite dl_loop_unfold in H.
    - eapply step; [exact HP | | exact H]. intros kk Hk. discriminate.
    - eapply step; [exact HP | | exact H]. intros kk Hk. inversion Hk; subst kk.
      intros s f1 p1 r1 e0 f0 p0 rest0 HP1 H1. eapply IH; eauto.
  Qed.
End Invariant.

(* The state in which the body of a response is written: the file, the write position, the bytes hashed so far, the
   resume offset, the part of the body that will arrive at best, and the status the code sees.
   HFresh: no Range was asked for; HAppend: the answer counts as 206 (the range was honoured, or the server says so
   without honouring it); HReset: the server ignored Range, position and hash start over. *)
Inductive header (trunc : bool) (f : bytes) (pos resume : nat) (status : N) (hr : bool) (body : bytes)
  : bytes -> nat -> bytes -> nat -> bytes -> N -> Prop :=
| HFresh : resume = O -> header trunc f pos resume status hr body f pos [] O body status
| HAppend : (0 < resume)%nat -> length f = resume -> hr = true \/ status = 206 ->
    header trunc f pos resume status hr body f (length f) f resume (if hr then skipn resume body else body) 206
| HReset : (0 < resume)%nat -> length f = resume -> hr = false -> status <> 206 ->
    header trunc f pos resume status hr body (if trunc then [] else f) O [] O body status.

Lemma header_intro : forall trunc f pos resume status hr body,
  (0 <? resume)%nat && negb (length f =? resume)%nat = false ->
  let ranged := (0 <? resume)%nat in
  let honoured := ranged && hr in
  let st := if honoured then 206 else status in
  let reset := ranged && negb (st =? 206) in
  header trunc f pos resume status hr body
    (if reset && trunc then [] else f) (if reset then O else if ranged then length f else pos)
    (if reset then [] else if ranged then f else []) (if reset then O else resume)
    (if honoured then skipn resume body else body) st.
Proof.
  intros trunc f pos resume status hr body Hlen. cbv zeta.
  destruct (Nat.ltb_spec 0 resume) as [Hr|Hr]; cbn [andb] in *.
  - apply negb_false_iff, Nat.eqb_eq in Hlen.
    destruct hr; cbn [N.eqb Pos.eqb negb andb]; [now apply HAppend; auto|].
    destruct (N.eqb_spec status 206) as [->|Hne]; cbn [negb andb].
    + apply (HAppend trunc f pos resume 206 false body); auto.
    + now apply HReset.
  - assert (resume = O) as -> by lia. now apply HFresh.
Qed.

(* dl_loop_rule by the control flow of one attempt. It ends early, the file as it was (the partial file is not what
   resume says, no usable response), or a response is answered from its header state (f1, pos1, resume1): it is refused
   or retried there, or the delivered part of the body is written, giving f2, and the attempt stops (without error only
   if the hash of everything up to here is the expected one) or the next resumes at the end of f2. An invariant has
   to survive each move, and imply the postcondition wherever the loop stops with an error. *)
Section Attempt.
  Variable trunc : bool.
  Variable expected : bytes.
  Variable Pre : list beh -> bytes -> nat -> nat -> Prop.
  Variable Post : derr -> bytes -> nat -> list beh -> Prop.

  Hypothesis stop : forall rest f pos resume, Pre rest f pos resume -> Post EOther f pos rest.
  Hypothesis early : forall script f pos resume rest pos0, Pre script f pos resume ->
    rest = script \/ rest = snd (next_beh script) ->
    ((0 < resume)%nat -> pos0 = length f) -> (resume = O -> pos0 = pos) -> Pre rest f pos0 resume.
  Hypothesis resp : forall script f pos resume status hr body c rest f1 pos1 h1 resume1 payload st,
    Pre script f pos resume -> next_beh script = (Resp status hr body c, rest) ->
    header trunc f pos resume status hr body f1 pos1 h1 resume1 payload st ->
    let f2 := write_at f1 pos1 (delivered c payload) in
    Pre rest f1 pos1 resume1 /\ Pre rest f2 (length f2) (length f2) /\
    forall e, (e = ENone -> h1 ++ delivered c payload = expected) ->
      Post e f2 (pos1 + length (delivered c payload))%nat rest.

  Lemma dl_loop_attempt_rule : forall r script f pos resume e f' p' rest,
    Pre script f pos resume ->
    dl_loop trunc r script expected f pos resume = (e, f', p', rest) -> Post e f' p' rest.
  Proof.
    apply (dl_loop_rule trunc expected Pre Post).
    intros k script f pos resume HP Hk e f' p' rest H. unfold attempt in H. cbv zeta in H.
    assert (E0 : forall rest0, rest0 = script \/ rest0 = snd (next_beh script) ->
                   Pre rest0 f (if (0 <? resume)%nat then length f else pos) resume).
    { intros rest0 Hr. apply (early script f pos resume); auto; destruct (Nat.ltb_spec 0 resume); lia. }
    destruct ((0 <? resume)%nat && negb (length f =? resume)%nat) eqn:Elen.
    { inversion H; subst. eapply stop, E0. now left. }
    destruct (next_beh script) as [b rest0] eqn:Enb. specialize (E0 rest0 (or_intror eq_refl)).
    destruct b as [| | |status hr body c].
    1: destruct k as [kk|]; [exact (Hk kk eq_refl _ _ _ _ _ _ _ _ E0 H)|].
    1-3: inversion H; subst; eapply stop; exact E0.
    destruct (resp _ _ _ _ _ _ _ _ _ _ _ _ _ _ _ HP Enb (header_intro trunc f pos resume status hr body Elen))
      as (R1 & R2 & R3).
    destruct ((500 <=? _) && is_some k).
    { destruct k as [kk|]; [exact (Hk kk eq_refl _ _ _ _ _ _ _ _ R1 H) | inversion H; subst; eapply stop; exact R1]. }
    destruct (negb (status_ok _)); [inversion H; subst; eapply stop; exact R1|].
    destruct c.
    - destruct (beq _ expected) eqn:E; inversion H; subst; apply R3; [intros _; now apply beq_eq | discriminate].
    - destruct k as [kk|]; [exact (Hk kk eq_refl _ _ _ _ _ _ _ _ R2 H) | inversion H; subst; apply R3; discriminate].
    - inversion H; subst; apply R3; discriminate.
  Qed.
End Attempt.

(* the running hash is the hash of file[0..pos) *)
Theorem hash_tracks_file : forall trunc r script expected f pos resume e f' p' rest,
  (pos <= length f)%nat -> (resume = 0%nat -> pos = 0%nat) ->
  dl_loop trunc r script expected f pos resume = (e, f', p', rest) ->
  (p' <= length f')%nat /\ (e = ENone -> firstn p' f' = expected).
Proof.
  intros trunc r script expected f pos resume e f' p' rest Hle H0.
  apply (dl_loop_attempt_rule trunc expected (fun _ f pos resume => (pos <= length f)%nat /\ (resume = O -> pos = O))
           (fun e f' p' _ => (p' <= length f')%nat /\ (e = ENone -> firstn p' f' = expected)));
    [clear | clear | clear | auto].
  - intros _ f pos _ [Hle _]. split; [assumption | discriminate].
  - intros _ f pos resume _ pos0 [Hle H0] _ Ha Hb. lia.
  - intros script f pos resume status hr body c rest f1 pos1 h1 resume1 payload st [Hle H0] _ Hh f2.
    assert (W : (pos1 <= length f1)%nat /\ h1 = firstn pos1 f1 /\ (resume1 = O -> pos1 = O)).
    { destruct Hh; repeat split; try lia; [rewrite H0 by assumption; reflexivity | now rewrite firstn_all]. }
    destruct W as (W1 & -> & W3).
    pose proof (write_at_length f1 pos1 (delivered c payload) W1) as L. subst f2.
    split; [auto|]. split; [lia|]. intros e He. split; [lia|]. rewrite write_at_firstn by assumption. exact He.
Qed.

Lemma next_beh_within : forall sz s b rest, forallb (beh_within sz) s = true -> next_beh s = (b, rest) ->
  beh_within sz b = true /\ forallb (beh_within sz) rest = true.
Proof.
  induction s as [|x s IH]; intros b rest HF H; cbn [next_beh] in H.
  - inversion H; subst. now split.
  - cbn [forallb] in HF. apply andb_true_iff in HF. destruct HF as [Hx Hs].
    destruct x; try (inversion H; subst; now split). now apply IH.
Qed.

Lemma rest_within : forall sz trunc r script expected f pos resume e f' p' rest,
  forallb (beh_within sz) script = true ->
  dl_loop trunc r script expected f pos resume = (e, f', p', rest) -> forallb (beh_within sz) rest = true.
Proof.
  intros sz trunc r script expected f pos resume e f' p' rest.
  apply (dl_loop_attempt_rule trunc expected (fun s _ _ _ => forallb (beh_within sz) s = true)
           (fun _ _ _ rest => forallb (beh_within sz) rest = true)); clear.
  - auto.
  - intros script _ _ _ rest _ HF [-> | ->] _ _;
      [assumption | exact (proj2 (next_beh_within sz script _ _ HF (surjective_pairing _)))].
  - intros script f pos resume status hr body c rest f1 pos1 h1 resume1 payload st HF Enb _ f2.
    pose proof (proj2 (next_beh_within sz script _ _ HF Enb)). auto.
Qed.

(* under the guard the file never outgrows the declared size (code before the repair: no truncation) *)
Lemma file_within_size : forall sz r script expected f pos resume e f' p' rest,
  forallb (beh_within sz) script = true -> (length f <= sz)%nat -> (pos <= length f)%nat ->
  (resume = 0%nat -> pos = 0%nat) ->
  dl_loop false r script expected f pos resume = (e, f', p', rest) ->
  (length f' <= sz)%nat /\ forallb (beh_within sz) rest = true.
Proof.
  intros sz r script expected f pos resume e f' p' rest HF Hsz Hle H0 H.
  split; [|exact (rest_within _ _ _ _ _ _ _ _ _ _ _ _ HF H)]. revert H.
  apply (dl_loop_attempt_rule false expected
           (fun s f pos resume => forallb (beh_within sz) s = true /\ (length f <= sz)%nat /\ (pos <= length f)%nat /\
                                  (resume = O -> pos = O))
           (fun _ f' _ _ => (length f' <= sz)%nat)); [clear | clear | clear | auto].
  - intros _ f _ _ (_ & Hsz & _). exact Hsz.
  - intros script f pos resume rest pos0 (HF & Hsz & Hle & H0) Hr Ha Hb. split; [|lia].
    destruct Hr as [-> | ->]; [assumption | exact (proj2 (next_beh_within sz script _ _ HF (surjective_pairing _)))].
  - intros script f pos resume status hr body c rest f1 pos1 h1 resume1 payload st (HF & Hsz & Hle & H0) Enb Hh f2.
    destruct (next_beh_within sz script _ _ HF Enb) as [Hb HF0]. cbn [beh_within] in Hb.
    assert (W : (length f1 <= sz)%nat /\ (pos1 <= length f1)%nat /\ (pos1 + length payload <= sz)%nat /\
                (resume1 = O -> pos1 = O)).
    { destruct Hh; repeat split; try lia. destruct hr; [rewrite skipn_length|]; lia. }
    destruct W as (W1 & W2 & W3 & W4).
    pose proof (delivered_length c payload). pose proof (write_at_length f1 pos1 (delivered c payload) W2) as L.
    subst f2. split; [auto|]. split; [repeat split; auto; lia | intros; lia].
Qed.

(* with truncation on reset every write is an append *)
Lemma fixed_appends_only : forall r script expected f resume e f' p' rest,
  dl_loop true r script expected f (length f) resume = (e, f', p', rest) -> p' = length f'.
Proof.
  intros r script expected f resume e f' p' rest.
  apply (dl_loop_attempt_rule true expected (fun _ f pos _ => pos = length f) (fun _ f' p' _ => p' = length f'));
    [clear | clear | clear | reflexivity].
  - auto.
  - intros _ f pos resume _ pos0 -> _ Ha Hb. lia.
  - intros script f pos resume status hr body c rest f1 pos1 h1 resume1 payload st -> _ Hh f2.
    assert (W : pos1 = length f1) by now destruct Hh. subst pos1 f2.
    rewrite write_at_end, app_length. auto.
Qed.

Lemma firstn_whole : forall (p : nat) (f e : bytes), firstn p f = e -> (length f <= length e)%nat -> f = e.
Proof.
  intros p f e H Hl. assert (L : length (firstn p f) = length e) by now rewrite H.
  rewrite firstn_length in L. rewrite <- H. symmetry. apply firstn_all2. lia.
Qed.

(* where the file that is renamed to the target comes from: one of the three places that can report `no error` *)
Inductive source (trunc : bool) (size : N) (expected partial : bytes) (attempts : nat) (script : list beh) (f : bytes) : Prop :=
| SrcFirst : forall p rest,
    (size =? 0) || (N.of_nat (length partial) <? size) = true ->
    dl_loop trunc (pred attempts) script expected partial (length partial) (length partial) = (ENone, f, p, rest) ->
    source trunc size expected partial attempts script f
| SrcComplete :
    (size =? 0) || (N.of_nat (length partial) <? size) = false -> partial = expected -> f = partial ->
    source trunc size expected partial attempts script f
| SrcRetry : forall s p rest,
    (forall sz, forallb (beh_within sz) script = true -> forallb (beh_within sz) s = true) ->
    dl_loop trunc (pred attempts) s expected [] 0 0 = (ENone, f, p, rest) ->
    source trunc size expected partial attempts script f.

Lemma download_gen_spec : forall trunc size expected partial leave attempts script,
  let o := download_gen trunc size expected partial leave attempts script in
  (o_err o = ENone /\ exists f, o_target o = Some f /\ source trunc size expected partial attempts script f) \/
  (o_err o <> ENone /\ o_target o = None).
Proof.
  intros trunc size expected partial leave attempts script. cbv zeta. unfold download_gen.
  destruct ((size =? 0) || (N.of_nat (length partial) <? size)) eqn:Ebr.
  - destruct (dl_loop trunc (pred attempts) script expected partial (length partial) (length partial))
      as [[[e1 f1] p1] rest1] eqn:E1.
    destruct e1.
    + left. cbn. split; [reflexivity|]. exists f1. split; [reflexivity|]. eapply SrcFirst; eauto.
    + destruct (dl_loop trunc (pred attempts) rest1 expected [] 0 0) as [[[e2 f2] p2] rest2] eqn:E2.
      destruct e2.
      * left. cbn. split; [reflexivity|]. exists f2. split; [reflexivity|]. eapply SrcRetry; [|exact E2].
        intros sz HF. eapply rest_within; [exact HF | exact E1].
      * right. cbn. split; [discriminate|reflexivity].
      * right. cbn. split; [discriminate|reflexivity].
    + right. cbn. split; [discriminate|reflexivity].
  - destruct (beq partial expected) eqn:Eb.
    + left. cbn. split; [reflexivity|]. exists partial. split; [reflexivity|]. apply SrcComplete; auto. now apply beq_true_iff.
    + destruct (dl_loop trunc (pred attempts) script expected [] 0 0) as [[[e2 f2] p2] rest2] eqn:E2.
      destruct e2.
      * left. cbn. split; [reflexivity|]. exists f2. split; [reflexivity|]. eapply SrcRetry; [|exact E2]. auto.
      * right. cbn. split; [discriminate|reflexivity].
      * right. cbn. split; [discriminate|reflexivity].
Qed.

Theorem failure_leaves_no_target : forall trunc size expected partial leave attempts script,
  let o := download_gen trunc size expected partial leave attempts script in
  o_target o = None <-> o_err o <> ENone.
Proof.
  intros trunc size expected partial leave attempts script. cbv zeta.
  destruct (download_gen_spec trunc size expected partial leave attempts script) as [[He (f & Ht & _)] | [He Ht]];
    rewrite ?Ht; split; intro H; congruence.
Qed.

Lemma source_prefix : forall trunc size expected partial attempts script f,
  source trunc size expected partial attempts script f -> exists p, (p <= length f)%nat /\ firstn p f = expected.
Proof.
  intros trunc size expected partial attempts script f [p rest _ H | _ Hp Hf | s p rest _ H].
  - exists p. destruct (hash_tracks_file _ _ _ _ _ _ _ _ _ _ _ (le_n _) (fun e => e) H) as [Hle Hh]. split; auto.
  - exists (length f). subst. split; [lia | apply firstn_all].
  - exists p. destruct (hash_tracks_file _ _ _ _ _ _ _ _ _ _ _ (le_n _) (fun e => e) H) as [Hle Hh]. split; auto.
Qed.

(* HISTORICAL (code before commit adc145b): on success the target starts with the expected content *)
Theorem before_fix_success_has_expected_prefix : forall size expected partial leave attempts script,
  o_err (download_before_fix size expected partial leave attempts script) = ENone ->
  exists tail, o_target (download_before_fix size expected partial leave attempts script) = Some (expected ++ tail).
Proof.
  intros size expected partial leave attempts script He. unfold download_before_fix in *.
  destruct (download_gen_spec false size expected partial leave attempts script) as [[_ (f & Ht & Hs)] | [Hne _]];
    [|contradiction].
  destruct (source_prefix _ _ _ _ _ _ _ Hs) as (p & Hle & Hp).
  exists (skipn p f). rewrite Ht. f_equal. rewrite <- Hp. symmetry. apply firstn_skipn.
Qed.

(* HISTORICAL (code before commit adc145b): the full statement held when the server never sends more than the
   declared size and says 206 only when it honours the range *)
Theorem before_fix_guarded : forall size expected partial leave attempts script,
  0 < size -> N.of_nat (length expected) = size ->
  forallb (beh_within (length expected)) script = true ->
  o_err (download_before_fix size expected partial leave attempts script) = ENone ->
  o_target (download_before_fix size expected partial leave attempts script) = Some expected.
Proof.
  intros size expected partial leave attempts script Hpos Hsz HF He. unfold download_before_fix in *.
  destruct (download_gen_spec false size expected partial leave attempts script) as [[_ (f & Ht & Hs)] | [Hne _]];
    [|contradiction].
  rewrite Ht. f_equal.
  destruct (source_prefix _ _ _ _ _ _ _ Hs) as (p & Hle & Hp).
  destruct Hs as [p1 rest Hbr H | _ Hpe Hf | s p1 rest Hs H].
  - apply (firstn_whole p); [exact Hp|].
    assert (Hl : (length partial <= length expected)%nat) by lia.
    eapply (file_within_size (length expected)); [exact HF | exact Hl | reflexivity | | exact H]. auto.
  - congruence.
  - apply (firstn_whole p); [exact Hp|].
    eapply (file_within_size (length expected)); [apply (Hs _ HF) | | | | exact H]; cbn; auto; lia.
Qed.

(* the full statement, no guard, for the code as it is since commit adc145b (the file is truncated when the server
   ignored Range) *)
Theorem target_only_if_match : forall size expected partial leave attempts script,
  o_err (download size expected partial leave attempts script) = ENone ->
  o_target (download size expected partial leave attempts script) = Some expected.
Proof.
  intros size expected partial leave attempts script He. unfold download in *.
  destruct (download_gen_spec true size expected partial leave attempts script) as [[_ (f & Ht & Hs)] | [Hne _]];
    [|contradiction].
  rewrite Ht. f_equal.
  destruct Hs as [p1 rest Hbr H | _ Hpe Hf | s p1 rest Hs H].
  - destruct (hash_tracks_file _ _ _ _ _ _ _ _ _ _ _ (le_n _) (fun e => e) H) as [_ Hh].
    apply fixed_appends_only in H. subst p1. rewrite firstn_all in Hh. auto.
  - congruence.
  - destruct (hash_tracks_file _ _ _ _ _ _ _ _ _ _ _ (le_n _) (fun e => e) H) as [_ Hh].
    apply (fixed_appends_only _ _ _ []) in H. subst p1. rewrite firstn_all in Hh. auto.
Qed.

(* HISTORICAL: the script on which the full statement fails for the code before adc145b, with size 4 declared and
   consistent and an empty partial file. Response 1: eight wrong bytes, then the connection is lost; response 2: the
   server ignores Range and sends the right content: success, target = abcdXXXX *)
Definition refute_script : list beh :=
  [Resp 200 true [88;88;88;88;88;88;88;88] (EarlyClose 8); Resp 200 false [97;98;99;100] Full].

(* why the guarded theorem needs 0 < size: with an undeclared size (0) even a server that stays within the guard
   (honest content, merely ignoring Range) leaves the stale tail of an over-long partial file *)
Theorem before_fix_unknown_size_refuted : exists expected partial leave attempts script,
  forallb (beh_within (length expected)) script = true /\
  o_err (download_before_fix 0 expected partial leave attempts script) = ENone /\
  o_target (download_before_fix 0 expected partial leave attempts script) <> Some expected.
Proof.
  exists [97;98;99;100], [88;88;88;88;88;88;88;88], false, 3%nat, [Resp 200 false [97;98;99;100] Full].
  vm_compute. repeat split; discriminate.
Qed.

Definition cache_ok (expected : bytes) (cache : option bytes) : Prop := cache = None \/ cache = Some expected.

Definition outcome_ok (expected : bytes) (o : outcome) : Prop :=
  (o_err o = ENone -> o_target o = Some expected) /\ (o_err o <> ENone -> o_target o = None).

Lemma download_c_ok : forall cache size expected attempts k,
  cache_ok expected cache -> k_pre k = None ->
  outcome_ok expected (fst (download_c cache size expected attempts k)) /\
  cache_ok expected (snd (download_c cache size expected attempts k)).
Proof.
  intros cache size expected attempts k Hc Hp. unfold download_c. rewrite Hp.
  destruct Hc as [-> | ->].
  - destruct (o_err (download size expected (opt_bytes (k_partial k)) (k_leave k) attempts (k_script k))) eqn:E;
      cbn [fst snd].
    + pose proof (target_only_if_match _ _ _ _ _ _ E) as Ht. rewrite Ht. split; [|right; reflexivity].
      split; [intros _; exact Ht | intro H; rewrite E in H; contradiction].
    + split; [|left; reflexivity]. split; cbn [o_err o_target]; [discriminate | reflexivity].
    + split; [|left; reflexivity]. split; cbn [o_err o_target]; [discriminate | reflexivity].
  - cbn [fst snd]. split; [|right; reflexivity]. split; cbn [o_err o_target]; [reflexivity | intro H; contradiction].
Qed.

(* any number of calls on one Store, cache on, starting from a cache that holds nothing or the right content, target
   paths free: every call that succeeds -- by download or by cache hit -- leaves exactly the expected content at its
   target, every call that fails leaves none; the cache never holds anything else *)
Theorem cache_sequence_only_if_match : forall ks cache size expected attempts,
  cache_ok expected cache -> Forall (fun k => k_pre k = None) ks ->
  Forall (outcome_ok expected) (fst (download_seq cache size expected attempts ks)) /\
  cache_ok expected (snd (download_seq cache size expected attempts ks)).
Proof.
  induction ks as [|k r IH]; intros cache size expected attempts Hc Hp; cbn [download_seq].
  - split; [constructor | exact Hc].
  - inversion Hp; subst.
    destruct (download_c_ok cache size expected attempts k Hc H1) as [Ho Hc'].
    destruct (download_c cache size expected attempts k) as [o cache'].
    destruct (IH cache' size expected attempts Hc' H2) as [Hos Hc''].
    destruct (download_seq cache' size expected attempts r) as [os cache''].
    cbn [fst snd] in *. split; [constructor; assumption | exact Hc''].
Qed.

(* delta download, xdelta3 as an arbitrary oracle, fallback to the full download: the same two halves of the property *)
Theorem delta_target_only_if_match : forall size expected partial leave attempts d script,
  outcome_ok expected (download_delta size expected partial leave attempts d script).
Proof.
  intros size expected partial leave attempts d script.
  assert (Hfull : forall p s, outcome_ok expected (download size expected (opt_bytes p) leave attempts s)).
  { intros p s. split; [apply target_only_if_match | apply (failure_leaves_no_target true)]. }
  assert (Hacc : forall f, beq f expected = true ->
            outcome_ok expected {| o_err := ENone; o_target := Some f; o_partial := None |}).
  { intros f Hf. apply beq_true_iff in Hf. subst. split; cbn; [reflexivity | intro H; contradiction]. }
  unfold download_delta.
  destruct (negb (d_format_ok d)); [apply Hfull|].
  destruct (dl_loop true (pred attempts) script (d_content d) [] 0 0) as [[[e f] p] rest].
  destruct e; try apply Hfull.
  destruct (negb (d_from_present d)); [apply Hfull|].
  destruct (d_x d) as [|out|]; [apply Hfull | |].
  - destruct (beq out expected) eqn:E; [now apply Hacc | apply Hfull].
  - destruct partial as [p0|]; [|apply Hfull].
    destruct (beq p0 expected) eqn:E; [now apply Hacc | apply Hfull].
Qed.
