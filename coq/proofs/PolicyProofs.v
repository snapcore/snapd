(* C21 - proofs about models/Policy.v. Both verdicts are `no deny alternative matches and an allow alternative does`
   (eval_conn_allow, eval_inst_allow), so deny monotonicity is: alts_ok of a deny list only grows. Plugs and slots are one
   statement each, with the side as a boolean; the precedence orders of connection (four levels) and installation (two)
   are lists of (side, declaration) searched by first_src. *)
From Coq Require Import List NArith Bool.
Import ListNotations.
Require Import V.lib.Bytes V.proofs.BytesFacts V.proofs.ListFacts V.models.Policy.
Open Scope N_scope.

Lemma alts_ok_nonempty : forall f l, l <> [] -> alts_ok f l = existsb f l.
Proof. intros f [|a l] H; [congruence | reflexivity]. Qed.

Lemma alts_ok_existsb : forall f l, existsb f l = true -> alts_ok f l = true.
Proof. intros f [|a l] H; [reflexivity | exact H]. Qed.

Lemma find_none_existsb : forall (f : alt -> bool) l, find f l = None <-> existsb f l = false.
Proof.
  intros f l; induction l as [|a l IH]; cbn; [tauto|].
  destruct (f a); cbn; [split; discriminate | exact IH].
Qed.

Lemma find_some_existsb : forall (f : alt -> bool) l a, find f l = Some a -> existsb f l = true.
Proof.
  intros f l a H. destruct (existsb f l) eqn:E; [reflexivity|].
  apply find_none_existsb in E. congruence.
Qed.

Lemma existsb_find_some : forall (f : alt -> bool) l, existsb f l = true -> exists a, find f l = Some a /\ f a = true /\ In a l.
Proof.
  intros f l H. destruct (find f l) eqn:E.
  - exists a. apply find_some in E. tauto.
  - apply find_none_existsb in E. congruence.
Qed.

(* holds for every pair of lists: an empty allow list panics, which is not an allow either *)
Lemma eval_conn_allow : forall f auto deny allow,
  is_allow (eval_conn f auto deny allow) = negb (alts_ok f deny) && existsb f allow.
Proof.
  intros f auto deny allow. unfold eval_conn. destruct (alts_ok f deny); [reflexivity|]. cbn [negb andb].
  destruct allow as [|a0 allow']; [reflexivity|].
  destruct (find f (a0 :: allow')) eqn:E; cbn [is_allow]; symmetry.
  - eapply find_some_existsb; eauto.
  - apply find_none_existsb; exact E.
Qed.

Lemma eval_inst_allow : forall f deny allow, eval_inst f deny allow = negb (alts_ok f deny) && alts_ok f allow.
Proof. intros f deny allow. unfold eval_inst. destruct (alts_ok f deny); reflexivity. Qed.

Lemma eval_conn_no_panic : forall f auto deny allow, allow <> [] -> eval_conn f auto deny allow <> VPanic.
Proof.
  intros f auto deny allow Ha. unfold eval_conn. destruct (alts_ok f deny); [discriminate|].
  destruct allow; [congruence|]. destruct (find f (a :: allow)); discriminate.
Qed.

Lemma eval_conn_not_invalid : forall f auto deny allow, eval_conn f auto deny allow <> VInvalid.
Proof.
  intros. unfold eval_conn. destruct (alts_ok f deny); [discriminate|].
  destruct allow; [discriminate|]. destruct (find f (a :: allow)); discriminate.
Qed.

Lemma eval_conn_allowed_inv : forall f auto deny allow any, eval_conn f auto deny allow = VAllow any ->
  deny <> [] /\ existsb f deny = false /\ exists a, In a allow /\ f a = true /\ find f allow = Some a /\ any = arity_any auto a.
Proof.
  intros f auto deny allow any H. unfold eval_conn in H.
  destruct (alts_ok f deny) eqn:Ed; [discriminate|].
  destruct deny as [|d0 deny']; [discriminate|]. cbn [alts_ok] in Ed.
  split; [discriminate|]. split; [exact Ed|].
  destruct allow as [|a0 allow']; [discriminate|].
  destruct (find f (a0 :: allow')) eqn:Ef; [|discriminate].
  injection H as <-. exists a. pose proof (find_some _ _ Ef) as [? ?]. tauto.
Qed.

Lemma deny_antitone : forall b b' x : bool, (b = true -> b' = true) -> negb b' && x = true -> negb b && x = true.
Proof. intros [|] b' x H; [rewrite H by reflexivity; discriminate | intro E; apply andb_prop in E as [_ ->]; reflexivity]. Qed.

(* not for an empty list: alts_ok f [] = true refuses everything, so adding an alternative can turn Refused into Allowed *)
Lemma alts_ok_insert : forall (f : alt -> bool) l1 d l2, l1 ++ l2 <> [] ->
  alts_ok f (l1 ++ l2) = true -> alts_ok f (l1 ++ d :: l2) = true.
Proof.
  intros f l1 d l2 Hne. rewrite (alts_ok_nonempty f _ Hne). intro H. apply alts_ok_existsb.
  rewrite existsb_app in *. cbn [existsb]. apply orb_prop in H as [-> | ->]; [reflexivity | rewrite !orb_true_r; reflexivity].
Qed.

Lemma deny_monotone_lists : forall f auto deny1 deny2 allow d, deny1 ++ deny2 <> [] ->
  is_allow (eval_conn f auto (deny1 ++ d :: deny2) allow) = true ->
  is_allow (eval_conn f auto (deny1 ++ deny2) allow) = true.
Proof. intros f auto deny1 deny2 allow d Hne. rewrite !eval_conn_allow. apply deny_antitone, alts_ok_insert, Hne. Qed.

Lemma inst_deny_monotone_lists : forall f deny1 deny2 allow d, deny1 ++ deny2 <> [] ->
  eval_inst f (deny1 ++ d :: deny2) allow = true -> eval_inst f (deny1 ++ deny2) allow = true.
Proof. intros f deny1 deny2 allow d Hne. rewrite !eval_inst_allow. apply deny_antitone, alts_ok_insert, Hne. Qed.

Definition nonempty6 (r : rule) : Prop :=
  r_allow_inst r <> [] /\ r_deny_inst r <> [] /\ r_allow_conn r <> [] /\ r_deny_conn r <> [] /\
  r_allow_auto r <> [] /\ r_deny_auto r <> [].

Lemma compile_sub_nonempty : forall allow inst s b, sub_valid allow inst s = true -> compile_sub b s <> [].
Proof.
  intros allow inst [[b'|a|l]|] b H; cbn; try discriminate.
  cbn in H. destruct l; [discriminate|discriminate].
Qed.

Lemma compile_nonempty : forall r, rule_valid r = true -> nonempty6 (compile_rule r).
Proof.
  intros [b|m] H; unfold nonempty6; cbn.
  - repeat split; discriminate.
  - cbn in H. repeat (apply andb_prop in H as [H ?]).
    repeat split; eapply compile_sub_nonempty; eauto.
Qed.

Definition level1 (ds : decls) (iface : bytes) : option rule :=
  match plug_decl ds with Some d => plug_rule d iface | None => None end.
Definition level2 (ds : decls) (iface : bytes) : option rule :=
  match slot_decl ds with Some d => slot_rule d iface | None => None end.
Definition level3 (ds : decls) (iface : bytes) : option rule := plug_rule (base_decl ds) iface.
Definition level4 (ds : decls) (iface : bytes) : option rule := slot_rule (base_decl ds) iface.

(* what the alternative checks read from the declarations: only the identities *)
Definition same_ids (ds ds' : decls) : Prop :=
  od_snap_id (plug_decl ds) = od_snap_id (plug_decl ds') /\ od_pub_id (plug_decl ds) = od_pub_id (plug_decl ds') /\
  od_snap_id (slot_decl ds) = od_snap_id (slot_decl ds') /\ od_pub_id (slot_decl ds) = od_pub_id (slot_decl ds').

Definition side_check (c : conn) (plugside : bool) : alt -> bool :=
  if plugside then check_plug_conn1 c else check_slot_conn1 c.

Lemma check_connect_eq : forall auto c, check_connect auto c =
  if negb (beq (f_iface (k_slot c)) (f_iface (k_plug c))) then VRefuse
  else match first_rule (k_decls c) (f_iface (k_plug c)) with
       | Some (s, r) => eval_conn (side_check c s) auto (rule_deny auto r) (rule_allow auto r)
       | None => VAllow (negb auto)
       end.
Proof.
  intros auto c. unfold check_connect.
  destruct (first_rule (k_decls c) (f_iface (k_plug c))) as [[[|] r]|]; reflexivity.
Qed.

(* an equality of functions: what is rewritten does not mention the alternative *)
Lemma side_check_ids : forall c ds' s, same_ids (k_decls c) ds' -> side_check (with_decls c ds') s = side_check c s.
Proof.
  intros c ds' s (H1 & H2 & H3 & H4).
  destruct s; unfold side_check, check_plug_conn1, check_plug_conn1_gen, check_slot_conn1, check_slot_conn1_gen, conn_ctx, with_decls;
    cbn [k_decls k_env k_plug k_slot]; rewrite <- ?H1, <- H2, <- ?H3, <- H4; reflexivity.
Qed.

(* the shortcut `false` stands for an alternative that matches nothing *)
Lemma side_check_short_false : forall c s, side_check c s (alt_short false) = false.
Proof. intros c [|]; reflexivity. Qed.

(* the verdict depends on the declarations only through the first present rule (and the identities):
   every rule at a later level, and every rule for another interface, is ignored *)
Lemma precedence : forall auto c ds',
  same_ids (k_decls c) ds' ->
  first_rule ds' (f_iface (k_plug c)) = first_rule (k_decls c) (f_iface (k_plug c)) ->
  check_connect auto (with_decls c ds') = check_connect auto c.
Proof.
Proof.
  intros auto c ds' Hids Hfr. rewrite !check_connect_eq. cbn [with_decls k_plug k_slot k_decls].
  rewrite Hfr. destruct (first_rule (k_decls c) (f_iface (k_plug c))) as [[s r]|]; [|reflexivity].
  rewrite (side_check_ids c ds' s Hids). reflexivity.
Qed.

Lemma assoc_in : forall (A : Type) k (l : list (bytes * A)) v, assoc k l = Some v -> exists k', In (k', v) l.
Proof.
  intros A k l v. induction l as [|[k' v'] l IH]; cbn; [discriminate|].
  destruct (beq k k').
  - intros [= ->]. exists k'. left. reflexivity.
  - intro H. destruct (IH H) as [k'' Hin]. exists k''. right. exact Hin.
Qed.

Lemma assoc_map_snd : forall (A B : Type) (g : A -> B) k (l : list (bytes * A)),
  assoc k (map (fun ir => (fst ir, g (snd ir))) l) = option_map g (assoc k l).
Proof.
  intros A B g k l. induction l as [|[k' v] l IH]; cbn; [reflexivity|].
  destruct (beq k k'); [reflexivity | exact IH].
Qed.

(* The rules as written, before compile_rule. Plugs and slots are treated alike throughout: `plug` says which side's
   rules are meant; a declaration that is absent has none. *)
Definition side_rules (plug : bool) (d : decl) : list (bytes * rule_src) := if plug then d_plugs d else d_slots d.
Definition rule_src_of (plug : bool) (od : option decl) (iface : bytes) : option rule_src :=
  match od with Some d => assoc iface (side_rules plug d) | None => None end.
Definition odecl_valid (od : option decl) : bool := match od with Some d => decl_valid d | None => true end.

Lemma rule_src_valid : forall plug od iface r, odecl_valid od = true -> rule_src_of plug od iface = Some r ->
  rule_valid r = true.
Proof.
  intros plug [d|] iface r H Ha; [|discriminate]. unfold odecl_valid, decl_valid in H. apply andb_prop in H as [Hp Hs].
  apply assoc_in in Ha as [k Hin]. destruct plug; [rewrite forallb_forall in Hp; exact (Hp _ Hin)|].
  rewrite forallb_forall in Hs. exact (Hs _ Hin).
Qed.

Lemma rule_src_add_deny : forall plug w dp ds od iface,
  rule_src_of plug (option_map (decl_add_deny w dp ds) od) iface =
  option_map (add_deny_rule w (if plug then dp else ds)) (rule_src_of plug od iface).
Proof. intros [|] w dp ds [d|] iface; try reflexivity; apply assoc_map_snd. Qed.

(* A precedence order is a list of levels (side, declaration): the first level whose declaration has a rule of that side
   for the interface decides. ConnectCandidate.check has four levels, InstallCandidate.checkPlug / checkSlot two. *)
Fixpoint first_src (lv : list (bool * option decl)) (iface : bytes) : option (bool * rule_src) :=
  match lv with
  | [] => None
  | (s, od) :: lv' => match rule_src_of s od iface with Some r => Some (s, r) | None => first_src lv' iface end
  end.
Definition conn_levels (ds : decls) : list (bool * option decl) :=
  [(true, plug_decl ds); (false, slot_decl ds); (true, Some (base_decl ds)); (false, Some (base_decl ds))].
Definition inst_levels (plug : bool) (i : inst) : list (bool * option decl) := [(plug, i_decl i); (plug, Some (i_base i))].
Definition levels_valid (lv : list (bool * option decl)) : Prop := Forall (fun l => odecl_valid (snd l) = true) lv.
Definition levels_add_deny (w : N) (xp xs : alt) (lv : list (bool * option decl)) : list (bool * option decl) :=
  map (fun l => (fst l, option_map (decl_add_deny w xp xs) (snd l))) lv.
Definition compile_src (sr : bool * rule_src) : bool * rule := (fst sr, compile_rule (snd sr)).

Lemma first_src_cons_compile : forall s od lv iface, option_map compile_src (first_src ((s, od) :: lv) iface) =
  match match od with Some d => (if s then plug_rule d else slot_rule d) iface | None => None end with
  | Some r => Some (s, r)
  | None => option_map compile_src (first_src lv iface)
  end.
Proof.
  intros [|] [d|] lv iface; cbn [first_src rule_src_of side_rules]; unfold plug_rule, slot_rule; try reflexivity;
    destruct (assoc iface _); reflexivity.
Qed.

Lemma first_rule_compile : forall ds iface,
  first_rule ds iface = option_map compile_src (first_src (conn_levels ds) iface).
Proof. intros ds iface. unfold conn_levels. rewrite !first_src_cons_compile. reflexivity. Qed.

Lemma first_src_nonempty : forall lv iface s r, levels_valid lv -> first_src lv iface = Some (s, r) ->
  nonempty6 (compile_rule r).
Proof.
  intros lv iface s r H. induction H as [|[s' od] lv Hv _ IH]; cbn [first_src]; [discriminate|].
  destruct (rule_src_of s' od iface) eqn:Er; [|exact IH].
  intros [= _ <-]. exact (compile_nonempty _ (rule_src_valid _ _ _ _ Hv Er)).
Qed.

Lemma first_src_add_deny : forall w xp xs lv iface, first_src (levels_add_deny w xp xs lv) iface =
  option_map (fun sr : bool * rule_src => (fst sr, add_deny_rule w (if fst sr then xp else xs) (snd sr))) (first_src lv iface).
Proof.
  intros w xp xs lv iface. induction lv as [|[s od] lv IH]; cbn [levels_add_deny map first_src fst snd]; [reflexivity|].
  rewrite rule_src_add_deny. fold (levels_add_deny w xp xs lv). rewrite IH. destruct (rule_src_of s od iface); reflexivity.
Qed.

Lemma conn_levels_valid : forall ds, decls_valid ds = true -> levels_valid (conn_levels ds).
Proof.
  intros ds H. unfold decls_valid in H. apply andb_prop in H as [H Hb]. apply andb_prop in H as [Hp Hs].
  repeat apply Forall_cons; try apply Forall_nil; assumption.
Qed.

(* add_deny_map's `which` as a choice of the deny / allow pair of a compiled rule *)
Definition kind_deny (w : N) (r : rule) : list alt :=
  match w with 0 => r_deny_inst r | 1 => r_deny_conn r | _ => r_deny_auto r end.
Definition kind_allow (w : N) (r : rule) : list alt :=
  match w with 0 => r_allow_inst r | 1 => r_allow_conn r | _ => r_allow_auto r end.
Definition kind_index (auto : bool) : N := if auto then 2 else 1.

Lemma rule_kind : forall auto r,
  rule_deny auto r = kind_deny (kind_index auto) r /\ rule_allow auto r = kind_allow (kind_index auto) r.
Proof. intros [|] r; split; reflexivity. Qed.

Lemma nonempty6_kind : forall w r, nonempty6 r -> kind_deny w r <> [] /\ kind_allow w r <> [].
Proof. intros [|[p|p|]] r (H1 & H2 & H3 & H4 & H5 & H6); cbn; tauto. Qed.

Lemma connect_spec : forall auto c, decls_valid (k_decls c) = true ->
  is_allow (check_connect auto c) = spec_connect_allowed auto c /\ check_connect auto c <> VPanic
  /\ check_connect auto c <> VInvalid.
Proof.
  intros auto c Hv. rewrite check_connect_eq. unfold spec_connect_allowed, spec_connect_allowed_gen.
  destruct (beq (f_iface (k_slot c)) (f_iface (k_plug c))); cbn [negb andb]; [|repeat split; discriminate].
  rewrite first_rule_compile.
  destruct (first_src (conn_levels (k_decls c)) (f_iface (k_plug c))) as [[s r]|] eqn:E; cbn [option_map compile_src fst snd];
    [|repeat split; discriminate].
  destruct (rule_kind auto (compile_rule r)) as [-> ->].
  destruct (nonempty6_kind (kind_index auto) _ (first_src_nonempty _ _ _ _ (conn_levels_valid _ Hv) E)) as [Gd Ga].
  split; [rewrite eval_conn_allow, (alts_ok_nonempty _ _ Gd); destruct s; reflexivity|].
  split; [apply eval_conn_no_panic; assumption | apply eval_conn_not_invalid].
Qed.

Lemma same_ids_add_deny : forall w xp xs ds, same_ids ds (decls_add_deny w xp xs ds).
Proof.
  intros w xp xs ds. unfold same_ids, decls_add_deny. cbn [plug_decl slot_decl].
  destruct (plug_decl ds), (slot_decl ds); cbn; repeat split; reflexivity.
Qed.

Lemma add_deny_sub_mono : forall (f : alt -> bool) d s, f (alt_short false) = false -> compile_sub false s <> [] ->
  alts_ok f (compile_sub false s) = true -> alts_ok f (compile_sub false (add_deny_sub d s)) = true.
Proof.
  intros f d [[[|]|a|l]|] Hf Hne; cbn [compile_sub add_deny_sub alts_ok existsb]; rewrite ?Hf; try tauto; try discriminate.
  - rewrite orb_false_r. intros ->. reflexivity.
  - rewrite <- (app_nil_r l) in Hne. rewrite <- (app_nil_r l) at 1. exact (alts_ok_insert f l d [] Hne).
Qed.

(* the step shared by connection and installation: under add_deny_rule the allow list stays and the deny list's alts_ok
   only grows; x is existsb f for a connection, alts_ok f for an installation *)
Lemma add_deny_mono : forall (f : alt -> bool) w d r (x : list alt -> bool),
  f (alt_short false) = false -> nonempty6 (compile_rule r) ->
  negb (alts_ok f (kind_deny w (compile_rule (add_deny_rule w d r)))) && x (kind_allow w (compile_rule (add_deny_rule w d r))) = true ->
  negb (alts_ok f (kind_deny w (compile_rule r))) && x (kind_allow w (compile_rule r)) = true.
Proof.
  intros f w d r x Hf.
  (* a shortcut stands for the map expand_short, before and after compilation *)
  assert (E : exists m, compile_rule r = compile_rule (RMap m) /\ add_deny_rule w d r = RMap (add_deny_map w d m))
    by (destruct r as [b|m]; [exists (expand_short b) | exists m]; split; reflexivity).
  destruct E as (m & -> & ->). intros (_ & H0 & _ & H1 & _ & H2).
  destruct w as [|[p|p|]]; cbn; apply deny_antitone, (add_deny_sub_mono f d _ Hf); assumption.
Qed.

(* C21, monotonicity at the level of declarations: add a deny alternative to the deny subrule of every rule of every
   declaration of a candidate whose declarations compile; an allowed connection was allowed before *)
Lemma deny_monotone : forall auto c xp xs, decls_valid (k_decls c) = true ->
  is_allow (check_connect auto (conn_deny_variant auto c xp xs)) = true -> is_allow (check_connect auto c) = true.
Proof.
Proof.
  intros auto c xp xs Hv H. unfold conn_deny_variant in H. fold (kind_index auto) in H.
  pose proof (same_ids_add_deny (kind_index auto) xp xs (k_decls c)) as Hids.
  rewrite check_connect_eq in *. cbn [with_decls k_plug k_slot k_decls] in H.
  destruct (negb (beq (f_iface (k_slot c)) (f_iface (k_plug c)))); [discriminate|].
  rewrite first_rule_compile in *.
  change (conn_levels (decls_add_deny ?w xp xs ?ds)) with (levels_add_deny w xp xs (conn_levels ds)) in H.
  rewrite first_src_add_deny in H.
  destruct (first_src (conn_levels (k_decls c)) (f_iface (k_plug c))) as [[s r]|] eqn:E;
    cbn [option_map compile_src fst snd] in *; [|reflexivity].
  rewrite (side_check_ids c _ s Hids) in H. revert H. rewrite !eval_conn_allow.
  destruct (rule_kind auto (compile_rule r)) as [-> ->].
  destruct (rule_kind auto (compile_rule (add_deny_rule (kind_index auto) (if s then xp else xs) r))) as [-> ->].
  exact (add_deny_mono _ _ _ r (existsb _) (side_check_short_false c s)
           (first_src_nonempty _ _ _ _ (conn_levels_valid _ Hv) E)).
Qed.

(* checkSlot and checkPlug read alike: one side of InstallCandidate.Check, for the plug or slot x *)
Definition inst_rule (plug : bool) (i : inst) (iface : bytes) : option rule :=
  if plug then inst_plug_rule i iface else inst_slot_rule i iface.
Definition check_inst1 (plug : bool) (i : inst) (x : side) : alt -> bool :=
  if plug then check_plug_inst1 i x else check_slot_inst1 i x.
Definition check_inst_side (plug : bool) (i : inst) (x : side) : bool :=
  if plug then check_inst_plug i x else check_inst_slot i x.

Lemma check_inst_side_eq : forall plug i x, check_inst_side plug i x =
  match inst_rule plug i (f_iface x) with
  | Some r => eval_inst (check_inst1 plug i x) (r_deny_inst r) (r_allow_inst r)
  | None => true
  end.
Proof. intros [|] i x; reflexivity. Qed.

Lemma check_install_eq : forall i,
  check_install i = forallb (check_inst_side false i) (i_slots i) && forallb (check_inst_side true i) (i_plugs i).
Proof. reflexivity. Qed.


Lemma inst_rule_compile : forall plug i iface,
  inst_rule plug i iface = option_map snd (option_map compile_src (first_src (inst_levels plug i) iface)).
Proof.
  intros plug i iface. unfold inst_levels. rewrite !first_src_cons_compile.
  destruct plug; unfold inst_rule, inst_plug_rule, inst_slot_rule;
    (destruct (match i_decl i with Some d => _ | None => None end); [reflexivity|]);
    [destruct (plug_rule (i_base i) iface) | destruct (slot_rule (i_base i) iface)]; reflexivity.
Qed.

Lemma inst_levels_valid : forall plug i, inst_valid i = true -> levels_valid (inst_levels plug i).
Proof.
  intros plug i H. unfold inst_valid in H. apply andb_prop in H as [Hd Hb].
  repeat apply Forall_cons; try apply Forall_nil; assumption.
Qed.

Lemma check_inst_side_spec : forall plug i x, inst_valid i = true -> check_inst_side plug i x =
  match inst_rule plug i (f_iface x) with
  | None => true
  | Some r => negb (existsb (check_inst1 plug i x) (r_deny_inst r)) && existsb (check_inst1 plug i x) (r_allow_inst r)
  end.
Proof.
  intros plug i x H. rewrite check_inst_side_eq, inst_rule_compile.
  destruct (first_src (inst_levels plug i) (f_iface x)) as [[s r]|] eqn:E; [cbn [option_map compile_src fst snd]|reflexivity].
  destruct (first_src_nonempty _ _ _ _ (inst_levels_valid plug i H) E) as (A & B & _).
  rewrite eval_inst_allow, !alts_ok_nonempty by assumption. reflexivity.
Qed.

(* precedence for installation: a snap-declaration rule shadows the base-declaration rule *)
Lemma install_precedence : forall i b',
  (forall iface, match i_decl i with Some d => slot_rule d iface | None => None end = None -> slot_rule b' iface = slot_rule (i_base i) iface) ->
  (forall iface, match i_decl i with Some d => plug_rule d iface | None => None end = None -> plug_rule b' iface = plug_rule (i_base i) iface) ->
  check_install (inst_with i (i_decl i) b') = check_install i.
Proof.
  intros i b' Hs Hp.
  assert (Side : forall plug x, check_inst_side plug (inst_with i (i_decl i) b') x = check_inst_side plug i x).
  { intros plug x. rewrite !check_inst_side_eq.
    assert (E : inst_rule plug (inst_with i (i_decl i) b') (f_iface x) = inst_rule plug i (f_iface x)); [|rewrite E; destruct plug; reflexivity].
    destruct plug; unfold inst_rule, inst_plug_rule, inst_slot_rule; cbn [inst_with i_decl i_base];
      [specialize (Hp (f_iface x))|specialize (Hs (f_iface x))];
      (destruct (match i_decl i with Some d => _ | None => None end); [reflexivity|auto]). }
  rewrite !check_install_eq. cbn [inst_with i_slots i_plugs].
  f_equal; apply forallb_ext_in; intros x _; apply Side.
Qed.

Lemma check_inst1_variant : forall plug i xp xs x,
  check_inst1 plug (inst_deny_variant i xp xs) x = check_inst1 plug i x.
Proof.
  intros plug i xp xs x.
  assert (E : od_snap_id (i_decl (inst_deny_variant i xp xs)) = od_snap_id (i_decl i))
    by (unfold inst_deny_variant, inst_with; cbn [i_decl]; destruct (i_decl i); reflexivity).
  destruct plug; unfold check_inst1, check_plug_inst1, check_plug_inst1_gen, check_slot_inst1, check_slot_inst1_gen;
    rewrite E; reflexivity.
Qed.

Lemma check_inst1_short_false : forall plug i x, check_inst1 plug i x (alt_short false) = false.
Proof. intros [|] i x; reflexivity. Qed.

(* C21, installation: with a deny alternative added to every deny-installation subrule, an allowed installation was
   allowed before *)
Lemma install_deny_monotone : forall i xp xs, inst_valid i = true ->
  check_install (inst_deny_variant i xp xs) = true -> check_install i = true.
Proof.
Proof.
  intros i xp xs Hv H.
  assert (Side : forall plug x, check_inst_side plug (inst_deny_variant i xp xs) x = true -> check_inst_side plug i x = true).
  { intros plug x. rewrite !check_inst_side_eq, !inst_rule_compile.
    change (inst_levels plug (inst_deny_variant i xp xs)) with (levels_add_deny 0 xp xs (inst_levels plug i)).
    rewrite first_src_add_deny.
    destruct (first_src (inst_levels plug i) (f_iface x)) as [[s r]|] eqn:Er; cbn [option_map compile_src fst snd]; [|reflexivity].
    rewrite check_inst1_variant, !eval_inst_allow.
    exact (add_deny_mono _ 0 _ r (alts_ok _) (check_inst1_short_false plug i x)
             (first_src_nonempty _ _ _ _ (inst_levels_valid plug i Hv) Er)). }
  rewrite check_install_eq in *. apply andb_prop in H as [Hs Hp]. apply andb_true_intro.
  split; [revert Hs|revert Hp]; apply forallb_impl; intro x; apply Side.
Qed.

Lemma first_rule_low : forall ds iface low, first_rule (decls_low ds iface low) iface = first_rule ds iface.
Proof.
  intros [pd sd b] iface low. unfold decls_low, deciding_level, has_key, first_rule, plug_rule, slot_rule.
  cbn [plug_decl slot_decl base_decl].
  (* level by level: the first level that has a rule is not edited, nor is any level before it, and first_rule looks at
     nothing after it *)
  destruct pd as [pd|]; [destruct (assoc iface (d_plugs pd)) eqn:E1; [cbn; rewrite E1; reflexivity|]|].
  all: (destruct sd as [sd|]; [destruct (assoc iface (d_slots sd)) eqn:E2; [cbn; rewrite ?E1, E2; reflexivity|]|]).
  all: (destruct (assoc iface (d_plugs b)) eqn:E3; [cbn; rewrite ?E1, ?E2, E3; reflexivity|]).
  all: (destruct (assoc iface (d_slots b)) eqn:E4; cbn; rewrite ?E1, ?E2, ?E3, ?E4; reflexivity).
Qed.

Lemma same_ids_low : forall ds iface low, same_ids ds (decls_low ds iface low).
Proof.
  intros ds iface low. unfold same_ids, decls_low.
  destruct (deciding_level ds iface =? 0); [repeat split; reflexivity|].
  cbn [plug_decl slot_decl]. destruct (deciding_level ds iface <? 2), (slot_decl ds); cbn; repeat split; reflexivity.
Qed.

Lemma alt_lit_match_iff : forall pattern x, alt_lit_match pattern x = true <-> In x (split_bar pattern).
Proof.
  intros pattern x. unfold alt_lit_match. rewrite existsb_exists. split.
  - intros (y & Hin & Hy). apply beq_eq in Hy. subst y. exact Hin.
  - intro Hin. exists x. split; [exact Hin | apply beq_refl].
Qed.

Lemma name_match_whole : forall iface name c entry, c <> 36 ->
  name_match iface name (c :: entry) = true <-> In name (split_bar (c :: entry)).
Proof.
  intros iface name c entry Hc. rewrite <- alt_lit_match_iff. unfold name_match.
  (* an entry that does not start with $ (36 = 100100b) takes the default branch *)
  destruct c as [|p]; [reflexivity|].
  do 6 (try (destruct p as [p|p|]; try reflexivity)). contradiction Hc. reflexivity.
Qed.

(* what an entry of a *-snap-id / *-publisher-id list stands for: a $NAME for its value, anything else for itself *)
Definition resolve (special : bytes -> bytes) (cand : bytes) : bytes :=
  match cand with 36 :: _ => special cand | _ => cand end.

Lemma check_id_eq : forall id ids special, check_id id ids special =
  match ids with
  | [] => true
  | _ => negb (is_nil_b id) && existsb (fun cand => negb (is_nil_b (resolve special cand)) && beq id (resolve special cand)) ids
  end.
Proof. reflexivity. Qed.

Lemma not_nil_b_iff : forall b : bytes, negb (is_nil_b b) = true <-> b <> [].
Proof. intros [|c b]; cbn; split; congruence. Qed.

Lemma check_id_alternation : forall id ids special, check_id id ids special = true <->
  ids = [] \/ (id <> [] /\ exists cand, In cand ids /\ resolve special cand <> [] /\ id = resolve special cand).
Proof.
  intros id ids special. rewrite check_id_eq. destruct ids as [|c0 r]; [split; [left; reflexivity | reflexivity]|].
  rewrite andb_true_iff, not_nil_b_iff, existsb_exists. split.
  - intros [Hid (cand & Hin & Hc)]. right. split; [exact Hid|]. exists cand.
    apply andb_prop in Hc as [Hne Heq]. apply not_nil_b_iff in Hne. apply beq_eq in Heq. auto.
  - intros [H|[Hid (cand & Hin & Hne & Heq)]]; [discriminate H|]. split; [exact Hid|].
    exists cand. split; [exact Hin|]. rewrite <- Heq, beq_refl, andb_true_r. apply not_nil_b_iff, Hid.
Qed.

Lemma check_id_incl : forall id ids ids' special, ids <> [] -> (forall c, In c ids -> In c ids') ->
  check_id id ids special = true -> check_id id ids' special = true.
Proof.
  intros id ids ids' special H1 Hp E. apply check_id_alternation in E as [->|[Hid (c & Hin & Hne & Heq)]]; [contradiction|].
  apply check_id_alternation. right. split; [exact Hid|]. exists c. auto.
Qed.

Lemma check_id_order_irrelevant : forall id ids ids' special,
  ids <> [] -> ids' <> [] -> (forall c, In c ids <-> In c ids') -> check_id id ids special = check_id id ids' special.
Proof.
  intros id ids ids' special H1 H2 Hp.
  destruct (check_id id ids special) eqn:E1, (check_id id ids' special) eqn:E2; try reflexivity.
  - pose proof (check_id_incl _ _ ids' _ H1 (fun c => proj1 (Hp c)) E1). congruence.
  - pose proof (check_id_incl _ _ ids _ H2 (fun c => proj2 (Hp c)) E2). congruence.
Qed.

Lemma check_id_unresolvable_skipped : forall id l1 c l2 special, resolve special c = [] -> l1 ++ l2 <> [] ->
  check_id id (l1 ++ c :: l2) special = check_id id (l1 ++ l2) special.
Proof.
  intros id l1 c l2 special Hc Hne. rewrite !check_id_eq.
  destruct (l1 ++ c :: l2) eqn:E; [destruct l1; discriminate|]. rewrite <- E. clear E.
  destruct (l1 ++ l2) eqn:E'; [contradiction|]. rewrite <- E'. clear E'.
  rewrite !existsb_app. cbn [existsb]. rewrite Hc. reflexivity.
Qed.
