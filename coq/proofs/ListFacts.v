(* Facts about the standard list functions (forallb, existsb, filter, NoDup, firstn, skipn) that the standard library
   of Coq 8.16 does not have and that several models' proofs need. *)
From Coq Require Import List Bool Arith.
Import ListNotations.

Section Lists.
Context {A B : Type}.

Lemma forallb_ext_in : forall (f g : A -> bool) l, (forall x, In x l -> f x = g x) -> forallb f l = forallb g l.
Proof.
  intros f g l H. induction l as [|a l IH]; cbn; [reflexivity|].
  rewrite (H a (or_introl eq_refl)), IH; [reflexivity|]. intros x Hx. apply H. right. exact Hx.
Qed.

Lemma existsb_ext_in : forall (f g : A -> bool) l, (forall x, In x l -> f x = g x) -> existsb f l = existsb g l.
Proof.
  intros f g l H. induction l as [|a l IH]; cbn; [reflexivity|].
  rewrite (H a (or_introl eq_refl)), IH; [reflexivity|]. intros x Hx. apply H. right. exact Hx.
Qed.

Lemma existsb_eqb_In : forall (eqb : A -> A -> bool), (forall a b, eqb a b = true <-> a = b) ->
  forall x l, existsb (eqb x) l = true <-> In x l.
Proof.
  intros eqb H x l. rewrite existsb_exists. split.
  - intros (y & Hy & E). apply H in E. subst. exact Hy.
  - intro Hx. exists x. split; [exact Hx | apply H; reflexivity].
Qed.

Lemma forallb_impl : forall (f g : A -> bool) l,
  (forall x, f x = true -> g x = true) -> forallb f l = true -> forallb g l = true.
Proof. intros f g l. rewrite !forallb_forall. auto. Qed.

Lemma forallb_and : forall (f g : A -> bool) l,
  forallb f l = true -> forallb g l = true -> forallb (fun x => f x && g x) l = true.
Proof. intros f g l. rewrite !forallb_forall. intros Hf Hg x Hx. rewrite (Hf x Hx), (Hg x Hx). reflexivity. Qed.

Lemma filter_all : forall (f : A -> bool) l, (forall x, In x l -> f x = true) -> filter f l = l.
Proof.
  intros f l H. induction l as [|a l IH]; cbn; [reflexivity|].
  rewrite (H a (or_introl eq_refl)), IH; [reflexivity|]. intros x Hx. apply H. right. exact Hx.
Qed.

Lemma firstn_app_exact : forall a b : list A, firstn (length a) (a ++ b) = a.
Proof. intros a b. rewrite firstn_app, Nat.sub_diag, firstn_all. cbn. apply app_nil_r. Qed.

Lemma skipn_app_exact : forall a b : list A, skipn (length a) (a ++ b) = b.
Proof. intros a b. rewrite skipn_app, Nat.sub_diag, skipn_all. reflexivity. Qed.

Lemma NoDup_snoc : forall (l : list A) a, NoDup l -> ~ In a l -> NoDup (l ++ [a]).
Proof. intros l a Hnd Hni. apply (NoDup_Add (Add_app a l [])). rewrite app_nil_r. split; assumption. Qed.

Lemma NoDup_map_inj : forall (f : A -> B) l a b, NoDup (map f l) -> In a l -> In b l -> f a = f b -> a = b.
Proof.
  induction l as [|c r IH]; intros a b Hnd Ha Hb E; [contradiction|].
  cbn in Hnd. inversion Hnd as [|? ? Hc Hr]; subst.
  destruct Ha as [<-|Ha], Hb as [<-|Hb]; [reflexivity | | | exact (IH a b Hr Ha Hb E)]; exfalso; apply Hc.
  - rewrite E. apply in_map, Hb.
  - rewrite <- E. apply in_map, Ha.
Qed.

Lemma NoDup_map_filter : forall (f : A -> B) (p : A -> bool) l, NoDup (map f l) -> NoDup (map f (filter p l)).
Proof.
  intros f p l. induction l as [|x l IH]; cbn; intro H; [constructor|].
  inversion H as [|? ? Hx Hl]; subst. destruct (p x); [|exact (IH Hl)].
  cbn. constructor; [|exact (IH Hl)].
  intro Hin. apply Hx. apply in_map_iff in Hin as (y & E & Hy). apply filter_In in Hy as [Hy _].
  rewrite <- E. apply in_map, Hy.
Qed.

End Lists.
