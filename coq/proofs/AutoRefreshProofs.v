(* C16, manager level — proofs about models/AutoRefresh.v, built around Inv (a pending nextRefresh was planned under the
   timer string the manager remembers): one Ensure keeps it and leaves only plans made under the current timer
   (ensure_spec); every state reached from init_m has it (reachable_inv). *)
From Coq Require Import List ZArith Bool Lia ZifyBool.
Import ListNotations.
Require Import V.lib.Bytes V.proofs.BytesFacts V.gen.RefreshConsts V.models.Timer V.models.TimerText V.models.AutoRefresh V.proofs.TimerProofs.
Open Scope Z_scope.

Definition sched_of_str (str : bytes) : list schedule :=
  match parse_schedule str with Some l => l | None => default_sched end.

Lemma effective_sched : forall conf sch str, effective conf = Some (sch, str) -> sch = sched_of_str str.
Proof.
  intros conf sch str H. unfold effective in H.
  destruct (beq conf managed_str); [discriminate|].
  assert (D : default_sched = sched_of_str default_str).
  { unfold sched_of_str, default_sched. destruct (parse_schedule default_str); reflexivity. }
  destruct (is_nil_b conf); [inversion H; subst; exact D|].
  destruct (parse_schedule conf) as [l|] eqn:E; inversion H; subst; [|exact D].
  unfold sched_of_str. rewrite E. reflexivity.
Qed.

(* a pending nextRefresh was computed by timeutil.Next under the timer string the manager remembers *)
Definition Inv (st : mstate) : Prop :=
  forall P, m_next st = Some P ->
  exists pl, m_plan st = Some pl /\ p_str pl = m_last_sched st /\
             plan_time (sched_of_str (p_str pl)) (p_last pl) (p_now pl) (p_rand pl) = Some P.

Lemma ensure_spec : forall conf now r st st' att,
  Inv st -> ensure conf now r st = Some (st', att) ->
  Inv st' /\
  (forall P, m_next st' = Some P ->
     exists sch str pl, effective conf = Some (sch, str) /\ m_plan st' = Some pl /\ p_str pl = str /\
                        plan_time sch (p_last pl) (p_now pl) (p_rand pl) = Some P) /\
  (att = true ->
     exists sch str l0 now0 r0 P, effective conf = Some (sch, str) /\
                                  plan_time sch l0 now0 r0 = Some P /\ P <= now /\ m_next st' = None /\ m_last st' = Some now).
Proof.
  intros conf now r st st' att I H. unfold ensure in H.
  destruct (effective conf) as [[sch str]|] eqn:E.
  2:{ injection H as <- <-. split; [intros P HP; discriminate|]. split; [intros P HP; discriminate | discriminate]. }
  pose proof (effective_sched conf sch str E) as ES. cbv zeta in H.
  match type of H with match ?np with _ => _ end = _ => destruct np as [[p pl']|] eqn:K end; [|discriminate].
  (* the (time, plan) pair Ensure goes on with is planned under str: kept from a state that remembers str, or fresh *)
  assert (G : exists pl, pl' = Some pl /\ p_str pl = str /\ plan_time sch (p_last pl) (p_now pl) (p_rand pl) = Some p).
  { assert (Fresh : match plan_time sch (m_last st) now r with
                    | Some p0 => Some (p0, Some (mkPlan str (m_last st) now r))
                    | None => None
                    end = Some (p, pl') -> exists pl, pl' = Some pl /\ p_str pl = str /\
                                                      plan_time sch (p_last pl) (p_now pl) (p_rand pl) = Some p).
    { destruct (plan_time sch (m_last st) now r) as [p0|] eqn:EP; [|discriminate].
      intros [= <- <-]. eexists. split; [reflexivity|]. split; [reflexivity | exact EP]. }
    destruct (m_next st) as [p0|] eqn:EN; [destruct (beq (m_last_sched st) str) eqn:EK|]; [|exact (Fresh K)..].
    injection K as <- <-. apply beq_eq in EK. destruct (I p0 EN) as (pl & A & B & C).
    exists pl. rewrite B, EK in *. subst sch. split; [exact A | split; [reflexivity | exact C]]. }
  destruct G as (pl & -> & HS & HP).
  destruct (p <=? now) eqn:Due;
    [destruct (match m_attempt st with Some a => now <? a + refresh_retry_delay_s | None => false end)|];
    injection H as <- <-.
  (* not due, or too soon after the last attempt: the pair stays planned *)
  1,3: split; [|split; [|discriminate]]; intros P [= <-]; cbn [m_plan m_last_sched];
       [exists pl; rewrite HS; subst sch | exists sch, str, pl]; auto.
  split; [intros P HPn; discriminate|]. split; [intros P HPn; discriminate|].
  intros _. exists sch, str, (p_last pl), (p_now pl), (p_rand pl), p. repeat split; auto. lia.
Qed.

Lemma hstep_inv : forall h e h', Inv (fst h) -> hstep h e = Some h' -> Inv (fst h').
Proof.
  intros [st conf] e h' I H. destruct e as [c | l | now r]; cbn in H.
  - inversion H; subst; exact I.
  - inversion H; subst. intros P HP. exact (I P HP).
  - destruct (ensure conf now r st) as [[st' a]|] eqn:E; [|discriminate]. inversion H; subst.
    apply (ensure_spec conf now r st st' a I E).
Qed.

Lemma hrun_inv : forall evs h h', Inv (fst h) -> hrun h evs = Some h' -> Inv (fst h').
Proof.
  induction evs as [|e evs IH]; intros h h' I H; cbn in H; [inversion H; subst; exact I|].
  destruct (hstep h e) as [h1|] eqn:E; [|discriminate]. eapply IH; [eapply hstep_inv; eassumption | exact H].
Qed.

Lemma reachable_inv : forall conf0 evs st conf, hrun (init_m, conf0) evs = Some (st, conf) -> Inv st.
Proof. intros conf0 evs st conf H. apply (hrun_inv evs (init_m, conf0) (st, conf)); [intros P HP; discriminate | exact H]. Qed.

(* what a planned time is: with a previous refresh at l, the window w chosen by timeutil.Next among the windows the
   schedules' Next offer and the fallback at l + maxPostponement; w starts no later than that limit; the time is now if w
   has already started, else w's start plus the random spread (only for spread windows) *)
Theorem planned_time_spec : forall (sch : list schedule) (l now r P : Z),
  plan_time sch (Some l) now r = Some P ->
  exists w, top_window sch l now max_postponement_s = Some w /\
    w_start w <= l + max_postponement_s /\
    (w = mkWin (l + max_postponement_s) (l + max_postponement_s + 3600) false \/
     exists s, In s sch /\ sched_next fuel_days s l now = Some w) /\
    (w_start w < now -> P = now) /\
    (now <= w_start w -> P = w_start w + (if w_spread w then r else 0)).
Proof.
  intros sch l now r P H. unfold plan_time in H.
  destruct (top_window sch l now max_postponement_s) as [w|] eqn:T; [|discriminate].
  exists w. split; [reflexivity|]. unfold top_window in T.
  destruct (existsb _ _); [discriminate|]. inversion T as [T'].
  set (nexts := flat_map (fun o : option window => match o with Some w0 => [w0] | None => [] end)
                         (map (fun s => sched_next fuel_days s l now) sch)) in *.
  destruct (limit_any_schedule nexts l max_postponement_s now) as (L1 & _ & L3 & _ & _ & _ & _).
  cbv zeta in L1, L3. rewrite T' in L1, L3. rewrite ?T'. split; [exact L1|]. split.
  - destruct L3 as [L3|L3]; [left; exact L3 | right].
    unfold nexts in L3. apply in_flat_map in L3 as (o & Ho & Hw). apply in_map_iff in Ho as (s & Hs & Hin).
    destruct o as [w0|]; [|contradiction]. destruct Hw as [->|[]]. exists s. split; [exact Hin | exact Hs].
  - inversion H as [HP]. unfold delay_base. split; intros C.
    + assert (E : (w_start w <? now) = true) by lia. rewrite E. lia.
    + assert (E : (w_start w <? now) = false) by lia. rewrite E. destruct (w_spread w); lia.
Qed.
