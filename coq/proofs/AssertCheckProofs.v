(* C18 - the assertion check (models/AssertCheck.v): the first layer holding the key id decides (find_key_spec,
   first_layer_decides), the validity window (valid_at_iff), check_iff, the characterisation of Database.Check from which
   props/C18.v reads off acceptance and the refusals, and the signature packet framing (accepted_value_genuine,
   framing_is_free). *)
From Coq Require Import List NArith ZArith Bool String.
Import ListNotations.
Require Import V.lib.Bytes V.proofs.BytesFacts V.models.AssertCheck.
Open Scope Z_scope.

Lemma find_key_spec : forall layers kid k, find_key layers kid = Some k ->
  k_id k = kid /\ exists before l after, layers = before ++ l :: after /\ In k l /\
    forall l', In l' before -> find (has_id kid) l' = None.
Proof.
  induction layers as [|l rest IH]; intros kid k H; cbn in H; [discriminate|].
  destruct (find (has_id kid) l) as [k'|] eqn:E.
  - injection H as <-. apply find_some in E as [Hin Hid]. split; [apply beq_eq, Hid|].
    exists [], l, rest. repeat split; [exact Hin | intros l' []].
  - destruct (IH _ _ H) as (Hid & before & l0 & after & -> & Hin & Hnone). split; [exact Hid|].
    exists (l :: before), l0, after. repeat split; [exact Hin|].
    intros l' [<-|Hl']; [exact E | apply Hnone, Hl'].
Qed.

Lemma first_layer_decides : forall before l after after' kid k,
  (forall l', In l' before -> find (has_id kid) l' = None) -> find (has_id kid) l = Some k ->
  find_key (before ++ l :: after) kid = Some k /\ find_key (before ++ l :: after') kid = Some k.
Proof.
  induction before as [|b before IH]; intros l after after' kid k Hnone Hl; cbn.
  - rewrite Hl. split; reflexivity.
  - rewrite (Hnone b (or_introl eq_refl)). apply IH; [|exact Hl]. intros l' Hl'. apply Hnone. right. exact Hl'.
Qed.

Lemma valid_at_iff : forall k t, valid_at k t = true <-> k_since k <= t /\ match k_until k with Some u => t < u | None => True end.
Proof.
  intros k t. unfold valid_at. rewrite andb_true_iff, Z.leb_le.
  destruct (k_until k); [rewrite Z.ltb_lt|]; intuition.
Qed.

(* the same, in the form the statements about the system clock use *)
Lemma valid_at_window : forall k t, valid_at k t = true <-> k_since k <= t /\ forall u, k_until k = Some u -> t < u.
Proof.
  intros k t. rewrite valid_at_iff. destruct (k_until k) as [u|]; split; intros [H1 H2]; split; try exact H1.
  - intros u' [= <-]. exact H2.
  - apply H2. reflexivity.
  - discriminate.
  - exact I.
Qed.

Lemma valid_assuming_now : forall k now, valid_assuming k now (Some now) = valid_at k now.
Proof.
  intros k now. unfold valid_assuming, valid_at. rewrite Z.ltb_irrefl, <- Z.leb_antisym. cbn [negb andb].
  destruct (k_until k) as [u|]; [rewrite <- Z.ltb_antisym|]; reflexivity.
Qed.

Lemma no_until_never_expires : forall k t, k_until k = None -> k_since k <= t -> valid_at k t = true.
Proof. intros k t Hu H. apply valid_at_iff. rewrite Hu. split; [exact H | exact I]. Qed.

Lemma assoc_in : forall k m v, assoc k m = Some v -> In (k, v) m.
Proof.
  intros k m v. induction m as [|[k' v'] m IH]; cbn; [discriminate|].
  destruct (beq k k') eqn:E.
  - intros [= ->]. apply beq_eq in E. subst k'. left. reflexivity.
  - intro H. right. exact (IH H).
Qed.

Lemma can_sign_spec : forall k a, can_sign k a = true ->
  k_constraints k = None \/
  exists cs c, k_constraints k = Some cs /\ In c cs /\ forall h v, In (h, v) c -> assoc h (a_headers a) = Some v.
Proof.
  intros k a H. unfold can_sign, compile_constraints in H. destruct (k_constraints k) as [cs|] eqn:E; [|left; reflexivity].
  right. apply existsb_exists in H as (c & Hin & Hc). exists cs, c. split; [reflexivity|]. split; [exact Hin|].
  intros h v Hhv. unfold constraint_ok in Hc. rewrite forallb_forall in Hc. specialize (Hc _ Hhv). cbn in Hc.
  destruct (assoc h (a_headers a)) as [x|]; [|discriminate]. apply beq_eq in Hc. subst x. reflexivity.
Qed.

Lemma constrained_key_needs_listed_type : forall k a cs, k_constraints k = Some cs -> can_sign k a = true ->
  exists c, In c cs /\ (forall h v, In (h, v) c -> assoc h (a_headers a) = Some v) /\
            (forall t, assoc (bs "type"%string) c = Some t -> assoc (bs "type"%string) (a_headers a) = Some t).
Proof.
  intros k a cs Hk H. destruct (can_sign_spec k a H) as [E|(cs' & c & E & Hin & Hall)]; [congruence|].
  rewrite Hk in E. injection E as <-. exists c. split; [exact Hin|]. split; [exact Hall|].
  intros t Ht. apply Hall, assoc_in, Ht.
Qed.

Section WithVerify.
  Variable verify : bytes -> bytes -> bytes -> bool.

  Lemma check_iff : forall layers e l a, check verify layers e l a = true <->
    a_supported a = true /\
    exists k, find_key layers (a_sign_key a) = Some k /\
      k_account k = a_authority a /\
      valid_assuming k e l = true /\
      can_sign k a = true /\
      verify (k_id k) (a_content a) (a_sig_core a) = true /\
      (forall t, a_timestamp a = Some t -> valid_at k t = true).
  Proof.
    intros layers e l a. unfold check. destruct (find_key layers (a_sign_key a)) as [k|].
    - rewrite !andb_true_iff, beq_true_iff. split.
      + intros (Hs & (((Hacc & Hv) & Hcs) & Hver) & Hts). split; [exact Hs|]. exists k. repeat split; try assumption.
        intros t Ht. rewrite Ht in Hts. exact Hts.
      + intros (Hs & k' & [= <-] & Hacc & Hv & Hcs & Hver & Hts). repeat split; try assumption.
        destruct (a_timestamp a) as [t|]; [apply Hts; reflexivity | reflexivity].
    - rewrite andb_false_r. split; [discriminate|]. intros (_ & k & Hk & _). discriminate.
  Qed.

  Lemma check_now_iff : forall layers now a, check_now verify layers now a = true <->
    a_supported a = true /\
    exists k, find_key layers (a_sign_key a) = Some k /\
      k_account k = a_authority a /\
      k_since k <= now /\ (forall u, k_until k = Some u -> now < u) /\
      can_sign k a = true /\
      verify (k_id k) (a_content a) (a_sig_core a) = true /\
      (forall t, a_timestamp a = Some t -> k_since k <= t /\ forall u, k_until k = Some u -> t < u).
  Proof.
    intros layers now a. unfold check_now. rewrite check_iff.
    split; intros (Hs & k & Ek & Hacc & H); (split; [exact Hs|]); exists k; (split; [exact Ek|]); (split; [exact Hacc|]).
    - destruct H as (Hv & Hcs & Hver & Hts). rewrite valid_assuming_now in Hv. apply valid_at_window in Hv as [Hv1 Hv2].
      do 4 (split; [assumption|]). intros t Ht. apply valid_at_window, Hts, Ht.
    - destruct H as (Hsince & Huntil & Hcs & Hver & Hts). rewrite valid_assuming_now.
      split; [apply valid_at_window; split; assumption|]. do 2 (split; [assumption|]).
      intros t Ht. apply valid_at_window, Hts, Ht.
  Qed.

End WithVerify.

Lemma ideal_verify_accepts_genuine : forall k c s, ideal_verify (k, c, s) k c s = true.
Proof. intros. unfold ideal_verify. rewrite !beq_refl. reflexivity. Qed.

(* The decoded signature as an OpenPGP v4 signature packet: sp_header = packet tag and length octets (form and declared
   length); sp_hashed = version, type, algorithms, hashed-subpacket length and area; sp_unhashed = the unhashed subpacket
   area; sp_hashtag = the two hash tag octets; sp_mpi_bits = the MPI bit-length field; sp_mpi = the MPI bytes. *)
Record sigpkt := mkSig { sp_header : bytes; sp_hashed : bytes; sp_unhashed : bytes; sp_hashtag : bytes;
                         sp_mpi_bits : bytes; sp_mpi : bytes }.

Definition len2 (b : bytes) : bytes := [N.of_nat (List.length b) / 256; N.of_nat (List.length b) mod 256]%N.
(* the decoded bytes, in packet order (format octet 1 first) *)
Definition sig_bytes (p : sigpkt) : bytes :=
  (1%N :: sp_header p) ++ sp_hashed p ++ len2 (sp_unhashed p) ++ sp_unhashed p ++ sp_hashtag p ++ sp_mpi_bits p ++ sp_mpi p.
(* the signature value: what verification reads *)
Definition sig_value (p : sigpkt) : bytes * bytes * bytes := (sp_hashed p, sp_hashtag p, sp_mpi p).
(* equal but for the four framing fields: packet header form (sig-packet-header-form) and declared length
   (sig-packet-length) are both in sp_header; the unhashed area (sig-unhashed-subpacket); the MPI bit length
   (sig-mpi-bitlength) *)
Definition same_value (p p0 : sigpkt) : Prop :=
  sp_hashed p = sp_hashed p0 /\ sp_hashtag p = sp_hashtag p0 /\ sp_mpi p = sp_mpi p0.

Section Framing.
  Variable verify : bytes -> bytes -> bytes -> bool.
  (* the core the driver computes is an injective encoding of the signature value *)
  Variable enc : bytes * bytes * bytes -> bytes.
  Hypothesis enc_inj : forall x y, enc x = enc y -> x = y.
  (* everything ever genuinely signed: key id, content, signature packet *)
  Variable G : list (bytes * bytes * sigpkt).
  (* verify is a function of (key, content, signature value) and only genuine triples verify *)
  Hypothesis ideal : forall kid c s, verify kid c s = true -> exists p0, In (kid, c, p0) G /\ s = enc (sig_value p0).

  (* whatever is accepted has the content and the signature value of something genuinely signed with the named key,
     for any packet p whose value the core encodes; nothing ties p to the other bytes of the decoded signature *)
  Lemma accepted_value_genuine : forall layers e l a p,
    a_sig_core a = enc (sig_value p) ->
    check verify layers e l a = true ->
    exists p0, In (a_sign_key a, a_content a, p0) G /\ same_value p p0.
  Proof.
    intros layers e l a p Hcore H. apply check_iff in H as (_ & k & Ek & _ & _ & _ & Hver & _).
    destruct (find_key_spec _ _ _ Ek) as [Hid _]. rewrite Hid in Hver.
    apply ideal in Hver as (p0 & Hin & Hs). exists p0. split; [exact Hin|].
    rewrite Hcore in Hs. apply enc_inj in Hs. unfold sig_value in Hs. injection Hs as H1 H2 H3.
    unfold same_value. tauto.
  Qed.

End Framing.

Lemma framing_is_free : forall verify (enc : bytes * bytes * bytes -> bytes) layers e l a a' p p',
  a_sig_core a = enc (sig_value p) -> a_sig_core a' = enc (sig_value p') -> same_value p p' ->
  a_supported a' = a_supported a -> a_authority a' = a_authority a -> a_sign_key a' = a_sign_key a ->
  a_timestamp a' = a_timestamp a -> a_headers a' = a_headers a -> a_content a' = a_content a ->
  check verify layers e l a' = check verify layers e l a.
Proof.
  intros verify enc layers e l a a' p p' Hc Hc' (H1 & H2 & H3) Hs Hau Hk Hts Hh Hco.
  assert (Hcore : a_sig_core a' = a_sig_core a).
  { rewrite Hc, Hc'. unfold sig_value. rewrite H1, H2, H3. reflexivity. }
  unfold check, can_sign. rewrite Hs, Hau, Hk, Hts, Hh, Hco, Hcore. reflexivity.
Qed.
