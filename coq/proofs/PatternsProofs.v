(* C37 — proofs about models/Patterns.v: the count of variants (mathematical and in Go ints), what the parser rejects, the
   match statement relative to a matcher and on a finite scope for the ported one, the escapes kept by rendering, and Compare
   as the lexicographic order of canonical keys, from which the order independence of HighestPrecedencePattern follows. *)
From Coq Require Import List NArith ZArith Bool Lia ZifyBool Permutation.
Import ListNotations.
Require Import V.lib.Bytes V.proofs.BytesFacts V.models.Patterns.
Open Scope N_scope.

Section NodeInd.
  Variable P : node -> Prop.
  Hypothesis HLit : forall s, P (Lit s).
  Hypothesis HSeq : forall l, Forall P l -> P (Seq l).
  Hypothesis HAlt : forall l, Forall P l -> P (Alt l).
  Fixpoint node_ind' (n : node) : P n :=
    match n with
    | Lit s => HLit s
    | Seq l => HSeq l ((fix go (l : list node) : Forall P l :=
                          match l with [] => Forall_nil P | x :: r => Forall_cons x (node_ind' x) (go r) end) l)
    | Alt l => HAlt l ((fix go (l : list node) : Forall P l :=
                          match l with [] => Forall_nil P | x :: r => Forall_cons x (node_ind' x) (go r) end) l)
    end.
End NodeInd.

Lemma length_flat_map_const : forall {A B} (f : A -> list B) (l : list A) (k : nat),
  (forall a, length (f a) = k) -> length (flat_map f l) = (length l * k)%nat.
Proof.
  intros A B f l k H. induction l as [|a r IH]; cbn [flat_map length]; [reflexivity|].
  rewrite app_length, H, IH. lia.
Qed.

Theorem count_is_length : forall t : node, N.of_nat (length (expand t)) = num_variants t.
Proof.
  induction t as [s | l IH | l IH] using node_ind'.
  - reflexivity.
  - cbn [expand num_variants]. induction IH as [|x r Hx _ IHr]; [reflexivity|].
    erewrite length_flat_map_const by (intro a; apply map_length).
    rewrite Nat2N.inj_mul. f_equal; [exact Hx | exact IHr].
  - cbn [expand num_variants]. induction IH as [|x r Hx _ IHr]; [reflexivity|].
    rewrite app_length, Nat2N.inj_add. f_equal; [exact Hx | exact IHr].
Qed.

Definition sat_of (r : Z) (n : N) : Prop := (0 <= r <= max_int)%Z /\ (r = max_int \/ r = Z.of_N n).

Lemma mul_div_le_max : forall a v, (0 < v)%Z -> (a <= max_int / v)%Z -> (a * v <= max_int)%Z.
Proof.
  intros a v Hv H. pose proof (Z.mul_div_le max_int v Hv) as M.
  assert (a * v <= (max_int / v) * v)%Z by (apply Z.mul_le_mono_nonneg_r; lia). lia.
Qed.

(* one round of the seq loop that does not saturate: the guard says the product does not exceed MaxInt, so if one factor
   is MaxInt the other is 0 or 1, and otherwise both factors are exact *)
Lemma seq_step_sat : forall acc tacc v tv, sat_of acc tacc -> sat_of v tv ->
  negb (v =? 0)%Z && (max_int / v <? acc)%Z = false -> sat_of (acc * v) (tacc * tv).
Proof.
  intros acc tacc v tv [[Ha0 Ha1] Ha] [[Hv0 Hv1] Hv] E.
  assert (Hprod : (acc * v <= max_int)%Z).
  { destruct (Z.eq_dec v 0) as [-> | Hz]; [unfold max_int; lia|].
    apply mul_div_le_max; [lia|]. apply andb_false_iff in E as [E|E]; [apply negb_false_iff in E; lia | lia]. }
  unfold sat_of, max_int in *. split; [nia|].
  destruct Ha as [-> | ->], Hv as [-> | ->]; nia.
Qed.

Lemma alt_step_sat : forall acc tacc v tv, sat_of acc tacc -> sat_of v tv ->
  (max_int - v <? acc)%Z = false -> sat_of (acc + v) (tacc + tv).
Proof.
  intros acc tacc v tv [[Ha0 Ha1] Ha] [[Hv0 Hv1] Hv] E. unfold sat_of, max_int in *. split; [lia|].
  destruct Ha as [-> | ->], Hv as [-> | ->]; lia.
Qed.

Lemma seq_loop_sat : forall (l : list node),
  Forall (fun x => sat_of (num_variants64 x) (num_variants x)) l ->
  forall acc tacc, sat_of acc tacc ->
  sat_of ((fix go (l : list node) (num : Z) : Z :=
             match l with
             | [] => num
             | x :: r => let v := num_variants64 x in
                         if negb (v =? 0)%Z && (max_int / v <? num)%Z then max_int else go r (num * v)%Z
             end) l acc)
         (tacc * (fix go (l : list node) : N := match l with [] => 1 | x :: r => num_variants x * go r end) l).
Proof.
  induction 1 as [|x r Hx _ IH]; intros acc tacc Hacc.
  - rewrite N.mul_1_r. exact Hacc.
  - cbv zeta.
    destruct (negb (num_variants64 x =? 0)%Z && (max_int / num_variants64 x <? acc)%Z) eqn:E.
    + unfold sat_of, max_int. split; [lia | left; reflexivity].
    + rewrite N.mul_assoc. apply IH, seq_step_sat; assumption.
Qed.

Lemma alt_loop_sat : forall (l : list node),
  Forall (fun x => sat_of (num_variants64 x) (num_variants x)) l ->
  forall acc tacc, sat_of acc tacc ->
  sat_of ((fix go (l : list node) (num : Z) : Z :=
             match l with
             | [] => num
             | x :: r => let v := num_variants64 x in
                         if (max_int - v <? num)%Z then max_int else go r (num + v)%Z
             end) l acc)
         (tacc + (fix go (l : list node) : N := match l with [] => 0 | x :: r => num_variants x + go r end) l).
Proof.
  induction 1 as [|x r Hx _ IH]; intros acc tacc Hacc.
  - rewrite N.add_0_r. exact Hacc.
  - cbv zeta.
    destruct (max_int - num_variants64 x <? acc)%Z eqn:E.
    + unfold sat_of, max_int. split; [lia | left; reflexivity].
    + rewrite N.add_assoc. apply IH, alt_step_sat; assumption.
Qed.

Theorem count64_saturates : forall t : node, sat_of (num_variants64 t) (num_variants t).
Proof.
  induction t as [s | l IH | l IH] using node_ind'.
  - unfold sat_of, max_int. cbn. split; [lia | right; reflexivity].
  - cbn [num_variants64 num_variants].
    pose proof (seq_loop_sat l IH 1%Z 1) as H. rewrite N.mul_1_l in H. apply H.
    unfold sat_of, max_int. split; [lia | right; reflexivity].
  - cbn [num_variants64 num_variants].
    pose proof (alt_loop_sat l IH 0%Z 0) as H. rewrite N.add_0_l in H. apply H.
    unfold sat_of, max_int. split; [lia | right; reflexivity].
Qed.

Lemma parse_pattern_count : forall p t, parse_pattern p = Some t -> (num_variants64 t <= 1000)%Z.
Proof.
  intros p t H. unfold parse_pattern in H.
  destruct (scan p) as [ts|]; [|discriminate].
  destruct (parse_go ts [] []) as [t'|]; [|discriminate].
  destruct (Z.of_N max_expanded <? num_variants64 t')%Z eqn:E; [discriminate|].
  inversion H; subst. unfold max_expanded in E. lia.
Qed.

Lemma count64_exact : forall t, (num_variants64 t < max_int)%Z -> num_variants64 t = Z.of_nat (length (expand t)).
Proof.
  intros t H. destruct (count64_saturates t) as [_ [E|E]]; [lia|].
  rewrite E, <- (count_is_length t). lia.
Qed.

Theorem accepted_within_limit : forall p t, parse_pattern p = Some t ->
  num_variants64 t = Z.of_nat (length (expand t)) /\ (length (expand t) <= 1000)%nat.
Proof.
  intros p t H. pose proof (parse_pattern_count _ _ H) as Hc.
  assert (E : num_variants64 t = Z.of_nat (length (expand t))) by (apply count64_exact; unfold max_int; lia).
  split; [exact E | lia].
Qed.

Lemma all_some_map : forall {A} (r : list A), all_some (map Some r) = Some r.
Proof. induction r as [|x r IH]; [reflexivity|]. cbn. rewrite IH. reflexivity. Qed.

Lemma all_some_inv : forall {A} (l : list (option A)) r, all_some l = Some r -> l = map Some r.
Proof.
  induction l as [|[x|] t IH]; intros r H; cbn in H; [inversion H; reflexivity| |discriminate].
  destruct (all_some t) as [r'|]; cbn in H; [|discriminate]. inversion H; subst. cbn. f_equal. apply IH. reflexivity.
Qed.

(* the 64-group pattern (2^64 expansions): its count saturates, so it is rejected (it was accepted with a reported count of 0
   before /repo commit 1160e46) *)
Fixpoint repeat_bytes (n : nat) (s : bytes) : bytes := match n with O => [] | S k => s ++ repeat_bytes k s end.
Definition overflow_pattern : bytes := cSLASH :: repeat_bytes 64 [cOPEN; 97; cCOMMA; 98; cCLOSE].

(* no unescaped [ or ] and no trailing backslash, written independently of the scanner *)
Fixpoint lexically_ok_fuel (f : nat) (s : bytes) : bool :=
  match f with
  | O => true
  | S f' => match s with
            | [] => true
            | c :: r => if c =? cBSL then match r with [] => false | _ :: r2 => lexically_ok_fuel f' r2 end
                        else if (c =? cLBR) || (c =? cRBR) then false
                        else lexically_ok_fuel f' r
            end
  end.
Definition lexically_ok (s : bytes) : bool := lexically_ok_fuel (S (length s)) s.

Lemma scan_go_ok : forall f s cur acc ts, (length s < f)%nat -> scan_go s cur acc = Some ts -> lexically_ok_fuel f s = true.
Proof.
  induction f as [|f IH]; intros s cur acc ts Hl H; [lia|].
  destruct s as [|c r]; [reflexivity|]. cbn [scan_go] in H. cbn [lexically_ok_fuel]. cbn [length] in Hl.
  destruct (c =? cBSL) eqn:Eb; [|destruct ((c =? cLBR) || (c =? cRBR)) eqn:Ek].
  - apply N.eqb_eq in Eb. subst c. cbn in H. destruct r as [|c2 r2]; [discriminate|].
    eapply IH; [|exact H]. cbn [length] in Hl. lia.
  - apply orb_true_iff in Ek as [Ek | Ek]; apply N.eqb_eq in Ek; subst c; discriminate.
  - destruct (c =? cOPEN), (c =? cCLOSE), (c =? cCOMMA); (eapply IH; [|exact H]; lia).
Qed.

(* brace balance of a token list, written independently of the parser: d = number of currently open groups *)
Fixpoint balanced (ts : list token) (d : nat) : bool :=
  match ts with
  | [] => Nat.eqb d 0
  | TOpen :: r => balanced r (S d)
  | TClose :: r => match d with O => false | S d' => balanced r d' end
  | _ :: r => balanced r d
  end.

Lemma parse_go_balanced : forall ts stack top t, parse_go ts stack top = Some t -> balanced ts (length stack) = true.
Proof.
  induction ts as [|tok r IH]; intros stack top t H.
  - cbn in H. destruct stack; [reflexivity | discriminate].
  - cbn [parse_go] in H. cbn [balanced]. destruct tok.
    + destruct stack as [|[alts cur] st]; apply IH in H; exact H.
    + destruct (max_expanded <=? N.of_nat (S (length stack))); [discriminate|]. apply IH in H. exact H.
    + destruct stack as [|[alts cur] st]; [discriminate|].
      destruct st as [|[alts' cur'] st']; apply IH in H; exact H.
    + destruct stack as [|[alts cur] st]; apply IH in H; exact H.
Qed.

(* the nesting limit with the bound as a variable: with the numeral in place every step of the proof carries it in unary.
   The bound on a brace-open comes from the parser's own guard, so nothing is asked of the stack the parser starts from. *)
Lemma parse_go_depth_below : forall k, max_expanded = N.of_nat k ->
  forall ts stack top t, parse_go ts stack top = Some t ->
  (fix depth_ok (ts : list token) (d : nat) : Prop :=
     match ts with
     | [] => True
     | TOpen :: r => (S d < k)%nat /\ depth_ok r (S d)
     | TClose :: r => depth_ok r (pred d)
     | _ :: r => depth_ok r d
     end) ts (length stack).
Proof.
  intros k Hk. induction ts as [|tok r IH]; intros stack top t H; [exact I|].
  cbn [parse_go] in H. destruct tok.
  - destruct stack as [|[alts cur] st]; apply IH in H; exact H.
  - rewrite Hk in H. destruct (N.of_nat k <=? N.of_nat (S (length stack))) eqn:E; [discriminate|].
    split; [lia|]. apply IH in H. exact H.
  - destruct stack as [|[alts cur] st]; [discriminate|].
    destruct st as [|[alts' cur'] st']; apply IH in H; exact H.
  - destruct stack as [|[alts cur] st]; apply IH in H; exact H.
Qed.

Lemma parse_go_depth : forall ts stack top t, parse_go ts stack top = Some t -> (length stack < 1000)%nat ->
  (fix depth_ok (ts : list token) (d : nat) : Prop :=
     match ts with
     | [] => True
     | TOpen :: r => (S d < 1000)%nat /\ depth_ok r (S d)
     | TClose :: r => depth_ok r (pred d)
     | _ :: r => depth_ok r d
     end) ts (length stack).
Proof. intros ts stack top t H _. exact (parse_go_depth_below 1000 eq_refl ts stack top t H). Qed.

Theorem accepted_is_wellformed : forall p t, parse_pattern p = Some t ->
  (exists r, p = cSLASH :: r) /\ lexically_ok p = true /\
  (exists ts, scan p = Some ts /\ balanced ts 0 = true) /\ (num_variants64 t <= 1000)%Z.
Proof.
  intros p t H. pose proof (parse_pattern_count _ _ H) as Hc. unfold parse_pattern in H.
  destruct (scan p) as [ts|] eqn:Es; [|discriminate].
  destruct (parse_go ts [] []) as [t'|] eqn:Ep; [|discriminate].
  unfold scan in Es. destruct p as [|c r]; [discriminate|].
  destruct (c =? cSLASH) eqn:Ec; [|discriminate].
  split; [exists r; f_equal; lia|]. split.
  - unfold lexically_ok. eapply scan_go_ok; [|exact Es]. lia.
  - split; [|exact Hc]. exists ts. split; [reflexivity|]. exact (parse_go_balanced _ _ _ _ Ep).
Qed.

Lemma normal_form_render : forall t, normal_form t = true -> render_all t = Some (expand t).
Proof.
  intros t H. unfold render_all, normal_form in *. rewrite forallb_forall in H.
  rewrite <- (all_some_map (expand t)). f_equal. apply map_ext_in. intros s Hs. specialize (H s Hs).
  destruct (normalise s) as [s'|]; [|discriminate]. apply beq_eq in H. subst. reflexivity.
Qed.

Section Matching.
  (* gm pattern path = PathPatternMatches(pattern, path): doublestar.Match plus the trailing-slash rule; third-party *)
  Variable gm : bytes -> bytes -> bool.

  Theorem match_iff_some_rendered_variant : forall p t rs path,
    render_all t = Some rs -> normal_form t = true ->
    gm p path = existsb (fun s => gm s path) (expand t) ->
    gm p path = existsb (fun v => gm v path) rs.
  Proof.
    intros p t rs path Hr Hn Hb. rewrite (normal_form_render _ Hn) in Hr. inversion Hr; subst. exact Hb.
  Qed.

  Definition p_dsstar : bytes := [cSLASH; cSTAR; cSTAR; cSLASH; cSTAR].
  Definition p_ds : bytes := [cSLASH; cSTAR; cSTAR].
  Theorem normalised_variant_refuted :
    gm p_dsstar [cSLASH] = false -> gm p_ds [cSLASH] = true ->
    exists p t rs path, parse_pattern p = Some t /\ render_all t = Some rs /\ normal_form t = false /\
                        expand t = [p] /\ gm p path <> existsb (fun v => gm v path) rs.
  Proof.
    intros H1 H2. exists p_dsstar. eexists. exists [p_ds], [cSLASH].
    split; [vm_compute; reflexivity|]. split; [vm_compute; reflexivity|]. split; [vm_compute; reflexivity|].
    split; [vm_compute; reflexivity|]. cbn [existsb]. rewrite H1, H2. discriminate.
  Qed.
End Matching.

Definition plainb (c : N) : bool :=
  negb ((c =? cBSL) || (c =? cLBR) || (c =? cRBR) || (c =? cOPEN) || (c =? cCLOSE)).

Lemma scan_ok_app : forall a e b, scan_ok e a = true -> scan_ok e (a ++ b) = scan_ok false b.
Proof.
  induction a as [|c r IH]; intros e b H; cbn [app scan_ok] in *.
  - destruct e; [discriminate | reflexivity].
  - destruct e; [apply IH; exact H|].
    destruct (c =? cBSL); [apply IH; exact H|].
    destruct ((c =? cLBR) || (c =? cRBR) || (c =? cOPEN) || (c =? cCLOSE)); [discriminate | apply IH; exact H].
Qed.

(* the literal text parsePatternVariant accumulates (most recent byte first) grows by a plain byte or by an escape pair *)
Lemma runes_plain : forall c r, plainb c = true -> scan_ok false (rev r) = true -> scan_ok false (rev (c :: r)) = true.
Proof.
  intros c r Hp H. cbn [rev]. rewrite (scan_ok_app _ _ _ H). cbn [scan_ok]. unfold plainb in Hp.
  destruct (c =? cBSL); [discriminate|]. cbn [orb] in Hp.
  destruct ((c =? cLBR) || (c =? cRBR) || (c =? cOPEN) || (c =? cCLOSE)); [discriminate | reflexivity].
Qed.

Lemma runes_pair : forall c2 r, scan_ok false (rev r) = true -> scan_ok false (rev (c2 :: cBSL :: r)) = true.
Proof. intros c2 r H. cbn [rev]. rewrite <- app_assoc, (scan_ok_app _ _ _ H). reflexivity. Qed.

Definition comp_ok (c : comp) : Prop := scan_ok false (comp_string c) = true.

Lemma comp_ok_nonlit : forall t x, (t =? tLIT) = false -> comp_ok (t, x).
Proof.
  intros t x H. unfold comp_ok, comp_string. cbn [fst snd].
  destruct (t =? tGLOB); [reflexivity|]. destruct ((t =? tSDT) || (t =? tSD)); [reflexivity|].
  destruct (t =? tSDST); [reflexivity|]. destruct (t =? tSEP); [reflexivity|]. destruct (t =? tANY); [reflexivity|].
  rewrite H. reflexivity.
Qed.

Lemma comp_ok_retype : forall t x k, (t =? k) = true -> (k =? tLIT) = false -> comp_ok (t, x).
Proof. intros t x k H1 H2. apply N.eqb_eq in H1. subst. apply comp_ok_nonlit. exact H2. Qed.

Lemma reduce_ok : forall st, Forall comp_ok st -> Forall comp_ok (reduce_prev_doublestar st).
Proof.
  intros st H. unfold reduce_prev_doublestar. destruct st as [|[u x] r]; [exact H|].
  destruct (u =? tSD); [|exact H]. inversion H; subst. repeat apply Forall_cons; try assumption; apply comp_ok_nonlit; reflexivity.
Qed.

Lemma consume_ok : forall runes st,
  scan_ok false (rev runes) = true -> Forall comp_ok st -> Forall comp_ok (consume_text runes st).
Proof.
  intros runes st Hr Hs. unfold consume_text. destruct runes as [|c r]; [exact Hs|].
  apply Forall_cons; [exact Hr | apply reduce_ok; exact Hs].
Qed.

Lemma add_globstar_ok : forall st, Forall comp_ok st -> Forall comp_ok (add_globstar st).
Proof.
  intros st H. unfold add_globstar. destruct (top_is st tGLOB || top_is st tSD); [exact H|].
  apply Forall_cons; [apply comp_ok_nonlit; reflexivity | exact H].
Qed.

(* [stack_ok s]: the goal is [Forall comp_ok st'], where st' is computed from the stack s by looking at its top entries (at
   most four) and testing their types, and a hypothesis [Forall comp_ok s] is in the context. Case on those entries and on the
   tests; the hypothesis then gives [comp_ok] of each entry of s, and each entry of st' is an entry of s or a constant of
   non-literal type. *)
Ltac stack_ok s :=
  unfold mk; cbv zeta; destruct s as [|[? ?] [|[? ?] [|[? ?] [|[? ?] ?]]]]; cbv beta iota;
  repeat (match goal with |- context [if ?b then _ else _] => destruct b end; cbv beta iota);
  repeat match goal with H : Forall comp_ok (_ :: _) |- _ => inversion H; subst; clear H end;
  repeat first [assumption | apply Forall_nil | apply Forall_cons | apply add_globstar_ok | apply comp_ok_nonlit; reflexivity].

Lemma list_ind_two : forall {A} (P : list A -> Prop),
  P [] -> (forall x l, P l -> P (tl l) -> P (x :: l)) -> forall l, P l.
Proof.
  intros A P H0 Hstep l. enough (P l /\ P (tl l)) by tauto.
  induction l as [|x l [IH1 IH2]]; auto.
Qed.

Lemma components_go_ok : forall s runes st res,
  scan_ok false (rev runes) = true -> Forall comp_ok st -> components_go s runes st = Some res -> Forall comp_ok res.
Proof.
  induction s as [|c r IH IH2] using list_ind_two; intros runes st res Hr Hs H; cbn [components_go] in H.
  - inversion H; subst. apply consume_ok; assumption.
  - pose proof (consume_ok _ _ Hr Hs) as H1. pose proof (consume_ok _ _ Hr (reduce_ok _ Hs)) as H2.
    destruct (c =? cSLASH); [eapply (IH []); [reflexivity | | exact H]; stack_ok (consume_text runes st)|].
    destruct (c =? cQM);
      [eapply (IH []); [reflexivity | | exact H]; stack_ok (consume_text runes (reduce_prev_doublestar st))|].
    destruct (c =? cDSTAR); [eapply (IH []); [reflexivity | | exact H]; stack_ok (consume_text runes st)|].
    destruct (c =? cSTAR); [eapply (IH []); [reflexivity | | exact H]; apply add_globstar_ok, H2|].
    destruct (c =? cBSL) eqn:Eb.
    { destruct r as [|c2 r2]; [discriminate|]. cbn [tl] in IH2.
      destruct (is_special c2) eqn:Es; (eapply IH2; [| exact Hs | exact H]).
      - apply N.eqb_eq in Eb. subst c. apply runes_pair, Hr.
      - apply runes_plain; [|exact Hr]. unfold is_special in Es. unfold plainb. lia. }
    destruct ((c =? cLBR) || (c =? cRBR) || (c =? cOPEN) || (c =? cCLOSE)) eqn:Ebr; [discriminate|].
    eapply IH; [| exact Hs | exact H].
    apply runes_plain; [|exact Hr]. unfold plainb. rewrite Eb. cbn [orb]. rewrite Ebr. reflexivity.
Qed.

Lemma finish_ok : forall st, Forall comp_ok st -> Forall comp_ok (finish st).
Proof. intros st H. unfold finish. stack_ok st. Qed.

Lemma flat_map_scan_ok : forall cs, Forall comp_ok cs -> scan_ok false (variant_string cs) = true.
Proof.
  induction 1 as [|c r Hc _ IH]; [reflexivity|].
  unfold variant_string in *. cbn [flat_map]. rewrite (scan_ok_app _ _ _ Hc). exact IH.
Qed.

Theorem variants_keep_escapes : forall s cs, components s = Some cs -> scan_ok false (variant_string cs) = true.
Proof.
  intros s cs H. unfold components in H.
  destruct (components_go (prepare (S (length s)) s) [] []) as [st|] eqn:E; [|discriminate].
  inversion H; subst. apply flat_map_scan_ok. apply Forall_rev. apply finish_ok.
  exact (components_go_ok _ [] _ _ eq_refl (Forall_nil _) E).
Qed.

Theorem rendered_keep_escapes : forall t rs, render_all t = Some rs -> Forall (fun v => scan_ok false v = true) rs.
Proof.
  intros t rs H. apply all_some_inv in H. apply Forall_forall. intros v Hv.
  assert (I : In (Some v) (map normalise (expand t))) by (rewrite H; apply in_map, Hv).
  apply in_map_iff in I as (s & E & _). unfold normalise in E. destruct (components s) as [cs|] eqn:C; [|discriminate].
  injection E as <-. exact (variants_keep_escapes s cs C).
Qed.

Section Lex.
  Context {A : Type} (cmp : A -> A -> comparison).
  Hypothesis cmp_antisym : forall x y, cmp y x = CompOpp (cmp x y).
  Hypothesis cmp_eq : forall x y, cmp x y = Eq -> x = y.
  Hypothesis cmp_trans : forall x y z, cmp x y = Lt -> cmp y z = Lt -> cmp x z = Lt.

  Fixpoint lex (k l : list A) : comparison :=
    match k, l with
    | [], [] => Eq
    | [], _ :: _ => Lt
    | _ :: _, [] => Gt
    | x :: k', y :: l' => match cmp x y with Eq => lex k' l' | c => c end
    end.

  Lemma lex_antisym : forall k l, lex l k = CompOpp (lex k l).
  Proof.
    induction k as [|x k IH]; intros [|y l]; cbn [lex]; try reflexivity.
    rewrite (cmp_antisym x y). destruct (cmp x y); cbn [CompOpp]; auto.
  Qed.

  Lemma lex_eq : forall k l, lex k l = Eq -> k = l.
  Proof.
    induction k as [|x k IH]; intros [|y l] H; cbn [lex] in H; try discriminate; [reflexivity|].
    destruct (cmp x y) eqn:E; try discriminate. apply cmp_eq in E. subst y. f_equal. apply IH, H.
  Qed.

  Lemma lex_trans : forall k l m, lex k l = Lt -> lex l m = Lt -> lex k m = Lt.
  Proof.
    induction k as [|x k IH]; intros [|y l] [|z m] H1 H2; cbn [lex] in *; try discriminate; try reflexivity.
    destruct (cmp x y) eqn:E1; try discriminate; destruct (cmp y z) eqn:E2; try discriminate.
    - apply cmp_eq in E1. subst y. rewrite E2. eapply IH; eassumption.
    - apply cmp_eq in E1. subst y. rewrite E2. reflexivity.
    - apply cmp_eq in E2. subst z. rewrite E1. reflexivity.
    - rewrite (cmp_trans _ _ _ E1 E2). reflexivity.
  Qed.
End Lex.

Lemma bytes_cmp_lex : bytes_cmp = lex N.compare.
Proof. reflexivity. Qed.

Lemma bytes_cmp_antisym : forall a b, bytes_cmp b a = CompOpp (bytes_cmp a b).
Proof. rewrite bytes_cmp_lex. apply lex_antisym, N.compare_antisym. Qed.

Lemma bytes_cmp_eq : forall a b, bytes_cmp a b = Eq -> a = b.
Proof. rewrite bytes_cmp_lex. apply lex_eq, N.compare_eq. Qed.

Lemma bytes_cmp_refl : forall a, bytes_cmp a a = Eq.
Proof. induction a as [|x a IH]; cbn; [reflexivity|]. rewrite N.compare_refl. exact IH. Qed.

Lemma bytes_cmp_trans : forall a b c, bytes_cmp a b = Lt -> bytes_cmp b c = Lt -> bytes_cmp a c = Lt.
Proof. rewrite bytes_cmp_lex. apply (lex_trans N.compare N.compare_eq N.lt_trans). Qed.

Definition is_varwidth (t : N) : bool := (t =? tGLOB) || (t =? tSD).
(* what Compare looks at in a component: its type; the LENGTH of the submatch for * and /**; the submatch text for a literal *)
Definition key (c : kcomp) : N * bytes :=
  (fst c, if is_varwidth (fst c) then [N.of_nat (length (snd c))] else if fst c =? tLIT then snd c else []).
(* the components Compare can reach: up to the first terminal-type component, the implicit terminal if there is none *)
Fixpoint canon (l : list kcomp) : list kcomp :=
  match l with
  | [] => [kterm]
  | c :: r => if is_terminal (fst c) then [c] else c :: canon r
  end.

(* the order on keys: by type; for * and /** the longer submatch first; for literals by text *)
Definition key_cmp (k l : N * bytes) : comparison :=
  match fst k ?= fst l with
  | Eq => if is_varwidth (fst k) then bytes_cmp (snd l) (snd k) else bytes_cmp (snd k) (snd l)
  | c => c
  end.

Lemma key_cmp_antisym : forall k l, key_cmp l k = CompOpp (key_cmp k l).
Proof.
  intros k l. unfold key_cmp. rewrite (N.compare_antisym (fst k) (fst l)).
  destruct (fst k ?= fst l) eqn:E; try reflexivity. apply N.compare_eq in E. rewrite E.
  destruct (is_varwidth (fst l)); apply bytes_cmp_antisym.
Qed.

Lemma key_cmp_eq : forall k l, key_cmp k l = Eq -> k = l.
Proof.
  intros [t s] [u r]. unfold key_cmp. cbn [fst snd]. destruct (t ?= u) eqn:E; try discriminate.
  apply N.compare_eq in E. subst u. destruct (is_varwidth t); intro H; apply bytes_cmp_eq in H; subst; reflexivity.
Qed.

Lemma key_cmp_trans : forall k l m, key_cmp k l = Lt -> key_cmp l m = Lt -> key_cmp k m = Lt.
Proof.
  intros [t s] [u r] [v w]. unfold key_cmp. cbn [fst snd].
  destruct (t ?= u) eqn:E1; try discriminate; destruct (u ?= v) eqn:E2; try discriminate; intros H1 H2.
  - apply N.compare_eq in E1, E2. subst u v. rewrite N.compare_refl.
    destruct (is_varwidth t); eapply bytes_cmp_trans; eassumption.
  - apply N.compare_eq in E1. subst u. rewrite E2. reflexivity.
  - apply N.compare_eq in E2. subst v. rewrite E1. reflexivity.
  - rewrite (N.lt_trans _ _ _ E1 E2). reflexivity.
Qed.

Lemma step_key : forall a b, step a b =
  match key_cmp (key a) (key b) with Eq => if is_terminal (fst a) then Some Eq else None | c => Some c end.
Proof.
  intros [t s] [u r]. unfold step, key_cmp, key, is_varwidth. cbn [fst snd].
  destruct (t ?= u) eqn:E; try reflexivity. apply N.compare_eq in E. subst u.
  destruct ((t =? tGLOB) || (t =? tSD)) eqn:Ev; [|destruct (is_terminal t) eqn:Et].
  - assert (is_terminal t = false) as -> by (unfold is_terminal, tGLOB, tSD, tSDT, tSDST, tTERM in *; lia).
    cbn [bytes_cmp]. rewrite (N.compare_antisym (N.of_nat (length s))).
    destruct (N.of_nat (length s) ?= N.of_nat (length r)); reflexivity.
  - assert (t =? tLIT = false) as -> by (unfold is_terminal, tLIT, tSDT, tSDST, tTERM in *; lia). reflexivity.
  - destruct (t =? tLIT); [destruct (bytes_cmp s r)|]; reflexivity.
Qed.

Definition hd' (l : list kcomp) : kcomp := match l with [] => kterm | x :: _ => x end.

Lemma compare_unfold : forall l1 l2,
  compare l1 l2 = match step (hd' l1) (hd' l2) with Some c => c | None => compare (tl l1) (tl l2) end.
Proof. intros [|a r1] [|b r2]; reflexivity. Qed.

Lemma canon_unfold : forall l, canon l = if is_terminal (fst (hd' l)) then [hd' l] else hd' l :: canon (tl l).
Proof. intros [|c r]; reflexivity. Qed.

Theorem compare_lex : forall a b, compare a b = lex key_cmp (map key (canon a)) (map key (canon b)).
Proof.
  intros a b. remember (length a + length b)%nat as n eqn:Hn. revert a b Hn.
  induction n as [n IH] using lt_wf_ind. intros a b Hn.
  rewrite compare_unfold, step_key, (canon_unfold a), (canon_unfold b).
  destruct (key_cmp (key (hd' a)) (key (hd' b))) eqn:E.
  2, 3: destruct (is_terminal (fst (hd' a))), (is_terminal (fst (hd' b))); cbn [map lex]; rewrite E; reflexivity.
  (* equal keys, so equal types: both components are terminals and the comparison ends, or neither is and it goes on *)
  pose proof (f_equal fst (key_cmp_eq _ _ E)) as F. cbn [key fst] in F. rewrite <- F.
  destruct (is_terminal (fst (hd' a))) eqn:T; cbn [map lex]; rewrite E; [reflexivity|].
  destruct a as [|x a]; [discriminate|]. destruct b as [|y b]; [cbn [hd'] in F, T; rewrite F in T; discriminate|].
  apply (IH (length a + length b)%nat); [cbn in Hn; lia | reflexivity].
Qed.

Theorem compare_antisym : forall l1 l2, compare l2 l1 = CompOpp (compare l1 l2).
Proof. intros l1 l2. rewrite !compare_lex. apply lex_antisym, key_cmp_antisym. Qed.

Theorem compare_trans_lt : forall a b c, compare a b = Lt -> compare b c = Lt -> compare a c = Lt.
Proof. intros a b c. rewrite !compare_lex. apply (lex_trans key_cmp key_cmp_eq key_cmp_trans). Qed.

Theorem compare_eq_same_keys : forall a b, compare a b = Eq -> map key (canon a) = map key (canon b).
Proof. intros a b. rewrite compare_lex. apply (lex_eq key_cmp key_cmp_eq). Qed.

Lemma compare_refl : forall a, compare a a = Eq.
Proof.
  intro a. pose proof (compare_antisym a a) as H. destruct (compare a a); cbn in H; congruence.
Qed.

Corollary compare_total_on_distinct : forall a b, map key (canon a) <> map key (canon b) ->
  (compare a b = Lt /\ compare b a = Gt) \/ (compare a b = Gt /\ compare b a = Lt).
Proof.
  intros a b H. pose proof (compare_antisym a b) as A. destruct (compare a b) eqn:E.
  - exfalso. apply H. apply compare_eq_same_keys. exact E.
  - left. split; [reflexivity | rewrite A; reflexivity].
  - right. split; [reflexivity | rewrite A; reflexivity].
Qed.

Section Highest.
  Variable A : Type.
  Variable cmp : A -> A -> comparison.
  Variable dom : A -> Prop.
  Hypothesis cmp_antisym : forall x y, cmp y x = CompOpp (cmp x y).
  Hypothesis cmp_trans : forall x y z, cmp x y = Lt -> cmp y z = Lt -> cmp x z = Lt.
  (* Compare returns 0 only between equal variants *)
  Hypothesis cmp_eq : forall x y, dom x -> dom y -> cmp x y = Eq -> x = y.

  Definition pick (cur c : A) : A := match cmp cur c with Lt => c | _ => cur end.

  Lemma cmp_refl_not_lt : forall x, cmp x x <> Lt.
  Proof. intros x H. pose proof (cmp_antisym x x) as E. rewrite H in E. cbn in E. discriminate. Qed.

  Lemma ge_trans : forall m p z, dom p -> dom z -> cmp m p <> Lt -> cmp p z <> Lt -> cmp m z <> Lt.
  Proof.
    intros m p z Dp Dz H1 H2 H3.
    destruct (cmp p z) eqn:E; [| congruence |].
    - apply (cmp_eq _ _ Dp Dz) in E. subst z. congruence.
    - assert (Hz : cmp z p = Lt) by (rewrite cmp_antisym, E; reflexivity).
      pose proof (cmp_trans _ _ _ H3 Hz). congruence.
  Qed.

  Lemma fold_pick_max : forall r x, dom x -> Forall dom r ->
    let m := fold_left pick r x in
    In m (x :: r) /\ (forall y, In y (x :: r) -> cmp m y <> Lt).
  Proof.
    induction r as [|c r IH]; intros x Dx Dr; cbn [fold_left].
    - split; [left; reflexivity|]. intros y [Hy|[]]. subst y. apply cmp_refl_not_lt.
    - inversion Dr as [|c' r' Dc Dr']; subst.
      assert (Dp : dom (pick x c)) by (unfold pick; destruct (cmp x c); assumption).
      destruct (IH (pick x c) Dp Dr') as [Hin Hall]. set (m := fold_left pick r (pick x c)) in *.
      assert (Hpx : cmp (pick x c) x <> Lt /\ cmp (pick x c) c <> Lt).
      { unfold pick. destruct (cmp x c) eqn:E.
        - split; [apply cmp_refl_not_lt | congruence].
        - split; [rewrite (cmp_antisym x c), E; discriminate | apply cmp_refl_not_lt].
        - split; [apply cmp_refl_not_lt | congruence]. }
      assert (Hmp : cmp m (pick x c) <> Lt) by (apply Hall; left; reflexivity).
      split.
      + destruct Hin as [Hin|Hin]; [|right; right; exact Hin].
        unfold pick in Hin. destruct (cmp x c); [left | right; left | left]; congruence.
      + intros y [Hy|[Hy|Hy]].
        * subst y. apply (ge_trans m (pick x c) x Dp Dx Hmp). tauto.
        * subst y. apply (ge_trans m (pick x c) c Dp Dc Hmp). tauto.
        * apply Hall. right. exact Hy.
  Qed.

  Theorem highest_order_independent : forall l l', Permutation l l' -> Forall dom l -> highest cmp l = highest cmp l'.
  Proof.
    intros l l' HP HD.
    destruct l as [|x r].
    - apply Permutation_nil in HP. subst. reflexivity.
    - destruct l' as [|x' r']; [apply Permutation_sym, Permutation_nil in HP; discriminate|].
      unfold highest. f_equal.
      assert (HD' : Forall dom (x' :: r')) by (eapply Permutation_Forall; eauto).
      inversion HD as [|a b Dx Dr]; subst. inversion HD' as [|a b Dx' Dr']; subst.
      destruct (fold_pick_max r x Dx Dr) as [Hin Hmax].
      destruct (fold_pick_max r' x' Dx' Dr') as [Hin' Hmax'].
      fold pick. set (m := fold_left pick r x) in *. set (m' := fold_left pick r' x') in *.
      assert (Hm'l : In m' (x :: r)) by (eapply Permutation_in; [apply Permutation_sym; exact HP | exact Hin']).
      assert (Hml' : In m (x' :: r')) by (eapply Permutation_in; [exact HP | exact Hin]).
      (* each of the two results is maximal in a list that contains the other, so neither is below the other *)
      pose proof (Hmax _ Hm'l) as H1. pose proof (Hmax' _ Hml') as H2.
      assert (Dm : dom m) by (rewrite Forall_forall in HD; apply HD; exact Hin).
      assert (Dm' : dom m') by (rewrite Forall_forall in HD; apply HD; exact Hm'l).
      destruct (cmp m m') eqn:E; [apply (cmp_eq _ _ Dm Dm' E) | congruence |].
      rewrite (cmp_antisym m m'), E in H2. cbn in H2. congruence.
  Qed.

  Theorem highest_is_maximum : forall l m, Forall dom l -> highest cmp l = Some m ->
    In m l /\ (forall y, In y l -> cmp m y <> Lt).
  Proof.
    intros l m HD H. destruct l as [|x r]; [discriminate|]. unfold highest in H. inversion H; subst; clear H.
    inversion HD as [|a b Dx Dr]; subst. exact (fold_pick_max r x Dx Dr).
  Qed.
End Highest.

(* variants as (variant string, keyed components), for any decomposition into submatches *)
Definition vcmp (a b : bytes * list kcomp) : comparison := compare (snd a) (snd b).

Theorem highest_precedence_order_independent : forall (l l' : list (bytes * list kcomp)),
  Permutation l l' ->
  (forall x y, In x l -> In y l -> vcmp x y = Eq -> x = y) ->
  highest vcmp l = highest vcmp l'.
Proof.
  intros l l' HP Heq.
  apply (highest_order_independent _ vcmp (fun x => In x l)); auto.
  - intros x y. apply compare_antisym.
  - intros x y z. apply compare_trans_lt.
  - apply Forall_forall. auto.
Qed.

Theorem highest_precedence_is_maximum : forall (l : list (bytes * list kcomp)) m,
  (forall x y, In x l -> In y l -> vcmp x y = Eq -> x = y) ->
  highest vcmp l = Some m -> In m l /\ (forall y, In y l -> vcmp m y <> Lt).
Proof.
  intros l m Heq H.
  apply (highest_is_maximum _ vcmp (fun x => In x l)); auto.
  - intros x y. apply compare_antisym.
  - intros x y z. apply compare_trans_lt.
  - apply Forall_forall. auto.
Qed.

(* executable per (pattern, path): the matcher treats the groups of this pattern as "some syntactic expansion matches" *)
Definition group_transparent (p : bytes) (t : node) (path : bytes) : bool :=
  Bool.eqb (path_pattern_matches p path) (existsb (fun s => path_pattern_matches s path) (expand t)).

Theorem ported_match_iff_some_rendered_variant : forall p t rs path,
  render_all t = Some rs -> normal_form t = true -> group_transparent p t path = true ->
  path_pattern_matches p path = existsb (fun v => path_pattern_matches v path) rs.
Proof.
  intros p t rs path Hr Hn Hg. apply (match_iff_some_rendered_variant path_pattern_matches p t rs path Hr Hn).
  unfold group_transparent in Hg. apply eqb_prop in Hg. exact Hg.
Qed.

(* Marked expansion: the syntactic expansion of the pattern text in which byte 1 marks the place where an alternative of a
   group was spliced in and byte 2 where it ends (the markers add no text). *)
Definition mOPEN : N := 1.
Definition mCLOSE : N := 2.
Fixpoint mark_tokens (ts : list token) (depth : nat) : list token :=
  match ts with
  | [] => []
  | TOpen :: r => TOpen :: TText [mOPEN] :: mark_tokens r (S depth)
  | TClose :: r => TText [mCLOSE] :: TClose :: mark_tokens r (pred depth)
  | TComma :: r => match depth with
                   | O => TComma :: mark_tokens r depth
                   | _ => TText [mCLOSE] :: TComma :: TText [mOPEN] :: mark_tokens r depth
                   end
  | tk :: r => tk :: mark_tokens r depth
  end.
Definition marked_expansions (p : bytes) : list bytes :=
  match scan p with
  | Some ts => match parse_go (mark_tokens ts 0) [] [] with Some t => expand t | None => [] end
  | None => []
  end.

Definition is_marker (c : N) : bool := (c =? mOPEN) || (c =? mCLOSE).
Fixpoint starts_dstar (s : bytes) (need : nat) : bool :=
  match need with
  | O => true
  | S k => match s with
           | [] => false
           | c :: r => if is_marker c then starts_dstar r need else (c =? cSTAR) && starts_dstar r k
           end
  end.
(* scan a marked expansion; l1 l2 l3 = the last three bytes of real text (l1 most recent; escaped bytes count as 120),
   looking at every place where a group alternative starts *)
Fixpoint carve_scan (s : bytes) (l1 l2 l3 : N) : bool :=
  match s with
  | [] => false
  | c :: r =>
      if c =? mOPEN then
        (l1 =? cSTAR)
        || ((l1 =? cSLASH) && (l2 =? cSTAR) && (l3 =? cSTAR))
        || ((l1 =? cSLASH) && starts_dstar r 2)
        || carve_scan r l1 l2 l3
      else if c =? mCLOSE then carve_scan r l1 l2 l3
      else if c =? cBSL then match r with
                             | [] => false
                             | _ :: r2 => carve_scan r2 120 l1 l2
                             end
      else carve_scan r c l1 l2
  end.
(* the four recorded classes: rendering rewrites an expansion, or a star / doublestar-slash / slash-before-doublestar stands
   where an alternative is spliced in *)
Definition carved (p : bytes) (t : node) : bool :=
  negb (normal_form t) || existsb (fun m => carve_scan m 0 0 0) (marked_expansions p).

(* the scope: slash followed by at most k tokens over a b / * ? { , } ** ; all clean paths of length at most k+1 over a b / *)
Definition scope_tokens : list bytes :=
  [[97]; [98]; [cSLASH]; [cSTAR]; [cQM]; [cOPEN]; [cCOMMA]; [cCLOSE]; [cSTAR; cSTAR]].
Fixpoint token_strings (k : nat) : list bytes :=
  match k with
  | O => [[]]
  | S k' => [] :: flat_map (fun tk => map (app tk) (token_strings k')) scope_tokens
  end.
Definition scope_patterns (k : nat) : list bytes := map (cons cSLASH) (token_strings k).
Fixpoint has_dslash (s : bytes) : bool :=
  match s with
  | a :: r => match r with b :: _ => ((a =? cSLASH) && (b =? cSLASH)) || has_dslash r | [] => false end
  | [] => false
  end.
Fixpoint abs_strings (k : nat) : list bytes :=
  match k with
  | O => [[]]
  | S k' => [] :: flat_map (fun c => map (cons c) (abs_strings k')) [97; 98; cSLASH]
  end.
Definition scope_paths (k : nat) : list bytes :=
  filter (fun s => negb (has_dslash s)) (map (cons cSLASH) (abs_strings k)).

Lemma group_transparent_self : forall p t path, expand t = [p] -> group_transparent p t path = true.
Proof.
  intros p t path E. unfold group_transparent. rewrite E. cbn [existsb]. rewrite orb_false_r. apply eqb_reflx.
Qed.

Lemma bl_eqb_eq : forall a b, bl_eqb a b = true -> a = b.
Proof.
  induction a as [|x a IH]; intros [|y b] H; cbn [bl_eqb] in H; try discriminate; [reflexivity|].
  apply andb_true_iff in H as [H1 H2]. apply beq_eq in H1. apply IH in H2. congruence.
Qed.

(* A pattern whose only expansion is its own text is transparent for a trivial reason ([group_transparent_self]); in
   [scope_patterns 3] that leaves the 15 patterns with a group that are not carved for the matcher to be run on. [if], not
   [||]: vm_compute evaluates both arguments of [orb]. *)
Definition transparent_or_carved (paths : list bytes) (p : bytes) : bool :=
  match parse_pattern p with
  | None => true
  | Some t => if carved p t then true else if bl_eqb (expand t) [p] then true else forallb (group_transparent p t) paths
  end.

Lemma scope_check : forallb (transparent_or_carved (scope_paths 3)) (scope_patterns 3) = true.
Proof. vm_compute. reflexivity. Qed.

Theorem match_iff_some_variant_on_scope : forall p path t rs,
  In p (scope_patterns 3) -> In path (scope_paths 3) ->
  parse_pattern p = Some t -> render_all t = Some rs -> carved p t = false ->
  path_pattern_matches p path = existsb (fun v => path_pattern_matches v path) rs.
Proof.
  intros p path t rs Hp Hpath Ht Hr Hc.
  pose proof scope_check as S. rewrite forallb_forall in S. specialize (S _ Hp).
  unfold transparent_or_carved in S. rewrite Ht, Hc in S.
  apply orb_false_iff in Hc as [Hn _]. apply negb_false_iff in Hn.
  apply (ported_match_iff_some_rendered_variant p t rs path Hr Hn).
  destruct (bl_eqb (expand t) [p]) eqn:E.
  - apply group_transparent_self, bl_eqb_eq, E.
  - rewrite forallb_forall in S. apply S, Hpath.
Qed.

