(* C07 — proofs about models/Blocked.v. The four predicates together compute `existsb (conflict t)`; an Ensure pass keeps
   `excl (handlers tb)` because `running` contains the handlers. ensure_loop_inv, ensure_pass_inv and run_inv are the
   invariant rules for the loop of Ensure, for a whole pass and for histories. *)
From Coq Require Import List NArith Bool Btauto String Sorting.Permutation.
Import ListNotations.
Require Import V.lib.Bytes V.proofs.BytesFacts V.proofs.ListFacts V.models.Blocked.

Open Scope N_scope.

Local Arguments is_hook : simpl never.
Local Arguments is_iface : simpl never.
Local Arguments is_prereq : simpl never.
Local Arguments is_gadget : simpl never.
Local Arguments conflict : simpl never.

Lemma existsb_false_iff : forall {A} (p : A -> bool) l, existsb p l = false <-> forall x, In x l -> p x = false.
Proof.
  intros A p l. rewrite <- not_true_iff_false, existsb_exists. split.
  - intros H x Hx. apply not_true_iff_false. intro Hp. apply H. exists x. auto.
  - intros H (x & Hx & Hp). rewrite (H x Hx) in Hp. discriminate.
Qed.

Lemma existsb_perm : forall {A} (f : A -> bool) l l', Permutation l l' -> existsb f l = existsb f l'.
Proof.
  intros A f l l' P. induction P; cbn; try congruence.
  destruct (f x), (f y); reflexivity.
Qed.

Definition hook_conflict (a b : task) : bool :=
  is_hook a && is_hook b &&
  match t_hook_snap a, t_hook_snap b with Some x, Some y => beq x y | _, _ => false end.

Lemma hook_conflict_sym : forall a b, hook_conflict a b = hook_conflict b a.
Proof.
  intros a b. unfold hook_conflict. destruct (t_hook_snap a), (t_hook_snap b); try rewrite (beq_sym b0 b1);
    destruct (is_hook a), (is_hook b); reflexivity.
Qed.

Lemma conflict_alt : forall a b,
  conflict a b = hook_conflict a b || (is_iface a && is_iface b) || (is_prereq a && is_prereq b) || is_gadget a || is_gadget b.
Proof. reflexivity. Qed.

Lemma conflict_sym : forall a b, conflict a b = conflict b a.
Proof.
  intros a b. rewrite !conflict_alt, (hook_conflict_sym a b).
  destruct (hook_conflict b a), (is_iface a), (is_iface b), (is_prereq a), (is_prereq b), (is_gadget a), (is_gadget b);
    reflexivity.
Qed.

Lemma conflict_hook : forall a b s,
  is_hook a = true -> is_hook b = true -> t_hook_snap a = Some s -> t_hook_snap b = Some s -> conflict a b = true.
Proof. intros a b s H1 H2 S1 S2. unfold conflict. rewrite H1, H2, S1, S2, beq_refl. reflexivity. Qed.

Lemma conflict_iface : forall a b, is_iface a = true -> is_iface b = true -> conflict a b = true.
Proof. intros a b H1 H2. rewrite conflict_alt, H1, H2. destruct (hook_conflict a b); reflexivity. Qed.

Lemma conflict_prereq : forall a b, is_prereq a = true -> is_prereq b = true -> conflict a b = true.
Proof. intros a b H1 H2. rewrite conflict_alt, H1, H2. cbn [andb]. rewrite orb_true_r. reflexivity. Qed.

Lemma conflict_gadget_l : forall a b, is_gadget a = true -> conflict a b = true.
Proof. intros a b H. rewrite conflict_alt, H, orb_true_r. reflexivity. Qed.

Lemma conflict_gadget_r : forall a b, is_gadget b = true -> conflict a b = true.
Proof. intros a b H. rewrite conflict_sym. apply conflict_gadget_l, H. Qed.

Lemma hook_blocked_cons : forall t u r, hook_blocked t (u :: r) = hook_conflict t u || hook_blocked t r.
Proof.
  intros t u r. unfold hook_blocked, hook_conflict. destruct (is_hook t); [|reflexivity].
  destruct (t_hook_snap t) as [s|]; [|rewrite andb_false_r; reflexivity].
  cbn [existsb]. cbn [andb]. destruct (is_hook u); cbn [andb]; [|reflexivity].
  destruct (t_hook_snap u) as [s'|]; [rewrite (beq_sym s' s)|]; reflexivity.
Qed.

Lemma iface_blocked_cons : forall t u r, iface_blocked t (u :: r) = (is_iface t && is_iface u) || iface_blocked t r.
Proof. intros t u r. unfold iface_blocked. destruct (is_iface t); reflexivity. Qed.

Lemma prereq_blocked_cons : forall t u r, prereq_blocked t (u :: r) = (is_prereq t && is_prereq u) || prereq_blocked t r.
Proof. intros t u r. unfold prereq_blocked. destruct (is_prereq t); reflexivity. Qed.

Lemma gadget_blocked_cons : forall t u r, gadget_blocked t (u :: r) = is_gadget t || is_gadget u || gadget_blocked t r.
Proof.
  intros t u r. unfold gadget_blocked. cbn [existsb is_nil_b negb].
  destruct (is_gadget t), (is_gadget u), (existsb is_gadget r), (is_nil_b r); reflexivity.
Qed.

Lemma blocked_nil : forall t, blocked t [] = false.
Proof.
  intro t. unfold blocked, verdicts, hook_blocked, iface_blocked, prereq_blocked, gadget_blocked.
  cbn [existsb is_nil_b negb].
  destruct (is_hook t), (t_hook_snap t), (is_prereq t), (is_iface t), (is_gadget t); reflexivity.
Qed.

Lemma blocked_cons : forall t u r, blocked t (u :: r) = conflict t u || blocked t r.
Proof.
  intros t u r. unfold blocked, verdicts. cbn [existsb].
  rewrite hook_blocked_cons, iface_blocked_cons, prereq_blocked_cons, gadget_blocked_cons, conflict_alt.
  btauto.
Qed.

Lemma blocked_is_conflict : forall t r, blocked t r = existsb (conflict t) r.
Proof.
  intros t r. induction r as [|u r IH]; [apply blocked_nil|].
  rewrite blocked_cons, IH. reflexivity.
Qed.

Lemma blocked_false : forall t r, blocked t r = false -> forall u, In u r -> conflict t u = false.
Proof. intros t r. rewrite blocked_is_conflict. apply existsb_false_iff. Qed.

Lemma excl_cons : forall t r, excl (t :: r) = true <-> (forall u, In u r -> conflict t u = false) /\ excl r = true.
Proof. intros t r. cbn [excl]. rewrite andb_true_iff, negb_true_iff, existsb_false_iff. reflexivity. Qed.

Lemma excl_snoc : forall l t, excl l = true -> (forall u, In u l -> conflict u t = false) -> excl (l ++ [t]) = true.
Proof.
  induction l as [|x l IH]; intros t H Ht; [reflexivity|].
  apply excl_cons in H as [Hx Hl]. apply excl_cons. split.
  - intros u Hu. apply in_app_iff in Hu as [Hu|[<-|[]]]; [apply Hx, Hu | apply Ht; left; reflexivity].
  - apply IH; [exact Hl|]. intros u Hu. apply Ht. right. exact Hu.
Qed.

Lemma excl_filter : forall f l, excl l = true -> excl (filter f l) = true.
Proof.
  intros f. induction l as [|x l IH]; intro H; [reflexivity|].
  apply excl_cons in H as [Hx Hl]. cbn [filter]. destruct (f x); [|apply IH, Hl].
  apply excl_cons. split; [|apply IH, Hl]. intros u Hu. apply filter_In in Hu. apply Hx, Hu.
Qed.

Lemma excl_in : forall l a b, excl l = true -> In a l -> In b l -> conflict a b = true -> a = b.
Proof.
  induction l as [|x l IH]; intros a b H Ha Hb C; [contradiction|]. apply excl_cons in H as [Hx Hl].
  destruct Ha as [->|Ha], Hb as [->|Hb]; [reflexivity | | | eauto].
  - rewrite (Hx b Hb) in C. discriminate.
  - rewrite conflict_sym, (Hx a Ha) in C. discriminate.
Qed.

(* a gadget task conflicts with every task, itself included *)
Lemma excl_gadget_alone : forall l a, excl l = true -> In a l -> is_gadget a = true -> l = [a].
Proof.
  intros l a H Ha Hg. destruct l as [|x [|y l]]; [contradiction | destruct Ha as [->|[]]; reflexivity |].
  exfalso. apply excl_cons in H as [Hx _]. destruct Ha as [->|Ha].
  - specialize (Hx y (or_introl eq_refl)). rewrite conflict_gadget_l in Hx by exact Hg. discriminate.
  - specialize (Hx a Ha). rewrite conflict_gadget_r in Hx by exact Hg. discriminate.
Qed.

Lemma in_handlers : forall tb t, In t (handlers tb) <-> In (t, false) tb.
Proof.
  intros tb t. unfold handlers. rewrite in_map_iff. split.
  - intros ([u c] & <- & H). apply filter_In in H as [H Hc]. destruct c; [discriminate | exact H].
  - intro H. exists (t, false). split; [reflexivity|]. apply filter_In. auto.
Qed.

Lemma handlers_snoc : forall tb t c, handlers (tb ++ [(t, c)]) = if c then handlers tb else handlers tb ++ [t].
Proof. intros tb t c. unfold handlers. rewrite filter_app, map_app. destruct c; [apply app_nil_r | reflexivity]. Qed.

Lemma handlers_filter_fst : forall f tb, handlers (filter (fun x => f (fst x)) tb) = filter f (handlers tb).
Proof.
  intros f. unfold handlers. induction tb as [|[t c] tb IH]; [reflexivity|].
  cbn. destruct (f t) eqn:F, c; cbn; rewrite ?F, IH; reflexivity.
Qed.

Lemma all_handlers : forall tb, (forall x, In x tb -> snd x = false) -> tb = map (fun t => (t, false)) (handlers tb).
Proof.
  unfold handlers. induction tb as [|[t c] tb IH]; intro H; [reflexivity|].
  assert (c = false) by (apply (H (t, c)); left; reflexivity). subst c. cbn.
  rewrite <- IH; [reflexivity|]. intros x Hx. apply H. right. exact Hx.
Qed.

(* the loop only ever appends a cleanup tomb, leaving `running` alone, or appends a handler tomb for a task that is not
   blocked and adds it to `running`: what both keep, a pass keeps *)
Lemma ensure_loop_inv : forall (P : tombs -> list task -> Prop) cs,
  (forall tb running t, In (CClean t) cs -> has_tomb (t_id t) tb = false ->
     P tb running -> P (tb ++ [(t, true)]) running) ->
  (forall tb running t, In (CRun t) cs -> has_tomb (t_id t) tb = false -> blocked t running = false ->
     P tb running -> P (tb ++ [(t, false)]) (running ++ [t])) ->
  forall tb running, P tb running -> exists running', P (ensure_loop tb running cs) running'.
Proof.
  intros P. induction cs as [|c cs IH]; intros HC HR tb running H; cbn [ensure_loop]; [eauto|].
  assert (IH' := IH (fun tb r t Hin => HC tb r t (or_intror Hin)) (fun tb r t Hin => HR tb r t (or_intror Hin))).
  destruct c as [t|t|]; [| |auto]; destruct (has_tomb (t_id t) tb) eqn:T; auto.
  - destruct (blocked t running) eqn:B; [auto|]. apply IH', HR; auto. left. reflexivity.
  - apply IH', HC; auto. left. reflexivity.
Qed.

(* the rule for a whole pass: `running` begins as every task with a tomb and grows with every handler started, so a
   task that is started conflicts with none of them *)
Lemma ensure_pass_inv : forall (P : tombs -> Prop) tb0 cs,
  (forall tb t, In (CClean t) cs -> has_tomb (t_id t) tb = false -> P tb -> P (tb ++ [(t, true)])) ->
  (forall tb t, In (CRun t) cs -> has_tomb (t_id t) tb = false ->
     (forall u, In u (map fst tb0 ++ handlers tb) -> conflict t u = false) -> P tb -> P (tb ++ [(t, false)])) ->
  P tb0 -> P (ensure_pass tb0 cs).
Proof.
  intros P tb0 cs HC HR H0. unfold ensure_pass.
  destruct (ensure_loop_inv (fun tb r => incl (map fst tb0 ++ handlers tb) r /\ P tb) cs)
    with (tb := tb0) (running := map fst tb0) as (r & _ & G); [| | |exact G].
  - intros tb r t Hin T [HI HP]. rewrite handlers_snoc. auto.
  - intros tb r t Hin T B [HI HP]. split.
    + rewrite handlers_snoc, app_assoc. apply incl_app_app; [exact HI | apply incl_refl].
    + apply HR; auto. intros u Hu. apply (blocked_false _ _ B), HI, Hu.
  - split; [|exact H0]. apply incl_app; [apply incl_refl|].
    intros u Hu. apply in_handlers in Hu. exact (in_map fst _ _ Hu).
Qed.

Lemma ensure_pass_excl : forall tb cs, excl (handlers tb) = true -> excl (handlers (ensure_pass tb cs)) = true.
Proof.
  intros tb cs. apply (ensure_pass_inv (fun tb => excl (handlers tb) = true)).
  - intros tb' t _ _ HE. rewrite handlers_snoc. exact HE.
  - intros tb' t _ _ C HE. rewrite handlers_snoc. apply excl_snoc; [exact HE|].
    intros u Hu. rewrite conflict_sym. apply C, in_or_app. right. exact Hu.
Qed.

Theorem started_conflicts_with_no_tomb : forall tb cs t, In (t, false) (ensure_pass tb cs) ->
  In (t, false) tb \/ forall x, In x tb -> conflict t (fst x) = false.
Proof.
  intros tb cs t. pattern (ensure_pass tb cs). apply ensure_pass_inv; [| |auto].
  - intros tb' u _ _ HP Hin. apply in_app_iff in Hin as [Hin|[E|[]]]; [auto | discriminate].
  - intros tb' u _ _ C HP Hin. apply in_app_iff in Hin as [Hin|[E|[]]]; [auto|]. injection E as ->. right.
    intros x Hx. apply C, in_or_app. left. apply in_map, Hx.
Qed.

Lemma ensure_pass_no_clean : forall tb cs,
  forallb no_clean_cand cs = true -> (forall x, In x tb -> snd x = false) ->
  forall x, In x (ensure_pass tb cs) -> snd x = false.
Proof.
  intros tb cs NC. rewrite forallb_forall in NC.
  apply (ensure_pass_inv (fun tb => forall x, In x tb -> snd x = false)).
  - intros tb' t Hin. discriminate (NC _ Hin).
  - intros tb' t _ _ _ H' x Hx. apply in_app_iff in Hx as [Hx|[<-|[]]]; [apply H', Hx | reflexivity].
Qed.

Lemma has_tomb_app : forall id a b, has_tomb id (a ++ b) = has_tomb id a || has_tomb id b.
Proof. intros. apply existsb_app. Qed.

Lemma ensure_loop_tomb_mono : forall cs tb running id,
  has_tomb id tb = true -> has_tomb id (ensure_loop tb running cs) = true.
Proof.
  intros cs tb running id H.
  destruct (ensure_loop_inv (fun tb _ => has_tomb id tb = true) cs) with (tb := tb) (running := running) as [_ G];
    [| | exact H | exact G].
  - intros tb' _ t _ _ H'. rewrite has_tomb_app, H'. reflexivity.
  - intros tb' _ t _ _ _ H'. rewrite has_tomb_app, H'. reflexivity.
Qed.

Lemma run_snoc : forall evs e, run (evs ++ [e]) = step (run evs) e.
Proof. intros. unfold run. apply fold_left_app. Qed.

Lemma run_inv : forall (P : tombs -> Prop) evs,
  P [] -> (forall tb e, In e evs -> P tb -> P (step tb e)) -> P (run evs).
Proof.
  intros P evs H0. induction evs as [|e evs IH] using rev_ind; intro HS; [exact H0|].
  rewrite run_snoc. apply HS; [apply in_or_app; right; left; reflexivity|].
  apply IH. intros tb e' Hin. apply HS, in_or_app. left. exact Hin.
Qed.

Lemma step_excl : forall tb e, excl (handlers tb) = true -> excl (handlers (step tb e)) = true.
Proof.
  intros tb e H. destruct e as [cs|id|ids|]; cbn [step].
  - apply ensure_pass_excl, H.
  - rewrite (handlers_filter_fst (fun t => negb (N.eqb (t_id t) id))). apply excl_filter, H.
  - exact H.
  - reflexivity.
Qed.

Theorem excl_invariant : forall evs, excl (handlers (run evs)) = true.
Proof. intro evs. apply run_inv; [reflexivity|]. intros tb e _. apply step_excl. Qed.

Theorem run_conflict_free : forall evs a b,
  In a (handlers (run evs)) -> In b (handlers (run evs)) -> conflict a b = true -> a = b.
Proof. intros evs a b. apply excl_in, excl_invariant. Qed.

Theorem gadget_alone : forall evs a,
  In a (handlers (run evs)) -> is_gadget a = true -> handlers (run evs) = [a].
Proof. intros evs a. apply excl_gadget_alone, excl_invariant. Qed.

(* the full statement `while update-gadget-assets executes nothing else has a goroutine` is false: TaskRunner.clean
   neither consults the predicates nor adds to `running`. Two witnesses: cleanup and gadget update started in the same
   pass; cleanup started in a later pass while the gadget update is executing. *)
Definition cleanup_witness_same_pass : list event :=
  [EEnsure [CClean (mkT 1 (kd 14) None); CRun (mkT 2 (kd 2) None)]].
Definition cleanup_witness_later_pass : list event :=
  [EEnsure [CRun (mkT 2 (kd 2) None)]; EEnsure [CClean (mkT 1 (kd 14) None)]].

Lemma run_no_clean : forall evs, no_clean evs = true -> forall x, In x (run evs) -> snd x = false.
Proof.
  intros evs NC. unfold no_clean in NC. rewrite forallb_forall in NC.
  apply (run_inv (fun tb => forall x, In x tb -> snd x = false)); [intros x []|].
  intros tb e He H. specialize (NC e He). destruct e as [cs|id|ids|]; cbn [step].
  - apply ensure_pass_no_clean; assumption.
  - intros x Hx. apply filter_In in Hx. apply H, Hx.
  - exact H.
  - intros x [].
Qed.

(* a candidate that reached the blocked check and has no tomb after the pass was blocked: r.someBlocked is then set, so
   the next finishing goroutine asks for another Ensure and the task is reconsidered *)
Lemma some_blocked_loop_complete : forall t cs tb running,
  In (CRun t) cs -> has_tomb (t_id t) (ensure_loop tb running cs) = false -> some_blocked_loop tb running cs = true.
Proof.
  intros t. induction cs as [|c cs IH]; intros tb running Hin Hn; [contradiction|].
  cbn [ensure_loop] in Hn. cbn [some_blocked_loop].
  destruct Hin as [->|Hin].
  - (* t's own turn: once it has a tomb it keeps it to the end of the pass *)
    destruct (has_tomb (t_id t) tb) eqn:HT.
    + rewrite ensure_loop_tomb_mono in Hn by exact HT. discriminate.
    + destruct (blocked t running); [reflexivity|].
      rewrite ensure_loop_tomb_mono in Hn; [discriminate|].
      rewrite has_tomb_app. cbn. rewrite N.eqb_refl. apply orb_true_r.
  - destruct c as [u|u|]; [| |apply IH; assumption].
    + destruct (has_tomb (t_id u) tb); [apply IH; assumption|].
      destruct (blocked u running); [reflexivity | apply IH; assumption].
    + destruct (has_tomb (t_id u) tb); apply IH; assumption.
Qed.

Lemma mem_bytes_in : forall x l, mem_bytes x l = true <-> In x l.
Proof. exact (existsb_eqb_In beq beq_true_iff). Qed.

Section Covered.
  Hypothesis cov : gen_covers_spec = true.

  Lemma cov_parts :
    (forall t, spec_is_iface t = true -> is_iface t = true) /\
    (BlockedKinds.hook_kind = bs "run-hook") /\
    (BlockedKinds.prereq_kind = bs "prerequisites") /\
    (BlockedKinds.gadget_kind = bs "update-gadget-assets").
  Proof.
    unfold gen_covers_spec in cov. rewrite !andb_true_iff in cov. destruct cov as [[[C1 C2] C3] C4].
    apply beq_eq in C2. apply beq_eq in C3. apply beq_eq in C4. repeat split; try assumption.
    intros t Ht. rewrite forallb_forall in C1. apply C1, mem_bytes_in, Ht.
  Qed.

  Lemma spec_conflict_covered : forall a b, spec_conflict a b = true -> conflict a b = true.
  Proof.
    destruct cov_parts as (Hi & C2 & C3 & C4).
    intros a b H. unfold spec_conflict, spec_is_hook, spec_is_prereq, spec_is_gadget in H. rewrite <- C2, <- C3, <- C4 in H.
    fold (is_hook a) (is_hook b) (is_prereq a) (is_prereq b) (is_gadget a) (is_gadget b) in H.
    fold (hook_conflict a b) in H. rewrite conflict_alt.
    rewrite !orb_true_iff in *. destruct H as [[[[H|H]|H]|H]|H]; auto.
    apply andb_true_iff in H as [H1 H2]. rewrite (Hi a H1), (Hi b H2). auto.
  Qed.

  Lemma spec_excl_covered : forall l, excl l = true -> spec_excl l = true.
  Proof.
    induction l as [|x l IH]; intro H; [reflexivity|]. apply excl_cons in H as [Hx Hl].
    cbn [spec_excl]. rewrite (IH Hl), andb_true_r, negb_true_iff, existsb_false_iff.
    intros y Hy. apply not_true_iff_false. intro C. apply spec_conflict_covered in C.
    rewrite (Hx y Hy) in C. discriminate.
  Qed.

End Covered.
