(* Proofs about models/TaskEngine.v (C03 / C01): a task is in Error exactly when its handler returned an error
   (failed_of, error_iff_failed); Change.Err names exactly those tasks whenever the change reports Error; a settled change
   has no tomb and reports Error iff some handler failed (otherwise TaskEngineStatus.settled_status_table decides). *)
From Coq Require Import List Arith Lia.
Import ListNotations.
Require Import V.models.TaskEngine V.proofs.TaskEngineProofs V.proofs.TaskEngineStatus V.proofs.TaskEngineReady
               V.proofs.TaskEngineDoing V.proofs.TaskEngineLive V.proofs.TaskEngineErr.

(* the tasks whose handler returned an error during the history (the completion events that were enabled) *)
Fixpoint failed_of (s : state) (es : list event) : list nat :=
  match es with
  | [] => []
  | e :: r =>
    match e with
    | Finish t OErr => if memn t (running s) then [t] else []
    | _ => []
    end ++ failed_of (step s e) r
  end.

Lemma origin_move : forall s e s' u x, move s e s' -> x = Error \/ x = Wait -> st s' u = x ->
  st s u = x \/ (e = Finish u OErr /\ In u (running s) /\ x = Error) \/
  (exists b, e = Finish u (OWait b) /\ x = Wait) \/ (e = Resolve u /\ x = t_waited (get s u)).
Proof.
  intros s e s' u x M Hx H.
  assert (Wr : forall y t nw, nw <> Error -> nw <> Wait -> st (set_status y t nw) u = x -> st y u = x).
  { intros y t nw N1 N2 Hy. destruct (st_set_status y t nw u) as [A|[_ A]]; rewrite A in Hy; [exact Hy|].
    destruct Hx; congruence. }
  assert (Tu : forall y t, st (try_undo y t) u = x -> st y u = x).
  { intros y t. unfold try_undo. des_if; apply Wr; discriminate. }
  assert (Am : forall a, abort_map_ok a x = true -> a = x).
  { destruct Hx; subst x; [apply amap_to_error | apply amap_to_wait]. }
  destruct M; try (left; exact H).
  - left. apply (Tu s t H).
  - left. apply (Wr s t Done); [discriminate | discriminate | exact H].
  - left. rewrite run_eq, st_launch in H. unfold run_write in H.
    destruct (st s t); try assumption; (eapply Wr; [| |exact H]; discriminate).
  - left. apply (Wr (remove_running s t) t nw); [| |exact H]; destruct (st s t); inversion H2; discriminate.
  - left. apply (Tu (remove_running s t) t H).
  - left. rewrite (st_irrel (remove_running s t)) in H by reflexivity. exact H.
  - rewrite set_to_wait_eq in H by assumption.
    match type of H with st (change_st ?y t Wait) u = x => destruct (st_change_st y t Wait u) as [A|[-> A]] end;
      rewrite A in H; [left; rewrite (st_irrel (remove_running s t)) in H by reflexivity; exact H|].
    right; right; left. exists u0. auto.
  - match type of H with st (set_status ?y t Error) u = x => destruct (st_set_status y t Error u) as [A|[-> A]] end;
      rewrite A in H; [left | right; left; auto].
    apply Am. rewrite <- H. apply (abort_lanes_top_mapping (remove_running s t)).
  - left. apply Am. rewrite <- H. apply abort_change_mapping.
  - destruct (st_set_status s t (t_waited (get s t)) u) as [A|[-> A]]; rewrite A in H; auto.
Qed.

Lemma inv_ensure_prefix : forall order s, inv s -> inv (fold_left ensure_one order s).
Proof.
  intros order s. apply (ensure_fold_ind inv order). intros x x' M. apply (inv_move _ _ _ M). discriminate.
Qed.

Lemma error_origin_step : forall s e u,
  inv s -> kgood s -> st (step s e) u = Error ->
  st s u = Error \/ (e = Finish u OErr /\ In u (running s)).
Proof.
  intros s e u _ K.
  assert (O : forall x x', move x e x' -> (forall t, e = Resolve t -> x = s) -> st x' u = Error ->
              st x u = Error \/ (e = Finish u OErr /\ In u (running x))).
  { intros x x' M Hr H. destruct (origin_move _ _ _ u Error M (or_introl eq_refl) H) as [A|[(A & B & _)|[(b & _ & F)|(A & B)]]];
      auto; [discriminate F|].
    exfalso. rewrite (Hr u A) in B. pose proof (proj2 K u) as W. rewrite <- B in W. discriminate. }
  pose proof (step_move s e) as M. destruct e;
    try (destruct M as [E|M]; [rewrite E; auto | apply (O _ _ M); auto]).
  intros H. left. revert H. apply (step_ind (fun x => st x u = Error -> st s u = Error)); [|auto].
  intros x x' Mx Hx H. destruct (O _ _ Mx) as [A|[F _]]; [discriminate | exact H | auto | discriminate F].
Qed.

Lemma error_iff_failed_from : forall es s,
  tame s es -> inv s -> kinv s ->
  forall u, st (run_events s es) u = Error <-> (st s u = Error \/ In u (failed_of s es)).
Proof.
  unfold run_events. induction es as [|e r IH]; intros s Ht I K u; simpl; [tauto|].
  destruct Ht as (T1 & T2 & T3).
  rewrite (IH (step s e) T3 (inv_step s e T1 I) (kinv_step s e T2 I K) u), in_app_iff. split.
  - intros [H|H]; [|tauto].
    destruct (error_origin_step s e u I (proj2 K) H) as [A|[-> B]]; [tauto|].
    right. left. apply memn_In in B. rewrite B. left; reflexivity.
  - intros [H|[H|H]]; [left; apply error_final_step; assumption | | tauto].
    left. destruct e; try destruct H. destruct o; try destruct H.
    destruct (memn t (running s)) eqn:Em; [|destruct H]. destruct H as [<-|[]].
    apply memn_In in Em. simpl. apply (finish_err_sets_error s t I Em).
Qed.

Lemma init_no_error : forall g u, st (init_state g) u <> Error.
Proof. intros g u. destruct (get_init g u) as ([(_ & E & _)|[_ E]] & _); [rewrite E | unfold st; rewrite E]; discriminate. Qed.

(* every tame history on a closed graph: a task is in Error iff its handler returned an error *)
Theorem error_iff_failed : forall (g : list tdesc) (es : list event) (u : nat),
  g <> [] -> closed g -> tame (init_state g) es ->
  (st (run_events (init_state g) es) u = Error <-> In u (failed_of (init_state g) es)).
Proof.
  intros g es u Hg Hc Ht.
  rewrite (error_iff_failed_from es (init_state g) Ht (inv_init g Hg) (conj (sym_init g) (kgood_init g Hc)) u).
  split; [intros [H|H]; [exfalso; eapply init_no_error; eauto | assumption] | tauto].
Qed.

(* Change.Err names exactly the tasks whose handler returned an error, whenever the change reports Error *)
Theorem err_names_exactly_failed : forall (g : list tdesc) (es : list event) (u : nat),
  g <> [] -> closed g -> tame (init_state g) es ->
  let s := run_events (init_state g) es in
  (In u (err_tasks (tasks s)) <-> change_status (tasks s) = Error /\ In u (failed_of (init_state g) es)).
Proof.
  intros g es u Hg Hc Ht s. pose proof (error_iff_failed g es u Hg Hc Ht) as E. fold s in E.
  unfold err_tasks. destruct (seqb (change_status (tasks s)) Error) eqn:Ec.
  - apply seqb_eq in Ec. rewrite filter_In, in_seq. change (t_st (nth u (tasks s) dummy)) with (st s u).
    split.
    + intros [_ Hs]. apply seqb_eq in Hs. split; [assumption | apply E; assumption].
    + intros [_ Hf]. apply E in Hf. split; [|rewrite Hf; reflexivity].
      assert (u < length (tasks s)) by (apply in_range_st; rewrite Hf; discriminate). lia.
  - apply seqb_neq in Ec. split; [intros [] | intros [F _]; contradiction].
Qed.

Lemma all_ready_st : forall s u, all_ready (tasks s) = true -> ready (st s u) = true.
Proof.
  intros s u A. unfold all_ready in A. rewrite forallb_forall in A.
  destruct (Nat.lt_ge_cases u (length (tasks s))) as [L|L].
  - apply (A (nth u (tasks s) dummy)). apply nth_In. assumption.
  - rewrite st_out by assumption. reflexivity.
Qed.

(* a settled state has no task in Do / Doing / Abort / Undo / Undoing / Wait and no tomb *)
Theorem settled_nothing_pending : forall s,
  inv s -> all_ready (tasks s) = true ->
  running s = [] /\ forall u, st s u = Done \/ st s u = Undone \/ st s u = Hold \/ st s u = Error.
Proof.
  intros s I A. split.
  - destruct (running s) as [|t r] eqn:Er; [reflexivity|]. exfalso.
    assert (In t (running s)) by (rewrite Er; left; reflexivity).
    pose proof (i_run s I t H) as U. apply unr_unready in U. rewrite (all_ready_st s t A) in U. discriminate.
  - intros u. pose proof (all_ready_st s u A) as R. destruct (st s u); simpl in R; try discriminate R; auto.
Qed.

Lemma has_status_ex : forall l x, has_status l x = true <-> exists u, u < length l /\ stl l u = x.
Proof.
  intros l x. unfold has_status. rewrite existsb_exists. split.
  - intros (tk & Hin & Hs). apply seqb_eq in Hs. destruct (In_nth l tk dummy Hin) as (u & L & E).
    exists u. split; [assumption|]. unfold stl. rewrite E. assumption.
  - intros (u & L & E). exists (nth u l dummy). split; [apply nth_In; assumption|]. unfold stl in E. rewrite E. apply seqb_refl.
Qed.

(* C01_settles_error, safety half in full: in a settled state of a tame history the change reports Error iff some
   handler returned an error; then it is flagged ready, nothing is pending, and Err names exactly the failed tasks *)
Theorem settled_error_iff_failed : forall (g : list tdesc) (es : list event),
  g <> [] -> closed g -> tame (init_state g) es ->
  let s := run_events (init_state g) es in
  all_ready (tasks s) = true ->
  running s = [] /\ cready s = true /\
  (change_status (tasks s) = Error <-> failed_of (init_state g) es <> []) /\
  (forall u, In u (err_tasks (tasks s)) <-> In u (failed_of (init_state g) es)).
Proof.
  intros g es Hg Hc Ht s A.
  assert (I : inv s) by (apply inv_run_events; [apply tame_guarded; assumption | apply inv_init; assumption]).
  destruct (settled_nothing_pending s I A) as [R _].
  assert (Iff : change_status (tasks s) = Error <-> failed_of (init_state g) es <> []).
  { rewrite (settled_error_iff (tasks s) A), has_status_ex. split.
    - intros (u & L & E). change (stl (tasks s) u) with (st s u) in E.
      apply (error_iff_failed g es u Hg Hc Ht) in E. intros F. rewrite F in E. destruct E.
    - intros Hne. destruct (failed_of (init_state g) es) as [|u r] eqn:Ef; [congruence|].
      assert (E : st s u = Error) by (apply (error_iff_failed g es u Hg Hc Ht); rewrite Ef; left; reflexivity).
      exists u. split; [apply in_range_st; rewrite E; discriminate | exact E]. }
  split; [assumption|]. split; [rewrite (i_rd s I); assumption|]. split; [assumption|].
  intros u. pose proof (err_names_exactly_failed g es u Hg Hc Ht) as N. cbv zeta in N. fold s in N. rewrite N.
  split; [tauto|].
  intros Hf. split; [|assumption]. apply Iff. intros F. rewrite F in Hf. destruct Hf.
Qed.

(* non-vacuity: chain 0 <- 1, task 1 fails, task 0 is undone: a tame history on a closed graph that settles *)
Lemma settled_example :
  let g := [([], [], true); ([], [0], true)] in
  let es := [Ensure [0;1]; Finish 0 OOk; Ensure [0;1]; Finish 1 OErr; Ensure [0;1]; Finish 0 OOk; Ensure [0;1]] in
  let s := run_events (init_state g) es in
  closed g /\ tame (init_state g) es /\ all_ready (tasks s) = true /\
  failed_of (init_state g) es = [1] /\ err_tasks (tasks s) = [1] /\
  map t_st (tasks s) = [Undone; Error] /\ change_status (tasks s) = Error.
Proof.
  cbv zeta. split; [|split].
  - intros t w H. unfold waits_g in H. destruct t as [|[|t]]; simpl in H.
    + destruct H.
    + destruct H as [<-|[]]. simpl. lia.
    + destruct t; simpl in H; destruct H.
  - vm_compute. repeat split; intros; discriminate.
  - vm_compute. repeat split; reflexivity.
Qed.
