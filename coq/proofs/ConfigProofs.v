(* C29 — proofs about models/Config.v. The write cache (PatchConfig / commitChange) is a plain nested-map write
   (patch_commit, patch_blocked); hence a simulation between the transaction state machine and the log-replay reference for
   every history (tx_rel, st_rel, sim_step); the properties are read off the reference (get_view, get_committed). *)
From Coq Require Import List NArith Bool Lia ZifyBool ZifyN.
Import ListNotations.
Require Import V.lib.JsonTree V.proofs.ListFacts V.proofs.JsonTreeProofs V.models.Config.
Open Scope N_scope.

Lemma change_ind' : forall P : change -> Prop,
  (forall t, P (Raw t)) ->
  (forall m, Forall (fun kc => P (snd kc)) m -> P (Patch m)) ->
  forall c, P c.
Proof.
  intros P HR HP. fix IH 1. intros [t | m]; [apply HR|].
  apply HP. induction m as [|[k c] r IHm]; constructor; [apply IH|exact IHm].
Qed.

Definition wf_ochange (c : option change) : Prop := match c with Some c => wf_change c = true | None => True end.

Lemma wf_patch : forall m, wf_change (Patch m) = true <->
  sorted (map fst m) = true /\ (forall k c, lookup k m = Some c -> wf_change c = true).
Proof. exact (wf_map_lookup wf_change). Qed.

Lemma wf_patch_lookup : forall m k, wf_change (Patch m) = true -> wf_ochange (lookup k m).
Proof. intros m k. exact (wf_map_member wf_change m k). Qed.

Lemma wf_patch_aset : forall m k c, wf_change (Patch m) = true -> wf_change c = true -> wf_change (Patch (aset k c m)) = true.
Proof. exact (wf_map_aset wf_change). Qed.

Definition eff (c : option change) (p : option tree) : option tree :=
  match c with Some c => Some (commit_change c p) | None => p end.

Definition child (p : option tree) (k : key) : option tree :=
  match p with Some (Obj l) => lookup k l | _ => None end.

Lemma child_members : forall p k, child p k = lookup k (members p).
Proof. intros [[| z | l]|] k; reflexivity. Qed.

Lemma wf_opt_child : forall p k, wf_opt p -> wf_opt (child p k).
Proof. intros p k W. destruct p as [[| z | l]|]; cbn; auto. now apply wf_opt_lookup. Qed.

Lemma commit_patch_obj : forall m l, commit_change (Patch m) (Some (Obj l)) = Obj (apply_changes l m).
Proof. reflexivity. Qed.

Lemma commit_none : forall c, commit_change c None = tree_of_change c.
Proof. destruct c; reflexivity. Qed.

Lemma sorted_apply : forall m l, sorted (map fst l) = true -> sorted (map fst (apply_changes l m)) = true.
Proof. exact (sorted_fold_aset (fun _ c o => commit_change c o)). Qed.

Lemma lookup_apply : forall m l j, sorted (map fst m) = true ->
  lookup j (apply_changes l m) = match lookup j m with Some c => Some (commit_change c (lookup j l)) | None => lookup j l end.
Proof. exact (lookup_fold_aset (fun _ c o => commit_change c o)). Qed.

Lemma commit_patch_shape : forall m p, sorted (map fst m) = true -> wf_opt p ->
  exists l, commit_change (Patch m) p = Obj l /\ sorted (map fst l) = true.
Proof.
  intros m p S W. destruct p as [[| z | l]|]; cbn [commit_change tree_of_change];
    try (eexists; split; [reflexivity|now rewrite (keys_map (fun kc => tree_of_change (snd kc)))]).
  eexists; split; [reflexivity|]. apply (sorted_apply m l). cbn in W. apply wf_obj in W. tauto.
Qed.

Lemma child_commit_patch : forall m p k, sorted (map fst m) = true ->
  child (Some (commit_change (Patch m) p)) k = eff (lookup k m) (child p k).
Proof.
  intros m p k S. destruct p as [[| z | l]|]; cbn [commit_change tree_of_change child];
    try (rewrite (lookup_map (fun kc => tree_of_change (snd kc))); destruct (lookup k m) as [c|]; cbn; [now rewrite commit_none|reflexivity]).
  fold (apply_changes l m). rewrite lookup_apply by exact S. now destruct (lookup k m).
Qed.

Lemma obj_ext : forall l1 l2, sorted (map fst l1) = true -> sorted (map fst l2) = true ->
  (forall k, child (Some (Obj l1)) k = child (Some (Obj l2)) k) -> Obj l1 = Obj l2.
Proof. intros l1 l2 S1 S2 H. f_equal. now apply assoc_ext. Qed.

Lemma commit_patch_aset : forall m k x p, wf_change (Patch m) = true -> wf_opt p ->
  commit_change (Patch (aset k x m)) p =
  Obj (aset k (commit_change x (child p k)) (members (Some (commit_change (Patch m) p)))).
Proof.
  intros m k x p Wm Wp. apply wf_patch in Wm. destruct Wm as [Sm _].
  pose proof (sorted_aset m k x Sm) as Sm'.
  destruct (commit_patch_shape (aset k x m) p Sm' Wp) as (l1 & E1 & S1).
  destruct (commit_patch_shape m p Sm Wp) as (l0 & E0 & S0).
  pose proof (child_commit_patch (aset k x m) p) as F1. pose proof (child_commit_patch m p) as F0.
  rewrite E1 in *. rewrite E0 in *. cbn [members child] in *. f_equal.
  apply assoc_ext; [exact S1|now apply sorted_aset|].
  intros j. rewrite F1, !lookup_aset by exact Sm'. destruct (j =? k) eqn:E; [|now rewrite F0].
  assert (j = k) by lia. now subst j.
Qed.

Lemma dpatch_unfold : forall k k2 r2 l v, dpatch (k :: k2 :: r2) l v =
  match lookup k l with
  | None | Some Null => Some (aset k (nest (k2 :: r2) v) l)
  | Some (Obj l') => match dpatch (k2 :: r2) l' v with Some x => Some (aset k (Obj x) l) | None => None end
  | Some (Atom _) => None
  end.
Proof. reflexivity. Qed.

Lemma blocked_none : forall ks, blocked ks None = false.
Proof. destruct ks; reflexivity. Qed.

Lemma blocked_child : forall k r p, blocked (k :: r) p = false -> blocked r (child p k) = false.
Proof. intros k r p H. destruct p as [[| z | l]|]; cbn in *; auto using blocked_none; discriminate. Qed.

(* PatchConfig on a decoded map is the plain nested-map write, and fails exactly when the path runs through a scalar *)
Lemma dpatch_spec : forall ks l v, ks <> [] ->
  dpatch ks l v = if blocked ks (Some (Obj l)) then None else Some (members (Some (tset ks v (Some (Obj l))))).
Proof.
  induction ks as [|k r IH]; intros l v NE; [congruence|]. destruct r as [|k2 r2]; [reflexivity|].
  rewrite dpatch_unfold, tset_cons. change (blocked (k :: k2 :: r2) (Some (Obj l))) with (blocked (k2 :: r2) (lookup k l)).
  cbn [members]. destruct (lookup k l) as [[| z | l']|]; try reflexivity; try (cbn [blocked tset]; now rewrite tset_none_nest).
  rewrite IH by discriminate. destruct (blocked (k2 :: r2) (Some (Obj l'))); [reflexivity|]. now rewrite tset_cons.
Qed.

Lemma dpatch_tset : forall ks l v x, dpatch ks l v = Some x -> Obj x = tset ks v (Some (Obj l)).
Proof.
  intros [|k r] l v x H; [discriminate|]. rewrite dpatch_spec in H by discriminate.
  destruct (blocked (k :: r) (Some (Obj l))); [discriminate|]. injection H as <-. now rewrite tset_cons.
Qed.

Lemma dpatch_blocked : forall ks l v, ks <> [] -> (dpatch ks l v = None <-> blocked ks (Some (Obj l)) = true).
Proof. intros ks l v NE. rewrite dpatch_spec by exact NE. destruct (blocked ks (Some (Obj l))); split; congruence. Qed.

(* the inner function of patch_config *)
Definition inmap (k : key) (r : path) (v : tree) (m : list (key * change)) : option (list (key * change)) :=
  match r with
  | [] => Some (aset k (Raw v) m)
  | _ :: _ => match patch_config r (lookup k m) v with Some c' => Some (aset k c' m) | None => None end
  end.

Lemma patch_config_cons : forall k r c v, patch_config (k :: r) c v =
  match c with
  | None => option_map Patch (inmap k r v [])
  | Some (Patch m) => option_map Patch (inmap k r v m)
  | Some (Raw (Obj l)) => option_map (fun x => Raw (Obj x)) (dpatch (k :: r) l v)
  | Some (Raw Null) => option_map (fun m => Raw (tree_of_change (Patch m))) (inmap k r v [])
  | Some (Raw (Atom _)) => None
  end.
Proof. reflexivity. Qed.

Lemma option_map_none : forall (A B : Type) (f : A -> B) (o : option A), option_map f o = None <-> o = None.
Proof. intros A B f [a|]; cbn; split; congruence. Qed.

Lemma patch_none_is_nil : forall ks v, patch_config ks None v = patch_config ks (Some (Patch [])) v.
Proof. destruct ks; reflexivity. Qed.

Lemma inmap_commit : forall k r v m m',
  (forall c c', wf_ochange c -> patch_config r c v = Some c' ->
     wf_change c' = true /\ forall p, wf_opt p -> commit_change c' p = tset r v (eff c p)) ->
  wf_change (Patch m) = true -> wf_tree v = true -> inmap k r v m = Some m' ->
  wf_change (Patch m') = true /\
  forall p, wf_opt p -> commit_change (Patch m') p = tset (k :: r) v (Some (commit_change (Patch m) p)).
Proof.
  intros k r v m m' IH Wm Wv H.
  assert (X : exists x, m' = aset k x m /\ wf_change x = true /\
               forall p, wf_opt p -> commit_change x p = tset r v (eff (lookup k m) p)).
  { unfold inmap in H. destruct r as [|k2 r2].
    - injection H as <-. exists (Raw v). repeat split; auto.
    - destruct (patch_config (k2 :: r2) (lookup k m) v) as [c0|] eqn:P; [|discriminate]. injection H as <-.
      exists c0. split; [reflexivity|]. apply (IH _ _ (wf_patch_lookup _ _ Wm) P). }
  destruct X as (x & -> & Wx & Hx). split; [now apply wf_patch_aset|]. intros p Wp.
  pose proof Wm as Sm. apply wf_patch in Sm. destruct Sm as [Sm _].
  rewrite commit_patch_aset, tset_cons, <- child_members, child_commit_patch by assumption.
  now rewrite Hx by now apply wf_opt_child.
Qed.

(* patching the cache then committing onto ANY base = committing the old cache and then writing the path *)
Lemma patch_commit : forall ks c v c', wf_ochange c -> wf_tree v = true ->
  patch_config ks c v = Some c' ->
  wf_change c' = true /\ forall p, wf_opt p -> commit_change c' p = tset ks v (eff c p).
Proof.
  induction ks as [|k r IH]; intros c v c' Wc Wv H; [discriminate|].
  pose proof (fun m m' => inmap_commit k r v m m' (fun c0 c1 W0 => IH c0 v c1 W0 Wv)) as PM.
  rewrite patch_config_cons in H. destruct c as [[[| z | l] | m]|].
  - (* a raw null decodes to a nil map *)
    destruct (inmap k r v []) as [m1|] eqn:Em; [|discriminate]. injection H as <-.
    destruct (PM [] m1 eq_refl Wv Em) as [W1 H1].
    assert (T : tree_of_change (Patch m1) = tset (k :: r) v (Some (Obj []))).
    { rewrite <- commit_none. now rewrite H1. }
    cbn [tree_of_change] in T |- *. split; [|intros p _; exact T]. cbn [wf_change]. rewrite T. apply wf_tset; cbn; auto.
  - discriminate.
  - destruct (dpatch (k :: r) l v) as [x|] eqn:D; [|discriminate]. injection H as <-.
    apply dpatch_tset in D. split; [|intros p _; exact D]. cbn [wf_change]. rewrite D. now apply wf_tset.
  - destruct (inmap k r v m) as [m1|] eqn:Em; [|discriminate]. injection H as <-. exact (PM m m1 Wc Wv Em).
  - destruct (inmap k r v []) as [m1|] eqn:Em; [|discriminate]. injection H as <-.
    destruct (PM [] m1 eq_refl Wv Em) as [W1 H1]. split; [exact W1|]. intros p Wp.
    rewrite H1 by exact Wp. cbn [eff]. now destruct p as [[| z | l]|].
Qed.

Lemma blocked_commit_patch : forall m p k r, sorted (map fst m) = true -> wf_opt p ->
  blocked (k :: r) (Some (commit_change (Patch m) p)) = blocked r (eff (lookup k m) (child p k)).
Proof.
  intros m p k r S W. destruct (commit_patch_shape m p S W) as (l0 & E0 & S0).
  rewrite <- child_commit_patch by exact S. rewrite E0. reflexivity.
Qed.

Lemma inmap_blocked : forall k r v m p,
  (forall c p, wf_ochange c -> wf_opt p -> blocked r p = false -> r <> [] ->
     (patch_config r c v = None <-> blocked r (eff c p) = true)) ->
  wf_change (Patch m) = true -> wf_opt p -> blocked (k :: r) p = false ->
  (inmap k r v m = None <-> blocked (k :: r) (Some (commit_change (Patch m) p)) = true).
Proof.
  intros k r v m p IH Wm Wp Bp. pose proof Wm as Sm. apply wf_patch in Sm. destruct Sm as [Sm _].
  rewrite blocked_commit_patch by assumption. unfold inmap. destruct r as [|k2 r2]; [cbn; split; discriminate|].
  rewrite <- (IH (lookup k m) (child p k)); [|now apply wf_patch_lookup|now apply wf_opt_child|now apply blocked_child|discriminate].
  destruct (patch_config (k2 :: r2) (lookup k m) v); split; congruence.
Qed.

(* PatchConfig fails exactly when the path runs through a scalar of the cache committed onto a base whose own
   path is free of scalars *)
Lemma patch_blocked : forall ks c v p, wf_ochange c -> wf_opt p -> blocked ks p = false -> ks <> [] ->
  (patch_config ks c v = None <-> blocked ks (eff c p) = true).
Proof.
  induction ks as [|k r IH]; intros c v p Wc Wp Bp NE; [congruence|].
  pose proof (fun m p => inmap_blocked k r v m p (fun c0 p0 => IH c0 v p0)) as PM.
  rewrite patch_config_cons. destruct c as [[[| z | l] | m]|]; rewrite ?option_map_none; cbn [eff].
  - rewrite (PM [] None eq_refl I eq_refl). cbn. rewrite blocked_none. split; discriminate.
  - cbn. split; reflexivity.
  - apply dpatch_blocked. discriminate.
  - now apply PM.
  - rewrite (PM [] p eq_refl Wp Bp), Bp.
    destruct p as [[| z | l]|]; cbn in *; try rewrite blocked_none; split; congruence.
Qed.

Lemma get_node_none : forall ks, get_node ks None = GNoOption.
Proof. destruct ks; reflexivity. Qed.

Lemma get_from_node : forall ks l, ks <> [] -> get_from ks l = get_node ks (Some (Obj l)).
Proof.
  induction ks as [|k r IH]; intros l NE; [congruence|].
  cbn [get_from get_node]. destruct (lookup k l) as [t|]; [|now rewrite get_node_none].
  destruct r as [|k2 r2]; [reflexivity|]. destruct t as [| z | l']; try reflexivity.
  apply IH. discriminate.
Qed.

(* getFromConfig below the top level, and the scalar test of Set, as renderings of walk *)
Definition gres_of (h : hit) : gres := match h with At t => GOk t | Missing => GNoOption | Blocked => GNotMap end.

Lemma get_node_walk : forall ks o, get_node ks o = gres_of (walk ks o).
Proof. induction ks as [|k r IH]; intros [[| z | l]|]; cbn; auto. Qed.

Lemma blocked_walk : forall ks o, blocked ks o = match walk ks o with Blocked => true | _ => false end.
Proof. induction ks as [|k r IH]; intros [[| z | l]|]; cbn; auto. Qed.

Lemma notmap_blocked : forall ks o, is_notmap (get_node ks o) = blocked ks o.
Proof. intros ks o. rewrite get_node_walk, blocked_walk. now destruct (walk ks o). Qed.

Lemma set_guard : forall k r l,
  (match r with [] => false | _ :: _ => is_notmap (get_from (k :: r) l) end) = blocked (k :: r) (Some (Obj l)).
Proof.
  intros k r l. destruct r as [|k2 r2].
  - reflexivity.
  - rewrite get_from_node by discriminate. apply notmap_blocked.
Qed.

Definition wf_log (lg : wlog) : Prop := Forall (fun w => wf_tree (snd w) = true /\ snd (fst w) <> []) lg.

Lemma replay_snoc : forall lg s ks v B,
  replay (lg ++ [(s, ks, v)]) B = aset s (tset ks v (lookup s (replay lg B))) (replay lg B).
Proof. intros. unfold replay. rewrite fold_left_app. reflexivity. Qed.

Lemma replay_cons : forall w lg B, replay (w :: lg) B =
  replay lg (aset (fst (fst w)) (tset (snd (fst w)) (snd w) (lookup (fst (fst w)) B)) B).
Proof. intros [[s ks] v] lg B. reflexivity. Qed.

Lemma replay_app : forall l1 l2 B, replay (l1 ++ l2) B = replay l2 (replay l1 B).
Proof. intros. unfold replay. apply fold_left_app. Qed.

Lemma wf_replay : forall lg B, wf_log lg -> wf_tree (Obj B) = true -> wf_tree (Obj (replay lg B)) = true.
Proof.
  unfold replay. induction lg as [|[[s ks] v] r IH]; intros B W WB; [exact WB|].
  inversion W as [|? ? [Wv _] Wr]; subst. cbn [fold_left]. apply IH; [exact Wr|].
  apply wf_aset; [exact WB|]. apply wf_tset; [exact Wv|now apply wf_opt_lookup].
Qed.

Lemma tset_snapmap : forall ks v B s, ks <> [] -> tset ks v (Some (Obj (snap_map B s))) = tset ks v (lookup s B).
Proof.
  intros [|k r] v B s NE; [congruence|]. now rewrite !tset_cons.
Qed.

Lemma wf_snap_map : forall B s, wf_tree (Obj B) = true -> wf_tree (Obj (snap_map B s)) = true.
Proof.
  intros B s W. unfold snap_map. destruct (lookup s B) as [[| z | l]|] eqn:E; try reflexivity.
  eapply wf_lookup; eauto.
Qed.

Record tx_rel (t : tx) (rt : rtx) : Prop := mkRel {
  rel_pristine : tx_pristine t = r_pristine rt;
  rel_wfp : wf_tree (Obj (tx_pristine t)) = true;
  rel_sorted : sorted (map fst (tx_changes t)) = true;
  rel_wfc : forall s m, lookup s (tx_changes t) = Some m -> wf_change (Patch m) = true;
  rel_wfl : wf_log (r_log rt);
  rel_snaps : forall s, In s (log_snaps (r_log rt)) <-> lookup s (tx_changes t) <> None;
  rel_replay : forall B, wf_tree (Obj B) = true -> forall s,
      lookup s (replay (r_log rt) B) =
      match lookup s (tx_changes t) with
      | Some m => Some (Obj (apply_changes (snap_map B s) m))
      | None => lookup s B
      end
}.

Lemma wf_snap_changes : forall t rt s, tx_rel t rt -> wf_change (Patch (snap_changes t s)) = true.
Proof.
  intros t rt s R. unfold snap_changes. destruct (lookup s (tx_changes t)) eqn:E; [|reflexivity].
  eapply rel_wfc; eauto.
Qed.

Lemma view_eq : forall t rt B s, tx_rel t rt -> wf_tree (Obj B) = true ->
  snap_map (replay (r_log rt) B) s = apply_changes (snap_map B s) (snap_changes t s).
Proof.
  intros t rt B s R W. unfold snap_map at 1. rewrite (rel_replay _ _ R B W s). unfold snap_changes.
  destruct (lookup s (tx_changes t)); reflexivity.
Qed.

Lemma patch_shape : forall ks m v c', patch_config ks (Some (Patch m)) v = Some c' -> exists m', c' = Patch m'.
Proof.
  intros [|k r] m v c' H; [discriminate|]. rewrite patch_config_cons in H.
  destruct (inmap k r v m) as [m1|]; [|discriminate]. injection H as <-. now exists m1.
Qed.

(* the unpurged view of a snap inside a transaction *)
Definition raw_view (t : tx) (s : key) : list (key * tree) :=
  apply_changes (snap_map (tx_pristine t) s) (snap_changes t s).

Definition tx_ok (t : tx) : Prop := exists rt, tx_rel t rt.

Lemma raw_view_replay : forall t rt s, tx_rel t rt ->
  raw_view t s = snap_map (replay (r_log rt) (tx_pristine t)) s.
Proof. intros t rt s R. unfold raw_view. symmetry. apply (view_eq t rt _ s R (rel_wfp _ _ R)). Qed.

Lemma wf_raw_view : forall t s, tx_ok t -> wf_tree (Obj (raw_view t s)) = true.
Proof.
  intros t s [rt R]. rewrite (raw_view_replay t rt s R).
  apply wf_snap_map. apply wf_replay; [exact (rel_wfl _ _ R)|exact (rel_wfp _ _ R)].
Qed.

(* a successful Set replaces the snap's cache entry by one that, committed onto ANY base, gives what the old entry gave
   with the path written: the step of the simulation and read-your-writes are both read off this *)
Lemma tx_set_some : forall t rt s ks v t', tx_rel t rt -> wf_tree v = true -> tx_set t s ks v = Some t' ->
  exists m', t' = mkTx (tx_pristine t) (aset s m' (tx_changes t)) /\ ks <> [] /\ wf_change (Patch m') = true /\
    forall l, wf_tree (Obj l) = true ->
      Obj (apply_changes l m') = tset ks v (Some (Obj (apply_changes l (snap_changes t s)))).
Proof.
  intros t rt s [|k r] v t' R Wv H; [discriminate|]. unfold tx_set in H. rewrite set_guard in H.
  destruct (blocked (k :: r) (Some (Obj (snap_map (tx_pristine t) s)))); [discriminate|].
  destruct (patch_config (k :: r) (Some (Patch (snap_changes t s))) v) as [[?|m']|] eqn:Pc; try discriminate.
  injection H as <-. destruct (patch_commit _ (Some (Patch (snap_changes t s))) _ _ (wf_snap_changes t rt s R) Wv Pc) as [Wm' Hc].
  exists m'. repeat split; [discriminate|exact Wm'|]. intros l Wl. exact (Hc (Some (Obj l)) Wl).
Qed.

(* traversal through a scalar (of the configuration at transaction start, or of the transaction's own view) is
   rejected; nothing else is *)
Theorem set_fails_iff : forall t s ks v, tx_ok t -> ks <> [] ->
  (tx_set t s ks v = None <->
   blocked ks (Some (Obj (snap_map (tx_pristine t) s))) = true \/ blocked ks (Some (Obj (raw_view t s))) = true).
Proof.
  intros t s ks v [rt R] NE. destruct ks as [|k r]; [congruence|]. unfold tx_set. rewrite set_guard.
  destruct (blocked (k :: r) (Some (Obj (snap_map (tx_pristine t) s)))) eqn:Bp; [split; auto|].
  assert (Wsm : wf_opt (Some (Obj (snap_map (tx_pristine t) s)))) by (apply wf_snap_map; exact (rel_wfp _ _ R)).
  pose proof (patch_blocked (k :: r) (Some (Patch (snap_changes t s))) v _ (wf_snap_changes t rt s R) Wsm Bp
                            ltac:(discriminate)) as K2.
  cbn [eff] in K2. rewrite commit_patch_obj in K2. fold (raw_view t s) in K2. rewrite <- K2.
  destruct (patch_config (k :: r) (Some (Patch (snap_changes t s))) v) as [c'|] eqn:Pc; [|split; auto].
  destruct (patch_shape _ _ _ _ Pc) as [m' ->]. split; [discriminate|]. intros [H|H]; discriminate.
Qed.

Lemma sim_set : forall t rt s ks v, tx_rel t rt -> wf_tree v = true ->
  match tx_set t s ks v, r_set rt s ks v with
  | Some t', Some rt' => tx_rel t' rt'
  | None, None => True
  | _, _ => False
  end.
Proof.
  intros t rt s ks v R Wv. destruct ks as [|k r]; [exact I|].
  pose proof (set_fails_iff t s (k :: r) v (ex_intro _ rt R) ltac:(discriminate)) as FI.
  unfold r_set. rewrite <- (rel_pristine _ _ R), <- (raw_view_replay t rt s R).
  destruct (tx_set t s (k :: r) v) as [t'|] eqn:T.
  2:{ destruct FI as [FI _]. destruct (FI eq_refl) as [-> | ->]; now rewrite ?orb_true_r. }
  destruct (_ || _) eqn:B; [apply orb_true_iff, FI in B; discriminate|].
  destruct (tx_set_some _ _ _ _ _ _ R Wv T) as (m' & -> & _ & Wm' & Hc).
  constructor; cbn [tx_pristine tx_changes r_pristine r_log].
  - reflexivity.
  - exact (rel_wfp _ _ R).
  - apply sorted_aset. exact (rel_sorted _ _ R).
  - intros s' m0. rewrite lookup_aset. destruct (s' =? s); [now intros [= <-]|apply (rel_wfc _ _ R)].
  - apply Forall_app. split; [exact (rel_wfl _ _ R)|]. constructor; [|constructor]. cbn. split; [exact Wv|discriminate].
  - intros s'. unfold log_snaps. rewrite map_app, in_app_iff. fold (log_snaps (r_log rt)).
    rewrite (rel_snaps _ _ R). rewrite lookup_aset. cbn. destruct (s' =? s) eqn:E.
    + split; [discriminate|]. intros _. right. left. lia.
    + split; [intros [H|[H|[]]]; [exact H|lia]|intros H; now left].
  - intros B0 WB s'. rewrite replay_snoc, !lookup_aset. destruct (s' =? s) eqn:E; [|apply (rel_replay _ _ R B0 WB)].
    assert (s' = s) by lia; subst s'. f_equal.
    rewrite Hc by (now apply wf_snap_map).
    rewrite <- (view_eq t rt B0 s R WB). symmetry. apply tset_snapmap. discriminate.
Qed.

Lemma sim_get : forall t rt s ks, tx_rel t rt -> tx_get t s ks = r_get rt s ks.
Proof.
  intros t rt s ks R. unfold tx_get, r_get, tx_view, r_view, purge_snap.
  rewrite <- (rel_pristine _ _ R). now rewrite (view_eq t rt _ s R (rel_wfp _ _ R)).
Qed.

(* snap_map c s is members (lookup s c) *)
Lemma sorted_commit_snaps : forall chs L, sorted (map fst L) = true -> sorted (map fst (commit_snaps L chs)) = true.
Proof. exact (sorted_fold_aset (fun _ m o => Obj (purge_list (apply_changes (members o) m)))). Qed.

Lemma lookup_commit_snaps : forall chs L s, sorted (map fst chs) = true ->
  lookup s (commit_snaps L chs) =
  match lookup s chs with
  | Some m => Some (Obj (purge_list (apply_changes (snap_map L s) m)))
  | None => lookup s L
  end.
Proof. exact (lookup_fold_aset (fun _ m o => Obj (purge_list (apply_changes (members o) m)))). Qed.

Lemma wf_content : forall v, wf_tree v = true -> wf_tree (Obj (content v)) = true.
Proof. intros [| z | l]; auto. Qed.

Lemma wf_purge_written : forall snaps R, wf_tree (Obj R) = true -> wf_tree (Obj (purge_written snaps R)) = true.
Proof.
  intros snaps R W. apply wf_obj in W. destruct W as [S W]. apply wf_obj. unfold purge_written. split.
  - now rewrite keys_map.
  - intros k c. rewrite lookup_map. destruct (lookup k R) as [v|] eqn:E; [|discriminate]. cbn. intros [= <-].
    specialize (W _ _ E). destruct (existsb (N.eqb k) snaps); [|exact W].
    apply wf_purge_list. now apply wf_content.
Qed.

Lemma existsb_in : forall s l, existsb (N.eqb s) l = true <-> In s l.
Proof. exact (existsb_eqb_In N.eqb N.eqb_eq). Qed.

Lemma rel_empty : forall c, wf_tree (Obj c) = true -> tx_rel (mkTx c []) (mkRtx c []).
Proof.
  intros c W. constructor; cbn; auto.
  - discriminate.
  - constructor.
  - intros s. split; [intros []|congruence].
Qed.

Lemma written_iff : forall t rt s, tx_rel t rt ->
  existsb (N.eqb s) (log_snaps (r_log rt)) = match lookup s (tx_changes t) with Some _ => true | None => false end.
Proof.
  intros t rt s R. pose proof (rel_snaps _ _ R s) as HS. destruct (existsb _ _) eqn:X.
  - apply existsb_in, HS in X. now destruct (lookup s (tx_changes t)).
  - destruct (lookup s (tx_changes t)) eqn:E; [|reflexivity]. rewrite <- X. apply existsb_in, HS. discriminate.
Qed.

Lemma commit_snaps_replay : forall t rt L, tx_rel t rt -> wf_tree (Obj L) = true ->
  commit_snaps L (tx_changes t) = purge_written (log_snaps (r_log rt)) (replay (r_log rt) L).
Proof.
  intros t rt L R W.
  assert (WR : wf_tree (Obj (replay (r_log rt) L)) = true) by (apply wf_replay; [exact (rel_wfl _ _ R)|exact W]).
  apply assoc_ext.
  - apply sorted_commit_snaps. apply wf_obj in W. tauto.
  - unfold purge_written. rewrite keys_map. apply wf_obj in WR. tauto.
  - intros s. rewrite lookup_commit_snaps by exact (rel_sorted _ _ R). unfold purge_written.
    rewrite lookup_map. cbn [fst snd]. rewrite (rel_replay _ _ R L W s), (written_iff t rt s R).
    destruct (lookup s (tx_changes t)); [reflexivity|]. now destruct (lookup s L).
Qed.

Lemma sim_commit : forall t rt L, tx_rel t rt -> wf_tree (Obj L) = true ->
  fst (tx_commit t L) = fst (r_commit rt L) /\ tx_rel (snd (tx_commit t L)) (snd (r_commit rt L)) /\
  wf_tree (Obj (fst (tx_commit t L))) = true.
Proof.
  intros t rt L R W. pose proof (commit_snaps_replay t rt L R W) as E.
  assert (WC : wf_tree (Obj (commit_snaps L (tx_changes t))) = true).
  { rewrite E. apply wf_purge_written, wf_replay; [exact (rel_wfl _ _ R)|exact W]. }
  unfold tx_commit, r_commit.
  (* an empty cache goes with an empty log *)
  destruct (tx_changes t) as [|[s0 m0] chs] eqn:EC, (r_log rt) as [|[[s1 ks1] v1] lg] eqn:EL;
    [cbn; auto|pose proof (written_iff t rt s1 R) as X|pose proof (written_iff t rt s0 R) as X|].
  1, 2: rewrite EC, EL in X; cbn in X; rewrite N.eqb_refl in X; discriminate.
  cbn [fst snd]. rewrite <- E. auto using rel_empty.
Qed.

Definition snap_at (rc : revconfig) (s r : key) : option tree :=
  match lookup s rc with Some m => lookup r m | None => None end.

Theorem save_spec : forall c rc s r s' r',
  snap_at (save_rev c rc s r) s' r' =
  match lookup s c with
  | Some sc => if (s' =? s) && (r' =? r) then Some sc else snap_at rc s' r'
  | None => snap_at rc s' r'
  end.
Proof.
  intros c rc s r s' r'. unfold save_rev, snap_at. destruct (lookup s c) as [sc|]; [|reflexivity].
  rewrite lookup_aset. destruct (s' =? s) eqn:E; [|reflexivity]. assert (s' = s) by lia; subst s'.
  rewrite lookup_aset. cbn. destruct (r' =? r); [reflexivity|]. now destruct (lookup s rc).
Qed.

Theorem restore_spec : forall c rc s r s',
  lookup s' (restore_rev c rc s r) =
  match snap_at rc s r with
  | Some sc => if s' =? s then Some sc else lookup s' c
  | None => lookup s' c
  end.
Proof.
  intros c rc s r s'. unfold restore_rev, snap_at. destruct (lookup s rc) as [m|]; [|reflexivity].
  destruct (lookup r m); [|reflexivity]. apply lookup_aset.
Qed.

Theorem discard_spec : forall rc s r s' r',
  snap_at (discard_rev rc s r) s' r' = if (s' =? s) && (r' =? r) then None else snap_at rc s' r'.
Proof.
  intros rc s r s' r'. unfold discard_rev, snap_at. destruct (lookup s rc) as [m|] eqn:E.
  - destruct (aremove r m) as [|x m'] eqn:E2.
    + rewrite lookup_aremove. destruct (s' =? s) eqn:E3; cbn; [|reflexivity].
      assert (s' = s) by lia; subst s'. rewrite E. destruct (r' =? r) eqn:E4; [reflexivity|].
      pose proof (lookup_aremove m r r') as L. rewrite E2, E4 in L. cbn in L. now rewrite <- L.
    + rewrite lookup_aset. destruct (s' =? s) eqn:E3; cbn [andb]; [|reflexivity].
      assert (s' = s) by lia; subst s'. rewrite E, <- E2. rewrite lookup_aremove. now destruct (r' =? r).
  - destruct (s' =? s) eqn:E3; cbn; [|reflexivity]. assert (s' = s) by lia; subst s'. rewrite E.
    now destruct (r' =? r).
Qed.

Theorem save_then_restore : forall c c' rc s r sc, lookup s c = Some sc ->
  lookup s (restore_rev c' (save_rev c rc s r) s r) = Some sc.
Proof.
  intros c c' rc s r sc H. rewrite restore_spec, save_spec, H, !N.eqb_refl. cbn. reflexivity.
Qed.

Definition wf_rev (rc : revconfig) : Prop := forall s r sc, snap_at rc s r = Some sc -> wf_tree sc = true.

Lemma wf_save : forall c rc s r, wf_tree (Obj c) = true -> wf_rev rc -> wf_rev (save_rev c rc s r).
Proof.
  intros c rc s r W WR s' r' sc. rewrite save_spec. destruct (lookup s c) as [sc0|] eqn:E; [|apply WR].
  destruct ((s' =? s) && (r' =? r)); [|apply WR]. intros [= <-]. eapply wf_lookup; eauto.
Qed.

Lemma wf_restore : forall c rc s r, wf_tree (Obj c) = true -> wf_rev rc -> wf_tree (Obj (restore_rev c rc s r)) = true.
Proof.
  intros c rc s r W WR. pose proof (WR s r) as H. unfold restore_rev, snap_at in *.
  destruct (lookup s rc) as [m|]; [|exact W]. destruct (lookup r m) as [sc|]; [|exact W]. apply wf_aset; [exact W|]. now apply H.
Qed.

Lemma wf_discard : forall rc s r, wf_rev rc -> wf_rev (discard_rev rc s r).
Proof.
  intros rc s r WR s' r' sc. rewrite discard_spec. destruct ((s' =? s) && (r' =? r)); [discriminate|apply WR].
Qed.

Record st_rel (st : state) (rs : rstate) : Prop := mkStRel {
  sr_cfg : st_cfg st = rs_cfg rs;
  sr_rev : st_rev st = rs_rev rs;
  sr_wf : wf_tree (Obj (st_cfg st)) = true;
  sr_wfr : wf_rev (st_rev st);
  sr_txs : Forall2 tx_rel (st_txs st) (rs_txs rs)
}.

Lemma Forall2_nth : forall {A B : Type} (Q : A -> B -> Prop) l1 l2 i, Forall2 Q l1 l2 ->
  match nth_error l1 i, nth_error l2 i with
  | Some a, Some b => Q a b
  | None, None => True
  | _, _ => False
  end.
Proof.
  intros A B Q l1 l2 i F. revert i. induction F; intros [|i]; cbn; auto. apply IHF.
Qed.

Lemma Forall2_set_nth : forall {A B : Type} (Q : A -> B -> Prop) l1 l2 i a b, Forall2 Q l1 l2 -> Q a b ->
  Forall2 Q (set_nth i a l1) (set_nth i b l2).
Proof.
  intros A B Q l1 l2 i a b F H. revert i. induction F; intros [|i]; cbn; constructor; auto.
Qed.

Lemma sim_step : forall st rs o, st_rel st rs -> wf_op o = true ->
  snd (step st o) = snd (rstep rs o) /\ st_rel (fst (step st o)) (fst (rstep rs o)).
Proof.
  intros [c rc ts] [c' rc' rts] o [Ec Er Wc Wr Ft] Wo. cbn in Ec, Er, Wc, Wr, Ft. subst c' rc'.
  assert (OK : forall c0 rc0 ts0 rts0, wf_tree (Obj c0) = true -> wf_rev rc0 -> Forall2 tx_rel ts0 rts0 ->
                st_rel (mkState c0 rc0 ts0) (mkRstate c0 rc0 rts0)) by (intros; now constructor).
  (* the transaction an operation addresses is there on both sides, related, or on neither *)
  assert (N : forall i, match nth_error ts i, nth_error rts i with
                        | Some t, Some rt => tx_rel t rt | None, None => True | _, _ => False end)
    by (intros i; apply Forall2_nth, Ft).
  destruct o as [| i s ks v | i s ks | i | s r | s r | s r]; cbn [step rstep st_cfg st_rev st_txs rs_cfg rs_rev rs_txs];
    try (specialize (N i); destruct (nth_error ts i) as [t|], (nth_error rts i) as [rt|]; try contradiction);
    (* a missing transaction, and the snapshot operations: only the snapshots can change *)
    try (split; [reflexivity|]; apply OK; auto using wf_save, wf_restore, wf_discard; fail).
  - split; [reflexivity|]. apply OK; auto. apply Forall2_app; [exact Ft|]. constructor; [now apply rel_empty|constructor].
  - pose proof (sim_set t rt s ks v N Wo) as S.
    destruct (tx_set t s ks v), (r_set rt s ks v); try contradiction; (split; [reflexivity|]); apply OK;
      auto using Forall2_set_nth.
  - now rewrite (sim_get t rt s ks N).
  - destruct (sim_commit t rt c N Wc) as (E1 & R2 & W2).
    destruct (tx_commit t c) as [c1 t'], (r_commit rt c) as [c2 rt']. cbn in *. subst c2.
    split; [reflexivity|]. apply OK; auto using Forall2_set_nth.
Qed.

Fixpoint exec (st : state) (ops : list op) : state :=
  match ops with [] => st | o :: r => exec (fst (step st o)) r end.

Lemma sim_exec : forall ops st rs, st_rel st rs -> forallb wf_op ops = true ->
  run st ops = rrun rs ops /\ exists rs', st_rel (exec st ops) rs'.
Proof.
  induction ops as [|o r IH]; intros st rs R W; [split; [reflexivity|now exists rs]|].
  cbn [forallb] in W. apply andb_prop in W. destruct W as [Wo Wr].
  destruct (sim_step st rs o R Wo) as [E1 R2]. destruct (IH _ _ R2 Wr) as [E X]. cbn [run rrun exec]. split; [|exact X].
  destruct (step st o) as [st' b]. destruct (rstep rs o) as [rs' b']. cbn in *. subst b'. now f_equal.
Qed.

Lemma rel_init : forall init, wf_tree (Obj init) = true -> st_rel (mkState init [] []) (mkRstate init [] []).
Proof. intros init W. constructor; cbn; auto. intros s r sc. discriminate. Qed.

Definition pg (g : gres) : gres :=
  match g with
  | GOk t => match purge t with Some t' => GOk t' | None => GNoOption end
  | x => x
  end.

Lemma get_node_purge : forall ks o, wf_opt o -> get_node ks (opurge o) = pg (get_node ks o).
Proof.
  intros ks o W. rewrite !get_node_walk, walk_purge by exact W.
  destruct (walk ks o) as [t| |]; cbn; [now destruct (purge t)|reflexivity..].
Qed.

Lemma pg_get_node : forall q v, wf_tree v = true -> pg (get_node q (Some v)) = get_node q (purge v).
Proof. intros q v W. symmetry. exact (get_node_purge q (Some v) W). Qed.

Lemma get_node_app : forall q q2 o, get_node (q ++ q2) o =
  match get_node q o with GOk t => get_node q2 (Some t) | GNoOption => GNoOption | x => x end.
Proof.
  induction q as [|k r IH]; intros q2 o; cbn [app get_node].
  - destruct o; [reflexivity|apply get_node_none].
  - destruct o as [[| z | l]|]; auto.
Qed.

Lemma get_ok_obj : forall q o x, q <> [] -> get_node q o = GOk x -> exists l, o = Some (Obj l).
Proof. intros [|k q] o x NE G; [congruence|]. destruct o as [[| z | l]|]; try discriminate. eauto. Qed.

Lemma get_tset_same : forall ks v o, get_node ks (Some (tset ks v o)) = GOk v.
Proof. intros. now rewrite get_node_walk, walk_tset_same. Qed.

Lemma diverge_nil_l : forall p, diverge [] p = false.
Proof. reflexivity. Qed.

Lemma get_tset_diverge : forall ks q v o, blocked ks o = false -> diverge q ks = true ->
  get_node q (Some (tset ks v o)) = get_node q o.
Proof.
  intros ks q v o B D. rewrite !get_node_walk, walk_tset_diverge; auto.
  left. rewrite blocked_walk in B. now destruct (walk ks o).
Qed.

Lemma get_tset_diverge_ok : forall ks q v o t, diverge q ks = true -> get_node q o = GOk t ->
  get_node q (Some (tset ks v o)) = GOk t.
Proof.
  intros ks q v o t D G. rewrite get_node_walk in *. rewrite walk_tset_diverge; auto.
  right. now destruct (walk q o).
Qed.

Lemma prefix_obj : forall q k2 q2 v o, exists l, get_node q (Some (tset (q ++ k2 :: q2) v o)) = GOk (Obj l).
Proof. intros. rewrite get_node_walk, walk_tset_prefix, tset_cons. cbn. eauto. Qed.

Lemma tx_get_node : forall t s ks, tx_ok t -> ks <> [] ->
  tx_get t s ks = pg (get_node ks (Some (Obj (raw_view t s)))).
Proof.
  intros t s ks OK NE. unfold tx_get, tx_view. fold (raw_view t s). rewrite get_from_node by exact NE.
  rewrite <- get_node_purge by (apply wf_raw_view; exact OK). reflexivity.
Qed.

Lemma set_raw_view : forall t s ks v t', tx_ok t -> wf_tree v = true -> tx_set t s ks v = Some t' ->
  tx_ok t' /\ ks <> [] /\ blocked ks (Some (Obj (raw_view t s))) = false /\
  Obj (raw_view t' s) = tset ks v (Some (Obj (raw_view t s))) /\
  (forall s', s' <> s -> raw_view t' s' = raw_view t s') /\ tx_pristine t' = tx_pristine t.
Proof.
  intros t s ks v t' OK Wv H. pose proof OK as [rt R].
  destruct (tx_set_some _ _ _ _ _ _ R Wv H) as (m' & E & NE & _ & Hc).
  split.
  { pose proof (sim_set t rt s ks v R Wv) as S. rewrite H in S.
    destruct (r_set rt s ks v) as [rt'|]; [now exists rt'|contradiction]. }
  split; [exact NE|]. split.
  { destruct (blocked ks (Some (Obj (raw_view t s)))) eqn:B; [|reflexivity].
    assert (X : tx_set t s ks v = None) by (apply set_fails_iff; [exact OK|exact NE|now right]). congruence. }
  subst t'. unfold raw_view, snap_changes. cbn [tx_pristine tx_changes]. split; [|split; [|reflexivity]].
  - rewrite lookup_aset_eq. apply Hc. apply wf_snap_map. exact (rel_wfp _ _ R).
  - intros s' NEs. now rewrite lookup_aset_neq.
Qed.

Theorem read_your_writes : forall t s ks v t', tx_ok t -> wf_tree v = true -> tx_set t s ks v = Some t' ->
  (forall q, tx_get t' s (ks ++ q) = get_node q (purge v)) /\
  (forall q, diverge q ks = true -> tx_get t' s q = tx_get t s q) /\
  (forall q k2 q2, ks = q ++ k2 :: q2 -> q <> [] -> exists l, tx_get t' s q = GOk (Obj l)) /\
  (forall s' q, s' <> s -> tx_get t' s' q = tx_get t s' q).
Proof.
  intros t s ks v t' OK Wv H. destruct (set_raw_view _ _ _ _ _ OK Wv H) as (OK' & NE & B & E & Eo & P').
  repeat split.
  - intros q. rewrite tx_get_node; [|exact OK'|destruct ks; [congruence|discriminate]].
    now rewrite E, get_node_app, get_tset_same, pg_get_node.
  - intros q D. assert (q <> []) by (destruct q; [discriminate|discriminate]).
    rewrite !tx_get_node by assumption. rewrite E. now rewrite get_tset_diverge.
  - intros q k2 q2 -> NQ. rewrite tx_get_node by assumption. rewrite E.
    destruct (prefix_obj q k2 q2 v (Some (Obj (raw_view t s)))) as [l ->]. cbn [pg]. rewrite purge_obj. eauto.
  - intros s' q NEs. unfold tx_get, tx_view. fold (raw_view t' s') (raw_view t s'). now rewrite Eo.
Qed.

Lemma tx_get_view : forall t s ks, ks <> [] -> tx_get t s ks = get_node ks (Some (Obj (tx_view t s))).
Proof. intros. unfold tx_get. now apply get_from_node. Qed.

Theorem null_removes : forall t s q k t', tx_ok t -> tx_set t s (q ++ [k]) Null = Some t' ->
  tx_get t' s (q ++ [k]) = GNoOption /\
  (q <> [] -> exists l, tx_get t' s q = GOk (Obj l) /\ lookup k l = None).
Proof.
  intros t s q k t' OK H.
  destruct (read_your_writes t s (q ++ [k]) Null t' OK (eq_refl : wf_tree Null = true) H) as (A & _ & C & _).
  specialize (A []). rewrite app_nil_r in A. cbn in A. split; [exact A|].
  intros NQ. destruct (C q k [] eq_refl NQ) as [l Hl]. exists l. split; [exact Hl|].
  rewrite tx_get_view in A by (destruct q; discriminate). rewrite tx_get_view in Hl by exact NQ.
  rewrite get_node_app, Hl in A. cbn in A. destruct (lookup k l); [discriminate|reflexivity].
Qed.

Definition op_tx (o : op) : option nat :=
  match o with OSet i _ _ _ | OGet i _ _ | OCommit i => Some i | _ => None end.
Definition publishes (o : op) : bool := match o with OCommit _ | ORestore _ _ => true | _ => false end.

Lemma nth_set_nth_neq : forall {A : Type} (l : list A) i j x, j <> i -> nth_error (set_nth i x l) j = nth_error l j.
Proof.
  induction l as [|y r IH]; intros i j x NE; destruct i, j; cbn; auto; try congruence; try (apply IH; congruence).
Qed.

Theorem isolation : forall st o,
  (publishes o = false -> st_cfg (fst (step st o)) = st_cfg st) /\
  (forall j t, op_tx o <> Some j -> nth_error (st_txs st) j = Some t -> nth_error (st_txs (fst (step st o))) j = Some t).
Proof.
  intros st o. split.
  - destruct o; cbn [publishes step]; try discriminate; intros _; try reflexivity;
      destruct (nth_error (st_txs st) i) as [t|]; try reflexivity.
    + now destruct (tx_set t s ks v).
  - intros j t NE N. destruct o; cbn [step op_tx] in *; try exact N.
    + cbn. rewrite nth_error_app1; [exact N|]. apply nth_error_Some. congruence.
    + destruct (nth_error (st_txs st) i) as [t0|]; [|exact N]. destruct (tx_set t0 s ks v); [|exact N].
      cbn. rewrite nth_set_nth_neq; [exact N|congruence].
    + destruct (nth_error (st_txs st) i); exact N.
    + destruct (nth_error (st_txs st) i) as [t0|]; [|exact N]. destruct (tx_commit t0 (st_cfg st)).
      cbn. rewrite nth_set_nth_neq; [exact N|congruence].
Qed.

Lemma replay_diverge_ok : forall lg B s q t,
  (forall w, In w lg -> fst (fst w) = s -> diverge q (snd (fst w)) = true) ->
  get_node q (lookup s B) = GOk t -> get_node q (lookup s (replay lg B)) = GOk t.
Proof.
  induction lg as [|w lg IH]; intros B s q t D G; [exact G|].
  rewrite replay_cons. apply IH; [intros w' Hin; apply D; now right|].
  rewrite lookup_aset. destruct (s =? fst (fst w)) eqn:E; [|exact G].
  assert (s = fst (fst w)) by lia. apply get_tset_diverge_ok; [|now subst]. apply D; [now left|congruence].
Qed.

Lemma last_write : forall lg lg1 lg2 s ks v, wf_log lg -> lg = lg1 ++ (s, ks, v) :: lg2 ->
  (forall w, In w lg2 -> fst (fst w) = s -> diverge ks (snd (fst w)) = true) ->
  wf_tree v = true /\ ks <> [] /\ existsb (N.eqb s) (log_snaps lg) = true /\
  forall B, get_node ks (lookup s (replay lg B)) = GOk v.
Proof.
  intros lg lg1 lg2 s ks v WL -> D.
  apply Forall_app in WL. destruct WL as [_ WL]. inversion WL as [|? ? [Wv NE] _]; subst.
  repeat split; [exact Wv|exact NE| |].
  - apply existsb_in. unfold log_snaps. rewrite map_app, in_app_iff. right. now left.
  - intros B. change (lg1 ++ (s, ks, v) :: lg2) with (lg1 ++ [(s, ks, v)] ++ lg2).
    rewrite app_assoc, replay_app. apply replay_diverge_ok; [exact D|].
    rewrite replay_snoc, lookup_aset_eq. apply get_tset_same.
Qed.

Lemma fst_tx_commit : forall t L, fst (tx_commit t L) = commit_snaps L (tx_changes t).
Proof. intros t L. unfold tx_commit. now destruct (tx_changes t). Qed.

Lemma lookup_committed : forall t rt L s, tx_rel t rt -> wf_tree (Obj L) = true ->
  lookup s (fst (tx_commit t L)) =
  match lookup s (replay (r_log rt) L) with
  | Some v => Some (if existsb (N.eqb s) (log_snaps (r_log rt)) then Obj (purge_list (content v)) else v)
  | None => None
  end.
Proof.
  intros t rt L s R W. rewrite fst_tx_commit, (commit_snaps_replay t rt L R W). unfold purge_written. rewrite lookup_map.
  now destruct (lookup s (replay (r_log rt) L)).
Qed.

Lemma get_committed : forall t rt L s q q2 x, tx_rel t rt -> wf_tree (Obj L) = true -> q <> [] ->
  get_node q (lookup s (replay (r_log rt) L)) = GOk x ->
  get_node (q ++ q2) (lookup s (fst (tx_commit t L))) =
  if existsb (N.eqb s) (log_snaps (r_log rt)) then pg (get_node q2 (Some x)) else get_node q2 (Some x).
Proof.
  intros t rt L s q q2 x R W NQ G. rewrite (lookup_committed t rt L s R W).
  assert (WR : wf_tree (Obj (replay (r_log rt) L)) = true) by (apply wf_replay; [exact (rel_wfl _ _ R)|exact W]).
  destruct (get_ok_obj _ _ _ NQ G) as [l E]. rewrite E in *.
  destruct (existsb (N.eqb s) (log_snaps (r_log rt))); [|now rewrite get_node_app, G].
  cbn [content]. change (Some (Obj (purge_list l))) with (opurge (Some (Obj l))).
  rewrite get_node_purge by exact (wf_lookup _ _ _ WR E). now rewrite get_node_app, G.
Qed.

Lemma commit_reads : forall t rt L s q x, tx_rel t rt -> wf_tree (Obj L) = true -> q <> [] ->
  get_node q (lookup s (replay (r_log rt) L)) = GOk x -> purge x = Some x ->
  get_node q (lookup s (fst (tx_commit t L))) = GOk x.
Proof.
  intros t rt L s q x R W NQ G P. rewrite <- (app_nil_r q) at 1. rewrite (get_committed t rt L s q [] x R W NQ G).
  cbn. rewrite P. now destruct (existsb (N.eqb s) (log_snaps (r_log rt))).
Qed.

Theorem no_lost_update : forall t1 rt1 t2 rt2 B lg1 lg1' s ks v,
  tx_rel t1 rt1 -> tx_rel t2 rt2 -> wf_tree (Obj B) = true ->
  r_log rt1 = lg1 ++ (s, ks, v) :: lg1' ->
  (forall w, In w lg1' -> fst (fst w) = s -> diverge ks (snd (fst w)) = true) ->
  (forall w, In w (r_log rt2) -> fst (fst w) = s -> diverge ks (snd (fst w)) = true) ->
  purge v = Some v ->
  get_node ks (lookup s (fst (tx_commit t2 (fst (tx_commit t1 B))))) = GOk v.
Proof.
  intros t1 rt1 t2 rt2 B lg1 lg1' s ks v R1 R2 W EL D1 D2 P.
  destruct (sim_commit t1 rt1 B R1 W) as (_ & _ & W1).
  destruct (last_write _ lg1 lg1' s ks v (rel_wfl _ _ R1) EL D1) as (_ & NE & _ & G).
  apply (commit_reads t2 rt2 _ s ks v R2 W1 NE); [|exact P]. apply replay_diverge_ok; [exact D2|].
  exact (commit_reads t1 rt1 B s ks v R1 W NE (G B) P).
Qed.

Theorem reachable_ok : forall init ops i t, wf_tree (Obj init) = true -> forallb wf_op ops = true ->
  nth_error (st_txs (exec (mkState init [] []) ops)) i = Some t ->
  tx_ok t /\ wf_tree (Obj (st_cfg (exec (mkState init [] []) ops))) = true.
Proof.
  intros init ops i t W Wo N.
  destruct (sim_exec ops _ _ (rel_init init W) Wo) as [_ [rs R]].
  split; [|exact (sr_wf _ _ R)]. pose proof (Forall2_nth _ _ _ i (sr_txs _ _ R)) as F. rewrite N in F.
  destruct (nth_error (rs_txs rs) i) as [rt|]; [|contradiction]. now exists rt.
Qed.

Lemma get_view : forall t rt s q q2 x, tx_rel t rt -> q <> [] ->
  get_node q (lookup s (replay (r_log rt) (tx_pristine t))) = GOk x ->
  tx_get t s (q ++ q2) = pg (get_node q2 (Some x)).
Proof.
  intros t rt s q q2 x R NQ G.
  rewrite tx_get_node; [|now exists rt|destruct q; [congruence|discriminate]].
  rewrite (raw_view_replay t rt s R). unfold snap_map. destruct (get_ok_obj _ _ _ NQ G) as [l E]. rewrite E in *.
  now rewrite get_node_app, G.
Qed.
