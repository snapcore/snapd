(* On models/TaskEngine.v (C02): a task in Doing has all its wait tasks Done (good), in every state reachable by a history whose
   user aborts hit unready changes only; hence every start of a do handler, fresh or re-run, saw all wait tasks Done
   (doing_prereqs_done_total). Every move keeps it (dinv_move); an abort does because of sym (good_swept). *)
From Coq Require Import List ZArith Lia.
Import ListNotations.
Require Import V.models.TaskEngine V.proofs.TaskEngineProofs V.proofs.TaskEngineReady V.proofs.TaskEngineFuel.

Definition wts (s : state) (t : nat) : list nat := t_waits (get s t).
Definition hts (s : state) (t : nat) : list nat := t_halts (get s t).

Lemma wts_graph : forall s s' t, graph s' = graph s -> wts s' t = wts s t.
Proof. intros s s' t E. apply (graph_get s s' t E). Qed.
Lemma hts_graph : forall s s' t, graph s' = graph s -> hts s' t = hts s t.
Proof. intros s s' t E. apply (graph_get s s' t E). Qed.

(* halt lists are the inverse of wait lists *)
Definition sym (s : state) : Prop :=
  forall u w, u < length (tasks s) -> In w (wts s u) -> w < length (tasks s) -> In u (hts s w).

Lemma sym_graph : forall s s', graph s' = graph s -> sym s -> sym s'.
Proof. intros s s' E H u w. rewrite (graph_len _ _ E), (wts_graph _ _ u E), (hts_graph _ _ w E). apply H. Qed.

Lemma nth_map_seq : forall (A : Type) (f : nat -> A) n i d, i < n -> nth i (map f (seq 0 n)) d = f i.
Proof.
  intros A f n i d H. rewrite nth_indep with (d' := f 0) by (rewrite map_length, seq_length; assumption).
  rewrite (map_nth f (seq 0 n) 0 i). rewrite seq_nth by assumption. reflexivity.
Qed.

Lemma init_length : forall g, length (init_tasks g) = length g.
Proof. intros. unfold init_tasks. rewrite map_length, seq_length. reflexivity. Qed.

Lemma init_nth : forall g i, i < length g ->
  nth i (init_tasks g) dummy =
  (let '(ln, ws, u) := nth i g ([], [], false) in mkTask Do Hold ln ws (halts_of g i) u 0).
Proof. intros g i H. unfold init_tasks. rewrite nth_map_seq by assumption. reflexivity. Qed.

Lemma get_init : forall g t,
  (t < length g /\ st (init_state g) t = Do /\ hts (init_state g) t = halts_of g t \/
   length g <= t /\ get (init_state g) t = dummy) /\
  t_waited (get (init_state g) t) = Hold /\ wts (init_state g) t = waits_g g t.
Proof.
  intros g t. unfold st, wts, hts, get, waits_g. cbn [tasks init_state].
  destruct (Nat.lt_ge_cases t (length g)) as [L|L].
  - rewrite init_nth by assumption. destruct (nth t g ([], [], false)) as [[a b] c]. cbn. auto.
  - rewrite nth_overflow by (rewrite init_length; assumption). rewrite (nth_overflow g) by assumption. cbn. auto.
Qed.

Lemma sym_init : forall g, sym (init_state g).
Proof.
  intros g u w Hu Hw Hlt. cbn [tasks init_state] in Hu, Hlt. rewrite init_length in *.
  destruct (get_init g u) as (_ & _ & Eu). destruct (get_init g w) as ([(_ & _ & Ew)|[F _]] & _); [|lia].
  rewrite Eu in Hw. rewrite Ew. unfold halts_of. apply filter_In. split; [apply in_seq; lia | apply memn_In; exact Hw].
Qed.

Definition good (s : state) : Prop :=
  (forall t w, st s t = Doing -> In w (wts s t) -> st s w = Done) /\
  (forall t, t_waited (get s t) <> Doing).

Lemma good_tasks_eq : forall s s', tasks s' = tasks s -> good s -> good s'.
Proof. intros s s' E [A B]. unfold good, st, wts, get in *. rewrite E. split; assumption. Qed.

Definition wrote (s s' : state) (t : nat) (nw : status) : Prop :=
  tasks s' = upd (tasks s) t (fun tk => set_st tk nw).

Lemma tasks_set_status_quiet : forall s t nw,
  tasks (set_status_quiet s t nw) = tasks s \/ wrote s (set_status_quiet s t nw) t nw.
Proof. intros; unfold set_status_quiet, wrote, with_tasks; des_if; cbn [tasks]; auto. Qed.

Lemma good_put : forall s t nw,
  good s -> st s t <> Done -> (nw = Doing -> forall w, In w (wts s t) -> st s w = Done) -> good (put s t nw).
Proof.
  intros s t nw [A B] Hsrc Hd.
  assert (W : forall u, wts (put s t nw) u = wts s u) by (intros; apply (get_put _ t_waits); reflexivity).
  assert (K : forall u w, st s u = Doing \/ u = t /\ nw = Doing -> In w (wts s u) -> st (put s t nw) w = Done).
  { intros u w Hu Hw. assert (D : st s w = Done) by (destruct Hu as [Hu|[-> Hu]]; eauto).
    rewrite st_put_other; [exact D | intros ->; congruence]. }
  split.
  - intros u w Hu Hw. rewrite W in Hw. apply (K u w); [|exact Hw].
    destruct (st_put s t nw u) as [E|[-> E]]; rewrite E in Hu; auto.
  - intros u. rewrite (get_put _ t_waited) by reflexivity. apply B.
Qed.

Lemma good_set_status : forall s t nw,
  good s -> st s t <> Done -> (nw = Doing -> forall w, In w (wts s t) -> st s w = Done) -> good (set_status s t nw).
Proof.
  intros s t nw G Hs Hd. apply (write_or_not good good_tasks_eq s t nw); auto using tasks_set_status_cases, good_put.
Qed.

Lemma good_irrel : forall s t f,
  (forall tk, t_st (f tk) = t_st tk /\ t_waits (f tk) = t_waits tk) -> (forall tk, t_waited tk <> Doing -> t_waited (f tk) <> Doing) ->
  good s -> good (with_tasks s (upd (tasks s) t f)).
Proof.
  intros s t f Hf Hw [A B]. set (s' := with_tasks s (upd (tasks s) t f)).
  assert (S : forall u, st s' u = st s u) by (intros; apply st_irrel; apply Hf).
  assert (W : forall u, wts s' u = wts s u) by (intros; unfold wts, get, s'; cbn [tasks with_tasks]; apply nth_upd_proj; apply Hf).
  split.
  - intros u w. rewrite !S, W. apply A.
  - intros u. unfold get, s'; cbn [tasks with_tasks].
    destruct (nth_upd_cases (tasks s) t f u dummy) as [E|[_ E]]; rewrite E; [|apply Hw]; apply B.
Qed.

(* a wait task of a task that an abort did not sweep was not swept either: the task is one of its halt tasks *)
Lemma unswept_wait : forall s0 s seen t w, sym s0 -> swept s0 s seen ->
  t < length (tasks s0) -> w < length (tasks s0) -> In w (wts s0 t) -> ~ In t seen -> ~ In w seen.
Proof.
  intros s0 s seen t w Hsym Sw Lt Lw Hw Nt F. apply Nt, (swept_closed _ _ _ w t Sw F), Hsym; assumption.
Qed.

(* an abort: a task still in Doing was not swept, so neither were its wait tasks *)
Lemma good_swept : forall s0 s seen, sym s0 -> good s0 -> swept s0 s seen -> good s.
Proof.
  intros s0 s seen Hsym [A B] Sw. split; [|intros t; rewrite (swept_waited _ _ _ t Sw); apply B].
  intros t w Ht Hw.
  assert (Nt : ~ In t seen).
  { intros F. apply (swept_dead _ _ _ _ Sw) in F. unfold is_live, eff_status in F. fold (st s t) in F. rewrite Ht in F. discriminate. }
  unfold st, wts in *. rewrite (swept_same _ _ _ t Sw Nt) in Ht, Hw. pose proof (A t w Ht Hw) as D.
  rewrite (swept_same _ _ _ w Sw); [exact D|].
  apply (unswept_wait s0 s seen t w Hsym Sw); auto; apply in_range_st; unfold st; [rewrite Ht | rewrite D]; discriminate.
Qed.

Definition do_entry_ok (r : start_rec) : Prop :=
  sr_undo r = false -> forallb (fun x => seqb x Done) (sr_pre r) = true.

Definition dinv (s : state) : Prop := good s /\ Forall do_entry_ok (slog s).

Lemma dinv_set_status : forall s t nw,
  dinv s -> st s t <> Done -> (nw = Doing -> forall w, In w (wts s t) -> st s w = Done) -> dinv (set_status s t nw).
Proof. intros s t nw [G L] A B. split; [apply good_set_status; assumption | rewrite slog_set_status; assumption]. Qed.

Lemma dinv_try_undo : forall s t, dinv s -> st s t = Abort -> dinv (try_undo s t).
Proof. intros s t D E. unfold try_undo. des_if; apply dinv_set_status; auto; try discriminate; rewrite E; discriminate. Qed.

Lemma dinv_run : forall s t, dinv s -> pending (st s t) = true -> must_wait s t = false -> dinv (run s t).
Proof.
  intros s t [G L] Hp Hm.
  assert (Hpre : st s t = Do \/ st s t = Doing -> forall w, In w (wts s t) -> st s w = Done).
  { intros [Hs|Hs]; [exact (proj1 (must_wait_do_iff s t Hs) Hm) | intros w Hw; eapply (proj1 G); eauto]. }
  assert (D1 : dinv (run_write s t)).
  { unfold run_write. destruct (st s t) eqn:Es; try (split; assumption);
      (apply dinv_set_status; [split; assumption | rewrite Es; discriminate |]); [auto | discriminate]. }
  destruct D1 as [G1 L1]. rewrite run_eq. split.
  - apply (good_irrel (run_write s t)); auto.
  - cbn [launch slog with_slog with_running with_tasks]. constructor; [|assumption].
    unfold do_entry_ok, run_rec; cbn [sr_undo sr_pre].
    destruct (st s t) eqn:Es; intros F; try discriminate F; try discriminate Hp;
      apply forallb_map_st; intros w Hw; apply seqb_eq; auto.
Qed.

Lemma dinv_move : forall s e s', move s e s' -> inv s -> sym s -> dinv s -> dinv s'.
Proof.
  intros s e s' M I Hsym D. destruct M.
  - apply dinv_try_undo; assumption.
  - apply dinv_set_status; [assumption | rewrite H0; discriminate | discriminate].
  - apply dinv_run; assumption.
  - apply (dinv_set_status (remove_running s t)); [assumption | | intros ->].
    + change (st (remove_running s t) t) with (st s t). destruct (st s t); discriminate.
    + destruct (st s t); discriminate.
  - exact D.
  - apply (dinv_try_undo (remove_running s t)); assumption.
  - destruct D as [G L]. split; [apply (good_irrel (remove_running s t)); auto | exact L].
  - rewrite set_to_wait_eq by assumption. destruct D as [G L]. split; [|rewrite slog_change_st; exact L].
    set (s2 := with_tasks _ _).
    assert (G2 : good s2) by (apply (good_irrel (remove_running s t)); auto; intros tk _; destruct u; discriminate).
    apply (write_or_not good good_tasks_eq s2 t Wait); [apply tasks_change_st_cases | exact G2|].
    apply good_put; [exact G2 | | discriminate].
    unfold s2. rewrite st_irrel by reflexivity. intros F. pose proof (i_run s I t H0) as U.
    change (st (remove_running s t) t) with (st s t) in F. rewrite F in U. discriminate.
  - destruct (inv_reap s t I) as [I0 _].
    destruct (inv_abort_lanes_top _ t (lanes_of (get s t)) I0 (i_run s I t H0)) as (_ & U1 & _).
    destruct (abort_lanes_top_swept (remove_running s t) (lanes_of (get s t))) as (seen & Sw & _).
    destruct D as [G L]. apply dinv_set_status; [split | intros F; rewrite F in U1; discriminate | discriminate].
    + exact (good_swept _ _ _ Hsym G Sw).
    + rewrite slog_abort_lanes_top. exact L.
  - destruct (abort_change_swept s) as (seen & Sw & _). destruct D as [G L].
    split; [exact (good_swept _ _ _ Hsym G Sw) | rewrite slog_abort_change; exact L].
  - exact D.
  - apply dinv_set_status; [assumption | rewrite H0; discriminate|].
    intros F. exfalso. exact (proj2 (proj1 D) t F).
Qed.

Lemma good_init : forall g, good (init_state g).
Proof.
  intros g. split; intros t; destruct (get_init g t) as (C & Wd & _).
  - intros w Ht. destruct C as [(_ & E & _)|[_ E]]; [|unfold st in Ht]; rewrite E in Ht; discriminate Ht.
  - rewrite Wd. discriminate.
Qed.

(* C02, do side, every start: in every history (user aborts on unready changes only) every task in Doing has all its
   wait tasks Done, and every start of a do handler - fresh or re-run after Retry - saw all wait tasks Done *)
Theorem doing_prereqs_done_total : forall (g : list tdesc) (es : list event),
  g <> [] -> guarded (init_state g) es ->
  let s := run_events (init_state g) es in
  (forall t w, st s t = Doing -> In w (t_waits (get s t)) -> st s w = Done) /\
  Forall (fun r : start_rec => sr_undo r = false -> forallb (fun x => seqb x Done) (sr_pre r) = true) (slog s).
Proof.
  intros g es Hg Hgd s.
  destruct (guarded_moves_ind (fun x => sym x /\ dinv x)) with (es := es) (s := init_state g) as [_ [[A _] L]];
    auto using inv_init, sym_init, good_init.
  - intros x e x' M I [Sy D]. split; [apply (sym_graph x); [eapply graph_move; eauto | assumption] | eapply dinv_move; eauto].
  - split; [apply sym_init | split; [apply good_init | constructor]].
Qed.
