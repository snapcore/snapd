(* C33: the model of strutil.VersionCompare agrees with the model of dpkg's verrevcmp (models/Version.v) on all structurally
   valid Debian versions made of real non-NUL bytes (version_compare_matches_dpkg). A simulation between the fragment loop of
   compareSubversion and the character loop of verrevcmp: order_iso (the two character orders sort every pair of symbols alike
   except (digit, END), from the 256 entries of gen/ChOrder.v), str_phase and num_phase (a string step of snapd is the first
   half of a verrevcmp round, a numeric step the second), sim_all. *)
From Coq Require Import List NArith ZArith Bool Lia ZifyBool ZifyNat ZifyN.
Import ListNotations.
Require Import V.lib.Bytes V.proofs.BytesFacts V.proofs.ListFacts V.gen.ChOrder V.models.Version V.proofs.VersionProofs V.proofs.VersionOrder.
Open Scope Z_scope.

Lemma sgn_spec : forall z, (z < 0 /\ sgn z = -1) \/ (z = 0 /\ sgn z = 0) \/ (z > 0 /\ sgn z = 1).
Proof. intros z. unfold sgn. destruct (Z.ltb_spec z 0); [lia|]. destruct (Z.gtb_spec z 0); lia. Qed.

(* dpkg's order of a symbol; the symbol 0 stands for END (end of string, which dpkg orders like a digit) *)
Definition sd (c : N) : Z := dpkg_order (if (c =? 0)%N then None else Some c).

Definition pair_fact (x y : N) : bool :=
  (is_digit x && (y =? 0)%N) || ((x =? 0)%N && is_digit y) ||
  (sgn (ch_order x - ch_order y) =? sgn (sd x - sd y)).

(* chOrder is dpkg's order() except at two symbols: END/padding (-5 against 0) and '~' (-10 against -1) *)
Definition sym_fact (c : N) : bool :=
  ch_order c =? (if (c =? 0)%N then -5 else if (c =? 126)%N then -10 else sd c).

Lemma sym_facts_all : forallb (fun n => sym_fact (N.of_nat n)) (seq 0 256) = true.
Proof. vm_compute. reflexivity. Qed.

Lemma sym_classes : forall c, (c < 256)%N ->
  (c = 0%N /\ ch_order c = -5 /\ sd c = 0) \/
  (c = 126%N /\ ch_order c = -10 /\ sd c = -1) \/
  (is_digit c = true /\ ch_order c = 0 /\ sd c = 0) \/
  (c <> 0%N /\ is_digit c = false /\ ch_order c = sd c /\ 0 < sd c).
Proof.
  intros c Hc. pose proof (all_bytes sym_fact sym_facts_all c Hc) as H. unfold sym_fact in H.
  apply Z.eqb_eq in H. rewrite H. unfold sd, dpkg_order.
  destruct (N.eqb_spec c 0) as [->|N0]; [left; auto|].
  destruct (is_digit c) eqn:D; [right; right; left; destruct (N.eqb_spec c 126); [unfold is_digit in D; lia|auto]|].
  destruct (N.eqb_spec c 126) as [->|N1]; [right; left; auto|].
  right; right; right. destruct (is_alpha c) eqn:A; [unfold is_alpha, is_lower, is_upper in A|]; repeat split; auto; lia.
Qed.

(* the two orders sort every pair alike, except END against a digit (before it for snapd, equal for dpkg) *)
Lemma pair_fact_ok : forall x y, (x < 256)%N -> (y < 256)%N -> pair_fact x y = true.
Proof.
  intros x y Hx Hy. unfold pair_fact.
  pose proof (sgn_spec (ch_order x - ch_order y)) as S1. pose proof (sgn_spec (sd x - sd y)) as S2.
  destruct (sym_classes x Hx) as [X|[X|[X|X]]], (sym_classes y Hy) as [Y|[Y|[Y|Y]]]; lia.
Qed.

Lemma pair_facts_all :
  forallb (fun i => forallb (fun j => pair_fact (N.of_nat i) (N.of_nat j)) (seq 0 256)) (seq 0 256) = true.
Proof.
  apply forallb_forall. intros i Hi. apply forallb_forall. intros j Hj.
  apply in_seq in Hi, Hj. apply pair_fact_ok; lia.
Qed.

Lemma order_iso : forall x y, (x < 256)%N -> (y < 256)%N ->
  is_digit x && (y =? 0)%N = false -> (x =? 0)%N && is_digit y = false ->
  sgn (ch_order x - ch_order y) = sgn (sd x - sd y).
Proof.
  intros x y Hx Hy E1 E2. pose proof (pair_fact_ok x y Hx Hy) as H. unfold pair_fact in H.
  rewrite E1, E2 in H. cbn [orb] in H. apply Z.eqb_eq in H. exact H.
Qed.

Lemma cmp1_sgn : forall x y k,
  cmp1 x y k = if sgn (ch_order x - ch_order y) =? 0 then k else sgn (ch_order x - ch_order y).
Proof.
  intros x y k. unfold cmp1. pose proof (sgn_spec (ch_order x - ch_order y)) as S.
  destruct (Z.ltb_spec (ch_order x) (ch_order y)), (Z.gtb_spec (ch_order x) (ch_order y)),
           (Z.eqb_spec (sgn (ch_order x - ch_order y)) 0); lia.
Qed.

Lemma zeqb_sub : forall a b, (a =? b) = (a - b =? 0).
Proof. intros a b. destruct (Z.eqb_spec a b), (Z.eqb_spec (a - b) 0); lia. Qed.

Lemma cmp1_dec : forall x y k d, sgn (ch_order x - ch_order y) = sgn d ->
  ((d =? 0) = true /\ ch_order x = ch_order y /\ cmp1 x y k = k) \/
  ((d =? 0) = false /\ ch_order x <> ch_order y /\ cmp1 x y k = sgn d /\ cmp1 x y k <> 0).
Proof.
  intros x y k d I. rewrite cmp1_sgn. pose proof (sgn_spec (ch_order x - ch_order y)) as S1. pose proof (sgn_spec d) as S2.
  destruct (Z.eqb_spec (sgn (ch_order x - ch_order y)) 0), (Z.eqb_spec d 0); [left|lia|lia|right]; repeat split; lia.
Qed.

Lemma ok_cons : forall c l, ok (c :: l) = true -> okb c = true /\ ok l = true.
Proof. intros c l H. cbn in H. apply andb_prop in H. exact H. Qed.

Lemma okb_range : forall c, okb c = true -> (0 < c < 256)%N.
Proof. intros c H. unfold okb in H. lia. Qed.

Lemma hd0_lt : forall l, ok l = true -> (hd0 l < 256)%N.
Proof. intros [|c l] H; [cbn; lia|]. apply ok_cons in H. destruct H as [H _]. apply okb_range in H. cbn. lia. Qed.

Lemma hd0_nil : forall l, ok l = true -> (hd0 l =? 0)%N = is_nil l.
Proof. intros [|c l] H; [reflexivity|]. apply ok_cons in H. destruct H as [H _]. apply okb_range in H. cbn. lia. Qed.

Lemma dord_hd : forall l, ok l = true -> dpkg_order (hd_error l) = sd (hd0 l).
Proof.
  intros [|c l] H; [reflexivity|]. apply ok_cons in H. destruct H as [H _]. apply okb_range in H.
  cbn [hd_error hd0 hd]. unfold sd. destruct (N.eqb_spec c 0); [lia|reflexivity].
Qed.

Definition hd_digit (l : bytes) : bool := match l with c :: _ => is_digit c | [] => false end.

Lemma hd_digit_hd0 : forall l, hd_digit l = is_digit (hd0 l).
Proof. intros [|c l]; reflexivity. Qed.

(* the first position is outside the excepted pair: not (one side empty, the other starting with a digit) *)
Definition first_ok (va vb : bytes) : bool :=
  negb (is_nil va && hd_digit vb) && negb (is_nil vb && hd_digit va).

Lemma head_decided : forall F va vb, ok va = true -> ok vb = true ->
  hd_nondigit va || hd_nondigit vb = true -> first_ok va vb = true ->
  hord va <> hord vb ->
  let d := sd (hd0 va) - sd (hd0 vb) in
  dpkg_nondigit (S F) va vb = Some (inl d) /\ sgn d = cmp_string va vb /\ cmp_string va vb <> 0.
Proof.
  intros F va vb Ka Kb Hn Hf Hne d. cbn [dpkg_nondigit]. rewrite Hn.
  rewrite (dord_hd _ Ka), (dord_hd _ Kb).
  unfold first_ok in Hf. rewrite !hd_digit_hd0, <- (hd0_nil _ Ka), <- (hd0_nil _ Kb) in Hf.
  apply andb_prop in Hf. destruct Hf as [H1 H2]. apply negb_true_iff in H1, H2.
  assert (I : sgn (ch_order (hd0 va) - ch_order (hd0 vb)) = sgn d).
  { apply order_iso; [apply hd0_lt; exact Ka|apply hd0_lt; exact Kb| |].
    - rewrite andb_comm. exact H2.
    - exact H1. }
  rewrite zeqb_sub. rewrite (cs_unfold va vb). fold d.
  destruct (cmp1_dec _ _ (cmp_string (tl va) (tl vb)) _ I) as [(D & E & _)|(D & _ & E & N)].
  - exfalso. apply Hne. exact E.
  - rewrite D. cbn [negb]. split; [reflexivity|]. split; [symmetry; exact E|exact N].
Qed.

Definition ndb (c : N) : bool := okb c && negb (is_digit c).
Definition nd (a : bytes) : bool := forallb ndb a.

Lemma nd_ok : forall a, nd a = true -> ok a = true.
Proof.
  induction a as [|x a IH]; intros H; [reflexivity|]. cbn in H. apply andb_prop in H. destruct H as [Hx Ha].
  unfold ndb in Hx. apply andb_prop in Hx. cbn. rewrite (proj1 Hx). apply IH. exact Ha.
Qed.

Lemma nd_cons : forall x a, nd (x :: a) = true -> okb x = true /\ is_digit x = false /\ nd a = true.
Proof.
  intros x a H. cbn in H. apply andb_prop in H. destruct H as [Hx Ha]. unfold ndb in Hx. apply andb_prop in Hx.
  destruct Hx as [H1 H2]. destruct (is_digit x); [discriminate|]. auto.
Qed.

Lemma hdnd_num : forall r, ph_num r = true -> hd_nondigit r = false.
Proof. intros [|c r] H; [reflexivity|]. cbn in *. rewrite H. reflexivity. Qed.

Lemma dord_num : forall r, ph_num r = true -> dpkg_order (hd_error r) = 0.
Proof. intros [|c r] H; [reflexivity|]. cbn in *. rewrite H. reflexivity. Qed.

Lemma nondigit_symbol : forall x, okb x = true -> is_digit x = false ->
  ch_order x <> -5 /\ sd x = dpkg_order (Some x) /\ (x < 256)%N /\ (x =? 0)%N = false.
Proof.
  intros x Kx Dx. destruct (order_nondigit x Kx Dx) as [A B]. apply okb_range in Kx.
  assert (E : (x =? 0)%N = false) by lia.
  repeat split; try assumption; [|lia]. unfold sd. rewrite E. reflexivity.
Qed.

(* what the two loops read at the head of a non-digit fragment a followed by a rest that starts with a digit or is empty:
   dpkg's first loop the order of hd0 a (END when a is used up, the rest's digit counting as END), cmpString the byte hd0 a *)
Lemma nd_head : forall a ra, nd a = true -> ph_num ra = true ->
  hd_nondigit (a ++ ra) = negb (is_nil a) /\ dpkg_order (hd_error (a ++ ra)) = sd (hd0 a) /\
  (hd0 a < 256)%N /\ is_digit (hd0 a) = false /\ (is_nil a = false -> hord a <> -5).
Proof.
  intros [|x a] ra Na Pa.
  - cbn [app]. rewrite (hdnd_num _ Pa), (dord_num _ Pa). repeat split; try reflexivity. discriminate.
  - destruct (nd_cons _ _ Na) as (Kx & Dx & _). destruct (nondigit_symbol x Kx Dx) as (X5 & Xs & Xr & _).
    cbn [app hd_nondigit hd_error hd0 hd is_nil negb]. rewrite Dx, Xs. repeat split; try reflexivity; [exact Xr|intros _; exact X5].
Qed.

Lemma str_phase : forall F a b ra rb, nd a = true -> nd b = true -> ph_num ra = true -> ph_num rb = true ->
  (length a < F)%nat -> (length b < F)%nat ->
  (cmp_string a b = 0 /\ dpkg_nondigit F (a ++ ra) (b ++ rb) = Some (inr (ra, rb))) \/
  (exists d, dpkg_nondigit F (a ++ ra) (b ++ rb) = Some (inl d) /\ sgn d = cmp_string a b /\ cmp_string a b <> 0).
Proof.
  induction F as [|F IH]; intros a b ra rb Na Nb Pa Pb La Lb; [inversion La|].
  destruct (nd_head a ra Na Pa) as (Ha & Oa & Ra & Da & Ea), (nd_head b rb Nb Pb) as (Hb & Ob & Rb & Db & Eb).
  cbn [dpkg_nondigit]. rewrite Ha, Hb, Oa, Ob.
  destruct (negb (is_nil a) || negb (is_nil b)) eqn:NN; [|destruct a, b; try discriminate NN; left; split; reflexivity].
  assert (I : sgn (ch_order (hd0 a) - ch_order (hd0 b)) = sgn (sd (hd0 a) - sd (hd0 b))).
  { apply order_iso; [exact Ra|exact Rb|rewrite Da; reflexivity|rewrite Db; apply andb_false_r]. }
  rewrite zeqb_sub, (cs_unfold a b).
  destruct (cmp1_dec _ _ (cmp_string (tl a) (tl b)) _ I) as [(D & E & K)|(D & _ & E & N)]; rewrite D; cbn [negb].
  - (* equal orders: neither fragment is used up, END being below every non-digit; go on with the tails *)
    rewrite K. fold (hord a) (hord b) in E. destruct a as [|x a], b as [|y b]; try discriminate NN.
    + elim (Eb eq_refl). rewrite <- E. reflexivity.
    + elim (Ea eq_refl). rewrite E. reflexivity.
    + cbn [tl app]. apply IH; [apply (nd_cons _ _ Na)|apply (nd_cons _ _ Nb)|exact Pa|exact Pb|apply Nat.succ_lt_mono, La|apply Nat.succ_lt_mono, Lb].
  - right. eexists. split; [reflexivity|]. split; [symmetry; exact E|exact N].
Qed.

Definition dg (a : bytes) : bool := forallb is_digit a.

Lemma trim_unfold : forall c r, trim_zeroes (c :: r) = if (c =? 48)%N then trim_zeroes r else c :: r.
Proof.
  intros c r. destruct (N.eqb_spec c 48) as [E|E]; [subst; reflexivity|].
  destruct c as [|p]; [reflexivity|].
  do 6 (destruct p as [p|p|]; try reflexivity). exfalso. apply E. reflexivity.
Qed.

Lemma trim_app : forall a r, ph_str r = true -> trim_zeroes (a ++ r) = trim_zeroes a ++ r.
Proof.
  induction a as [|x a IH]; intros r P.
  - cbn [app]. destruct r as [|c r]; [reflexivity|]. rewrite trim_unfold. cbn in P.
    destruct (N.eqb_spec c 48) as [E|E]; [subst; discriminate|reflexivity].
  - cbn [app]. rewrite !trim_unfold. destruct (x =? 48)%N; [apply IH; exact P|reflexivity].
Qed.

Lemma dg_trim : forall a, dg a = true -> dg (trim_zeroes a) = true.
Proof.
  induction a as [|x a IH]; intros H; [reflexivity|]. rewrite trim_unfold. destruct (x =? 48)%N; [|exact H].
  apply IH. cbn in H. apply andb_prop in H. apply H.
Qed.

(* the first difference remembered by dpkg's digit loop *)
Fixpoint fdiff (a b : bytes) (fd : Z) : Z :=
  match a, b with
  | x :: a', y :: b' => fdiff a' b' (if fd =? 0 then Z.of_N x - Z.of_N y else fd)
  | _, _ => fd
  end.

Lemma digits_step : forall a b fd, dpkg_digits a b fd =
  match hd_digit a, hd_digit b with
  | true, true => dpkg_digits (tl a) (tl b) (if fd =? 0 then Z.of_N (hd0 a) - Z.of_N (hd0 b) else fd)
  | true, false => inl 1
  | false, true => inl (-1)
  | false, false => if fd =? 0 then inr (a, b) else inl fd
  end.
Proof.
  intros [|x a] [|y b] fd; cbn [dpkg_digits hd_digit tl hd0 hd];
    try destruct (is_digit x); try destruct (is_digit y); destruct (fd =? 0); reflexivity.
Qed.

Lemma dg_head : forall a r, dg a = true -> ph_str r = true -> hd_digit (a ++ r) = negb (is_nil a).
Proof.
  intros [|x a] r D P; [|cbn in D; apply andb_prop in D; apply D].
  destruct r; [reflexivity|]. cbn in P. apply negb_true_iff in P. exact P.
Qed.

Lemma digits_walk : forall a b ra rb fd, dg a = true -> dg b = true -> ph_str ra = true -> ph_str rb = true ->
  dpkg_digits (a ++ ra) (b ++ rb) fd =
    match Nat.compare (length a) (length b) with
    | Lt => inl (-1)
    | Gt => inl 1
    | Eq => if fdiff a b fd =? 0 then inr (ra, rb) else inl (fdiff a b fd)
    end.
Proof.
  induction a as [|x a IH]; intros b ra rb fd Da Db Pa Pb;
    rewrite digits_step, (dg_head _ _ Da Pa), (dg_head _ _ Db Pb); destruct b as [|y b]; try reflexivity.
  cbn in Da, Db. apply andb_prop in Da, Db.
  cbn [app tl hd0 hd length Nat.compare fdiff is_nil negb]. apply IH; tauto.
Qed.

Lemma fdiff_sgn : forall a b fd, length a = length b ->
  sgn (fdiff a b fd) = if fd =? 0 then cmp_bytes_num a b else sgn fd.
Proof.
  induction a as [|x a IH]; intros [|y b] fd L; try discriminate.
  - cbn. destruct (Z.eqb_spec fd 0); [subst; reflexivity|reflexivity].
  - cbn [fdiff cmp_bytes_num]. rewrite IH by (cbn in L; lia).
    destruct (Z.eqb_spec fd 0) as [E|E].
    + destruct (N.ltb_spec y x), (N.ltb_spec x y); try lia.
      * destruct (Z.eqb_spec (Z.of_N x - Z.of_N y) 0); [lia|]. pose proof (sgn_spec (Z.of_N x - Z.of_N y)). lia.
      * destruct (Z.eqb_spec (Z.of_N x - Z.of_N y) 0); [lia|]. pose proof (sgn_spec (Z.of_N x - Z.of_N y)). lia.
      * destruct (Z.eqb_spec (Z.of_N x - Z.of_N y) 0); [reflexivity|lia].
    + destruct (Z.eqb_spec fd 0); [lia|reflexivity].
Qed.

Lemma cmp_numeric_length : forall a b, cmp_numeric a b =
  match Nat.compare (length (trim_zeroes a)) (length (trim_zeroes b)) with
  | Lt => -1
  | Gt => 1
  | Eq => cmp_bytes_num (trim_zeroes a) (trim_zeroes b)
  end.
Proof.
  intros a b. unfold cmp_numeric.
  destruct (Nat.compare_spec (length (trim_zeroes a)) (length (trim_zeroes b))),
    (Z.gtb_spec (Z.of_nat (length (trim_zeroes a))) (Z.of_nat (length (trim_zeroes b)))),
    (Z.ltb_spec (Z.of_nat (length (trim_zeroes a))) (Z.of_nat (length (trim_zeroes b)))); lia || reflexivity.
Qed.

Lemma num_phase : forall a b ra rb, dg a = true -> dg b = true -> ph_str ra = true -> ph_str rb = true ->
  (cmp_numeric a b = 0 /\ dpkg_digits (trim_zeroes (a ++ ra)) (trim_zeroes (b ++ rb)) 0 = inr (ra, rb)) \/
  (exists d, dpkg_digits (trim_zeroes (a ++ ra)) (trim_zeroes (b ++ rb)) 0 = inl d /\
             sgn d = cmp_numeric a b /\ cmp_numeric a b <> 0).
Proof.
  intros a b ra rb Da Db Pa Pb. rewrite (trim_app _ _ Pa), (trim_app _ _ Pb).
  rewrite (digits_walk _ _ _ _ 0 (dg_trim _ Da) (dg_trim _ Db) Pa Pb), cmp_numeric_length.
  set (ta := trim_zeroes a). set (tb := trim_zeroes b).
  destruct (Nat.compare_spec (length ta) (length tb)) as [E|L|G];
    [|right; eexists; repeat split; discriminate..].
  pose proof (fdiff_sgn ta tb 0 E) as S. cbn [Z.eqb] in S. pose proof (sgn_spec (fdiff ta tb 0)) as S2.
  destruct (Z.eqb_spec (fdiff ta tb 0) 0) as [Z|Z].
  - left. split; [lia|reflexivity].
  - right. eexists. split; [reflexivity|]. split; [exact S|lia].
Qed.

Lemma cn_zf : forall a b, cmp_numeric (zf a) (zf b) = cmp_numeric a b.
Proof. intros [|x a] [|y b]; reflexivity. Qed.

(* the second half of a verrevcmp round *)
Definition dpkg_mid (g : nat) (a1 b1 : bytes) : option Z :=
  match dpkg_digits (trim_zeroes a1) (trim_zeroes b1) 0 with
  | inl d => Some d
  | inr (a2, b2) => dpkg_verrevcmp g a2 b2
  end.

Lemma dpkg_step : forall g a b, dpkg_verrevcmp (S g) a b =
  if is_nil a && is_nil b then Some 0
  else match dpkg_nondigit (S (length a + length b)) a b with
       | None => None
       | Some (inl d) => Some d
       | Some (inr (a1, b1)) => dpkg_mid g a1 b1
       end.
Proof. reflexivity. Qed.

Definition sreg (first : bool) (va vb : bytes) : Prop :=
  (first = true /\ first_ok va vb = true) \/ (first = false /\ ph_str va = true /\ ph_str vb = true).

(* string regime (and the first position): snapd's loop against whole verrevcmp rounds *)
Definition P (f : nat) : Prop := forall first va vb r g, ok va = true -> ok vb = true -> sreg first va vb ->
  cmp_sub f first va vb = Some r -> (length va + length vb < g)%nat ->
  exists d, dpkg_verrevcmp g va vb = Some d /\ r = sgn d.

(* numeric regime: snapd's loop against a round entered at its second half *)
Definition Q (f : nat) : Prop := forall va vb r g, ok va = true -> ok vb = true -> ph_num va = true -> ph_num vb = true ->
  cmp_sub f false va vb = Some r -> (length va + length vb <= g)%nat -> (1 <= g)%nat ->
  exists d, dpkg_mid g va vb = Some d /\ r = sgn d.

(* a round in which not both fragments are missing consumes input, which pays for dpkg's fuel *)
Lemma nil_len : forall a b : bytes, is_nil a && is_nil b = false -> (1 <= length a + length b)%nat.
Proof. intros [|x a] [|y b] H; [discriminate H|cbn; lia..]. Qed.

Lemma len_rest : forall (va vb a b va' vb' : bytes) g, va = a ++ va' -> vb = b ++ vb' -> (1 <= length a + length b)%nat ->
  (length va + length vb <= g)%nat -> (length va' + length vb' < g)%nat.
Proof. intros va vb a b va' vb' g -> -> L1 L. rewrite !app_length in L. lia. Qed.

Lemma len_frags : forall (va vb a b va' vb' : bytes) g, va = a ++ va' -> vb = b ++ vb' -> (1 <= length a + length b)%nat ->
  (length va + length vb < S g)%nat ->
  (length a < S (length va + length vb))%nat /\ (length b < S (length va + length vb))%nat /\
  (length va' + length vb' <= g)%nat /\ (1 <= g)%nat.
Proof. intros va vb a b va' vb' g -> -> L1 L. rewrite !app_length in *. lia. Qed.

(* one numeric step of snapd = the second half of a round *)
Lemma Q_step : forall f, P f -> Q (S f).
Proof.
  intros f HP va vb r g Ka Kb Pa Pb H Lg G1.
  destruct (next_frag va) as [[a va'] an] eqn:Fa. destruct (next_frag vb) as [[b vb'] bn] eqn:Fb.
  destruct (frag_num _ _ _ _ Ka Pa Fa) as (Ea & Ka' & Ra & -> & Da), (frag_num _ _ _ _ Kb Pb Fb) as (Eb & Kb' & Rb & -> & Db).
  destruct (cmp_sub_cases f false _ _ _ _ _ _ _ _ Fa Fb) as [[-> ->]|[N X]].
  - rewrite cmp_sub_nil_nil in H. injection H as <-. destruct g as [|g]; [inversion G1|]. exists 0. split; reflexivity.
  - rewrite X, (pos_num_eq _ _ N), cn_zf in H.
    pose proof (len_rest va vb a b va' vb' g Ea Eb (nil_len _ _ N) Lg) as L. unfold dpkg_mid. rewrite Ea, Eb.
    destruct (num_phase a b va' vb' Da Db Ra Rb) as [[Z D]|(d & D & S1 & NZ)]; rewrite D.
    + rewrite Z in H. apply (HP false va' vb' r g Ka' Kb'); [right; auto|exact H|exact L].
    + destruct (Z.eqb_spec (cmp_numeric a b) 0); [contradiction|]. injection H as <-.
      exists d. split; [reflexivity|]. symmetry. exact S1.
Qed.

(* a string step of snapd = the first half of a round; then the numeric regime *)
Lemma str_case : forall f g first va vb a va' an b vb' bn r, Q f -> ok va = true -> ok vb = true ->
  ph_str va = true -> ph_str vb = true -> next_frag va = (a, va', an) -> next_frag vb = (b, vb', bn) ->
  is_nil va && is_nil vb = false -> is_nil a && is_nil b = false ->
  (if pos_cmp first a an b bn =? 0 then cmp_sub f false va' vb' else Some (pos_cmp first a an b bn)) = Some r ->
  (length va + length vb < S g)%nat ->
  exists d, dpkg_verrevcmp (S g) va vb = Some d /\ r = sgn d.
Proof.
  intros f g first va vb a va' an b vb' bn r HQ Ka Kb Pa Pb Fa Fb Nv N H Lg. rewrite dpkg_step, Nv.
  destruct (frag_str _ _ _ _ Ka Pa Fa) as (Ea & Ka' & Ra & -> & Oa & Da), (frag_str _ _ _ _ Kb Pb Fb) as (Eb & Kb' & Rb & -> & Ob & Db).
  rewrite pos_str_eq in H.
  destruct (len_frags va vb a b va' vb' g Ea Eb (nil_len _ _ N) Lg) as (La & Lb & L2 & L3).
  destruct (str_phase _ a b va' vb' (forallb_and _ _ _ Oa Da) (forallb_and _ _ _ Ob Db) Ra Rb La Lb)
    as [[Z D]|(d & D & S1 & NZ)]; rewrite <- Ea, <- Eb in D; rewrite D.
  - rewrite Z in H. apply (HQ va' vb' r g Ka' Kb' Ra Rb H L2 L3).
  - destruct (Z.eqb_spec (cmp_string a b) 0); [contradiction|]. injection H as <-.
    exists d. split; [reflexivity|]. symmetry. exact S1.
Qed.

Lemma vkind_heads : forall t v, vkind t v ->
  is_nil v = match t with FE => true | _ => false end /\ hd_digit v = is_num t /\
  hd_nondigit v = match t with FS => true | _ => false end.
Proof.
  intros [] [|c v] H; cbn in H |- *; try discriminate H; try (destruct H; congruence); auto.
  - rewrite (proj1 H). auto.
  - destruct H as [H _]. rewrite H. apply negb_true_iff in H. auto.
Qed.

(* first position, fragments of different kinds: both sides decide at the first character *)
Lemma first_mixed : forall g va vb a an b bn ta tb o r, ok va = true -> ok vb = true -> first_ok va vb = true ->
  ftyped a an ta -> ftyped b bn tb -> hd0 a = hd0 va -> hd0 b = hd0 vb -> vkind ta va -> vkind tb vb -> ta <> tb ->
  is_nil va && is_nil vb = false ->
  (if pos_cmp true a an b bn =? 0 then o else Some (pos_cmp true a an b bn)) = Some r ->
  exists d, dpkg_verrevcmp (S g) va vb = Some d /\ r = sgn d.
Proof.
  intros g va vb a an b bn ta tb o r Ka Kb Fo Ta Tb Ha Hb Va Vb NE Nv H. rewrite dpkg_step, Nv.
  destruct (pos_first_heads _ _ _ _ _ _ Ta Tb) as (L1 & G1 & E1).
  assert (HA : hord a = hord va) by (unfold hord; rewrite Ha; reflexivity).
  assert (HB : hord b = hord vb) by (unfold hord; rewrite Hb; reflexivity).
  rewrite HA, HB in *.
  assert (Hn : hd_nondigit va || hd_nondigit vb = true).
  { destruct (vkind_heads _ _ Va) as (Na & Da & Sa), (vkind_heads _ _ Vb) as (Nb & Db & Sb).
    unfold first_ok in Fo. rewrite Na, Nb, Da, Db in Fo. rewrite Sa, Sb.
    destruct ta, tb; try reflexivity; try discriminate Fo; congruence. }
  destruct (head_decided (length va + length vb) va vb Ka Kb Hn Fo) as (D & S1 & NZ); [intros E; apply NE, E1, E|].
  rewrite D.
  assert (CS : pos_cmp true a an b bn = cmp_string va vb).
  { destruct (Z.lt_trichotomy (hord va) (hord vb)) as [L|[E|G]].
    - rewrite (L1 L). symmetry. apply cs_head_lt, L.
    - elim NE. apply E1, E.
    - apply Z.lt_gt in G. rewrite (G1 G). symmetry. apply cs_head_gt, G. }
  rewrite CS in H. destruct (Z.eqb_spec (cmp_string va vb) 0); [contradiction|]. injection H as <-.
  eexists. split; [reflexivity|]. symmetry. exact S1.
Qed.

(* a numeric first position, a missing operand written "0" on snapd's side: the first loop of the round does nothing, and
   where nothing is left dpkg's digit loop reads the number 0 as well *)
Lemma first_num : forall f va vb r g, Q (S f) -> ok va = true -> ok vb = true -> ph_num va = true -> ph_num vb = true ->
  is_nil va && is_nil vb = false -> cmp_sub (S f) true (zf va) (zf vb) = Some r -> (length va + length vb < S g)%nat ->
  exists d, dpkg_verrevcmp (S g) va vb = Some d /\ r = sgn d.
Proof.
  intros f va vb r g HQ Ka Kb Pa Pb N H Lg. rewrite (first_num_zf _ _ _ Pa Pb N) in H.
  rewrite dpkg_step, N. cbn [dpkg_nondigit]. rewrite (hdnd_num _ Pa), (hdnd_num _ Pb). cbn [orb].
  apply (HQ va vb r g Ka Kb Pa Pb H); [lia|]. apply nil_len in N. lia.
Qed.

Lemma P_step : forall f, Q f -> Q (S f) -> P (S f).
Proof.
  intros f HQ HQS first va vb r g Ka Kb Hreg H Lg.
  destruct g as [|g]; [inversion Lg|].
  destruct (next_frag va) as [[a va'] an] eqn:Fa. destruct (next_frag vb) as [[b vb'] bn] eqn:Fb.
  destruct (cmp_sub_cases f first _ _ _ _ _ _ _ _ Fa Fb) as [[-> ->]|[N X]].
  { rewrite cmp_sub_nil_nil in H. injection H as <-. exists 0. split; reflexivity. }
  assert (Nv : is_nil va && is_nil vb = false).
  { destruct (next_frag_spec _ _ _ _ Fa) as (-> & _), (next_frag_spec _ _ _ _ Fb) as (-> & _).
    destruct a, b; try discriminate N; cbn; rewrite ?andb_false_r; reflexivity. }
  destruct Hreg as [[-> Fo]|(-> & Pa & Pb)].
  - destruct (frag_first _ _ _ _ Ka Fa) as (ta & Ta & Ha & Va), (frag_first _ _ _ _ Kb Fb) as (tb & Tb & Hb & Vb).
    destruct ta, tb;
      try (rewrite X in H; refine (first_mixed g va vb a an b bn _ _ _ r Ka Kb Fo Ta Tb Ha Hb Va Vb _ Nv H); discriminate).
    + rewrite (ftyped_nil _ _ _ Ta), (ftyped_nil _ _ _ Tb) in N. discriminate.
    + destruct Va as [Pa Na], Vb as [Pb Nb]. destruct va, vb; try congruence.
      apply (first_num f _ _ r g HQS Ka Kb Pa Pb Nv H Lg).
    + rewrite X in H. apply (str_case f g true va vb a va' an b vb' bn r HQ Ka Kb (proj1 Va) (proj1 Vb) Fa Fb Nv N H Lg).
  - rewrite X in H. apply (str_case f g false va vb a va' an b vb' bn r HQ Ka Kb Pa Pb Fa Fb Nv N H Lg).
Qed.

Lemma sim_all : forall f, P f /\ Q f.
Proof.
  induction f as [|f [HP HQ]].
  - split.
    + intros first va vb r g _ _ _ H. discriminate H.
    + intros va vb r g _ _ _ _ H. discriminate H.
  - pose proof (Q_step f HP) as HQS. split; [apply P_step; assumption|exact HQS].
Qed.

Theorem subversion_matches_dpkg : forall va vb, ok va = true -> ok vb = true -> first_ok va vb = true ->
  exists d, compare_subversion va vb = Some (sgn d) /\ dpkg_verrevcmp (sub_fuel va vb) va vb = Some d.
Proof.
  intros va vb Ka Kb Fo. destruct (compare_subversion va vb) as [r|] eqn:C; [|exfalso; eapply compare_subversion_total; eauto].
  destruct (proj1 (sim_all (sub_fuel va vb)) true va vb r (sub_fuel va vb) Ka Kb) as (d & D & E).
  - left. split; [reflexivity|exact Fo].
  - exact C.
  - unfold sub_fuel. apply Nat.lt_succ_diag_r.
  - exists d. split; [rewrite E; reflexivity|exact D].
Qed.

Lemma first_ok_ne : forall va vb, va <> [] -> vb <> [] -> first_ok va vb = true.
Proof. intros [|x va] [|y vb] A B; try congruence. reflexivity. Qed.

Lemma ok48 : ok [48%N] = true.
Proof. reflexivity. Qed.

Lemma verrevcmp_head_decided : forall g va vb, ok va = true -> ok vb = true ->
  hd_nondigit va || hd_nondigit vb = true -> first_ok va vb = true -> hord va <> hord vb ->
  dpkg_verrevcmp (S g) va vb = Some (sd (hd0 va) - sd (hd0 vb)).
Proof.
  intros g va vb Ka Kb Hn Hf Hne. rewrite dpkg_step.
  destruct (head_decided (length va + length vb) va vb Ka Kb Hn Hf Hne) as (-> & _).
  destruct va, vb; reflexivity.
Qed.

Lemma nondigit_head : forall r, ok r = true -> r <> [] -> hd_digit r = false ->
  hd_nondigit r = true /\ hord r <> -5 /\ hord r <> 0.
Proof.
  intros [|c r] K Nr Hd; [congruence|]. apply ok_cons in K. destruct K as [Kc _]. cbn in Hd.
  destruct (order_nondigit c Kc Hd) as [H0 H5]. cbn [hd_nondigit]. rewrite Hd. auto.
Qed.

Lemma rev_missing_l : forall r, ok r = true -> r <> [] ->
  exists d, compare_subversion [48%N] r = Some (sgn d) /\ dpkg_verrevcmp (sub_fuel [] r) [] r = Some d.
Proof.
  intros r K Nr. destruct (hd_digit r) eqn:Hd.
  - (* the revision starts with a digit: snapd's "0" and dpkg's missing fragment are both the number 0 *)
    destruct r as [|c r]; [congruence|].
    destruct (compare_subversion [48%N] (c :: r)) as [x|] eqn:C; [|exfalso; eapply compare_subversion_total; eauto].
    destruct (first_num _ [] (c :: r) x _ (proj2 (sim_all _)) eq_refl K eq_refl Hd eq_refl C (Nat.lt_succ_diag_r _)) as (d & D & ->).
    exists d. split; [reflexivity|exact D].
  - (* the revision starts with a non-digit: decided at the first character, digit 0 and END having the same dpkg order *)
    destruct (nondigit_head r K Nr Hd) as (Hn & H5 & H0).
    destruct (subversion_matches_dpkg [48%N] r ok48 K) as (d1 & C1 & D1); [apply first_ok_ne; [discriminate|exact Nr]|].
    exists d1. split; [exact C1|]. unfold sub_fuel in *.
    rewrite (verrevcmp_head_decided _ [48%N] r ok48 K) in D1;
      [|rewrite Hn; apply orb_true_r|apply first_ok_ne; [discriminate|exact Nr]|intros E; apply H0; symmetry; exact E].
    (* D1 and the goal differ in sd (hd0 [48]) against sd (hd0 []): both compute to 0 *)
    rewrite (verrevcmp_head_decided _ [] r eq_refl K Hn);
      [exact D1|unfold first_ok; rewrite Hd, !andb_false_r; reflexivity|intros E; apply H5; symmetry; exact E].
Qed.

Lemma rev_missing_r : forall r, ok r = true -> r <> [] ->
  exists d, compare_subversion r [48%N] = Some (sgn d) /\ dpkg_verrevcmp (sub_fuel r []) r [] = Some d.
Proof.
  intros r K Nr. destruct (hd_digit r) eqn:Hd.
  - destruct r as [|c r]; [congruence|].
    destruct (compare_subversion (c :: r) [48%N]) as [x|] eqn:C; [|exfalso; eapply compare_subversion_total; eauto].
    destruct (first_num _ (c :: r) [] x _ (proj2 (sim_all _)) K eq_refl Hd eq_refl eq_refl C (Nat.lt_succ_diag_r _)) as (d & D & ->).
    exists d. split; [reflexivity|exact D].
  - destruct (nondigit_head r K Nr Hd) as (Hn & H5 & H0).
    destruct (subversion_matches_dpkg r [48%N] K ok48) as (d1 & C1 & D1); [apply first_ok_ne; [exact Nr|discriminate]|].
    exists d1. split; [exact C1|]. unfold sub_fuel in *.
    rewrite (verrevcmp_head_decided _ r [48%N] K ok48) in D1;
      [|rewrite Hn; reflexivity|apply first_ok_ne; [exact Nr|discriminate]|exact H0].
    rewrite (verrevcmp_head_decided _ r [] K eq_refl);
      [exact D1|rewrite Hn; reflexivity|unfold first_ok; rewrite Hd, !andb_false_r; reflexivity|exact H5].
Qed.

Lemma sgn_zero : forall d, (sgn d =? 0) = (d =? 0).
Proof. intros d. pose proof (sgn_spec d). destruct (Z.eqb_spec (sgn d) 0), (Z.eqb_spec d 0); lia. Qed.

Lemma sgn_sgn : forall d, sgn (sgn d) = sgn d.
Proof. intros d. pose proof (sgn_spec d) as [[_ ->]|[[_ ->]|[_ ->]]]; reflexivity. Qed.

Lemma debian_wf_parts : forall v, debian_wf v = true ->
  match_epoch v = false /\
  match split_last 45 v with
  | Some (m, r) => m <> [] /\ r <> []
  | None => v <> []
  end.
Proof.
  intros v H. unfold debian_wf in H. apply andb_prop in H. destruct H as [H H2]. apply andb_prop in H. destruct H as [_ H1].
  split; [destruct (match_epoch v); [discriminate|reflexivity]|].
  destruct (split_last 45 v) as [[m r]|].
  - apply andb_prop in H2. destruct H2 as [A B]. split; [destruct m|destruct r]; cbn in *; congruence.
  - destruct v; cbn in *; congruence.
Qed.

Lemma both_zero_rev : compare_subversion [48%N] [48%N] = Some (sgn 0) /\ dpkg_verrevcmp (sub_fuel [] []) [] [] = Some 0.
Proof. split; reflexivity. Qed.

Theorem version_compare_matches_dpkg : forall a b, ok a = true -> ok b = true ->
  debian_wf a = true -> debian_wf b = true ->
  exists r, version_compare a b = Res r /\ dpkg_compare a b = Some r.
Proof.
  intros a b Ka Kb Wa Wb.
  destruct (debian_wf_parts _ Wa) as [Ea Sa]. destruct (debian_wf_parts _ Wb) as [Eb Sb].
  unfold version_compare, dpkg_compare, split_rev. rewrite Ea, Eb. cbn [orb].
  assert (Fin : forall ma mb ras rbs rad rbd, ok ma = true -> ok mb = true -> ma <> [] -> mb <> [] ->
    (exists d, compare_subversion ras rbs = Some (sgn d) /\ dpkg_verrevcmp (sub_fuel rad rbd) rad rbd = Some d) ->
    exists r,
      match compare_subversion ma mb with
      | Some r0 => if negb (r0 =? 0) then Res r0
                   else match compare_subversion ras rbs with Some r1 => Res r1 | None => OutOfFuel end
      | None => OutOfFuel
      end = Res r /\
      match dpkg_verrevcmp (sub_fuel ma mb) ma mb with
      | Some r0 => if negb (r0 =? 0) then Some (sgn r0)
                   else match dpkg_verrevcmp (sub_fuel rad rbd) rad rbd with Some r1 => Some (sgn r1) | None => None end
      | None => None
      end = Some r).
  { intros ma mb ras rbs rad rbd Kma Kmb Nma Nmb (d2 & C2 & D2).
    destruct (subversion_matches_dpkg ma mb Kma Kmb (first_ok_ne _ _ Nma Nmb)) as (d1 & C1 & D1).
    rewrite C1, D1, sgn_zero. destruct (d1 =? 0); cbn [negb].
    - rewrite C2, D2. exists (sgn d2). split; reflexivity.
    - exists (sgn d1). split; reflexivity. }
  destruct (split_last 45 a) as [[ma ra]|] eqn:La; destruct (split_last 45 b) as [[mb rb]|] eqn:Lb.
  - destruct (split_last_ok _ _ _ _ Ka La) as [Kma Kra]. destruct (split_last_ok _ _ _ _ Kb Lb) as [Kmb Krb].
    destruct Sa as [Nma Nra]. destruct Sb as [Nmb Nrb].
    apply Fin; try assumption. apply subversion_matches_dpkg; try assumption. apply first_ok_ne; assumption.
  - destruct (split_last_ok _ _ _ _ Ka La) as [Kma Kra]. destruct Sa as [Nma Nra].
    apply Fin; try assumption. apply rev_missing_r; assumption.
  - destruct (split_last_ok _ _ _ _ Kb Lb) as [Kmb Krb]. destruct Sb as [Nmb Nrb].
    apply Fin; try assumption. apply rev_missing_l; assumption.
  - apply Fin; try assumption. exists 0. exact both_zero_rev.
Qed.

Corollary debian_ok_all : forall a b, ok a = true -> ok b = true -> debian_ok a b = true.
Proof.
  intros a b Ka Kb. unfold debian_ok. destruct (debian_wf a) eqn:Wa; [|reflexivity]. destruct (debian_wf b) eqn:Wb; [|reflexivity].
  cbn [andb negb orb]. destruct (version_compare_matches_dpkg a b Ka Kb Wa Wb) as (r & -> & ->). apply Z.eqb_refl.
Qed.

(* debian_wf already excludes NUL; ok adds only that every element is a real byte (< 256) *)
Lemma ok_no_nul : forall v, ok v = true -> no_nul v = true.
Proof.
  induction v as [|c v IH]; intros H; [reflexivity|]. apply ok_cons in H. destruct H as [Hc Hv]. apply okb_range in Hc.
  unfold no_nul in *. cbn [forallb]. rewrite (IH Hv). destruct (N.eqb_spec c 0); [lia|reflexivity].
Qed.
