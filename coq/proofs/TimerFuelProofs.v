(* C16 — the day search of Schedule.Next terminates: a bound on the fuel of sched_next. A day after those of last and now
   on which the week spans match ends the search; a numbered week span matches on its anchor day (anchor_matches), which
   month_next_spec of proofs/TimerCalendarFacts.v places inside every month. *)
From Coq Require Import List ZArith Bool Lia ZifyBool.
Import ListNotations.
Require Import V.lib.Civil V.models.Timer V.proofs.TimerProofs V.proofs.TimerCalendarFacts.
Open Scope Z_scope.

(* keep the calendar functions folded in conversion checks *)
Strategy opaque [month_next month_next_loop civil_from_days dom_of month_of].

Lemma weekday_hit : forall D a, 0 <= a <= 6 -> weekday_of (D + (a - weekday_of D) mod 7) = a.
Proof. intros D a Ha. unfold weekday_of. Z.div_mod_to_equations. lia. Qed.

Lemma weekday_range : forall D, 0 <= weekday_of D <= 6.
Proof. intros; unfold weekday_of. pose proof (Z.mod_pos_bound (D + 4) 7). lia. Qed.

Definition wpos (ws : weekspan) : Z := if anchored_at_start ws then pos (ws_start ws) else pos (ws_end ws).
(* the day dateRangeAnchoredAt takes in D's month for weekday c at position p: the p-th such day, the last one for p = 5 *)
Definition occ (D c p : Z) : Z := if negb (p =? 5) then find_nth_weekday D c p else find_last_weekday D c.
Definition base (ws : weekspan) (D : Z) : Z * Z :=
  if negb (wpos ws =? 5)
  then (find_nth_weekday D (wday (ws_start ws)) (wpos ws), find_nth_weekday D (wday (ws_end ws)) (wpos ws))
  else (find_last_weekday D (wday (ws_start ws)), find_last_weekday D (wday (ws_end ws))).
Definition anchor (ws : weekspan) (D : Z) : Z :=
  if anchored_at_start ws then fst (base ws D) else snd (base ws D).

Lemma date_range_base : forall ws D,
  date_range ws D =
  (let se := base ws D in
   if (snd se <? fst se) || ((fst se =? snd se) && negb (is_single_day ws))
   then (if anchored_at_start ws then (fst se, snd se + 7) else (fst se - 7, snd se))
   else (fst se, snd se)).
Proof. reflexivity. Qed.

Lemma base_occ : forall ws D, base ws D = (occ D (wday (ws_start ws)) (wpos ws), occ D (wday (ws_end ws)) (wpos ws)).
Proof. intros ws D. unfold base, occ. destruct (negb (wpos ws =? 5)); reflexivity. Qed.

Lemma occ_in_month : forall D c p, 1 <= p <= 5 -> month_start D <= occ D c p < month_next D.
Proof.
  intros D c p Hp. destruct (month_next_spec D) as (_ & B & _). unfold occ. destruct (negb (p =? 5)) eqn:E.
  - unfold find_nth_weekday. fold (month_start D). pose proof (Z.mod_pos_bound (c - weekday_of (month_start D)) 7). lia.
  - unfold find_last_weekday. pose proof (Z.mod_pos_bound (weekday_of (month_next D - 1) - c) 7). lia.
Qed.

(* occ reads D only through the first days of D's month and of the next, which every day of the month shares *)
Lemma occ_idem : forall D c x p, 1 <= p <= 5 -> occ (occ D c p) x p = occ D x p.
Proof.
  intros D c x p Hp. destruct (month_next_spec D) as (_ & _ & In).
  destruct (In (occ D c p) (occ_in_month D c p Hp)) as [E1 E2]. set (Y := occ D c p) in *.
  unfold occ, find_nth_weekday, find_last_weekday. fold (month_start Y) (month_start D). rewrite E1, E2. reflexivity.
Qed.

Lemma occ_close : forall D a b p, -6 <= occ D a p - occ D b p <= 6.
Proof.
  intros D a b p. unfold occ, find_nth_weekday, find_last_weekday. destruct (negb (p =? 5)).
  - set (f := D - dom_of D + 1). pose proof (Z.mod_pos_bound (a - weekday_of f) 7). pose proof (Z.mod_pos_bound (b - weekday_of f) 7). lia.
  - set (n := month_next D - 1). pose proof (Z.mod_pos_bound (weekday_of n - a) 7). pose proof (Z.mod_pos_bound (weekday_of n - b) 7). lia.
Qed.

Definition numbered (ws : weekspan) : bool := negb ((pos (ws_start ws) =? 0) && (pos (ws_end ws) =? 0)).

Lemma wpos_range : forall ws, ws_wf ws = true -> numbered ws = true -> 1 <= wpos ws <= 5.
Proof.
  intros ws W N. unfold ws_wf, week_wf, numbered, wpos, anchored_at_start in *.
  destruct (pos (ws_start ws) =? 0) eqn:E; cbn [negb]; lia.
Qed.

Lemma base_idem : forall ws D, ws_wf ws = true -> numbered ws = true -> base ws (anchor ws D) = base ws D.
Proof.
  intros ws D W N. pose proof (wpos_range ws W N) as R. unfold anchor. rewrite !base_occ.
  destruct (anchored_at_start ws); cbn [fst snd]; rewrite !occ_idem by exact R; reflexivity.
Qed.

(* the first branch of WeekSpan.Match: a day inside the range dateRangeAnchoredAt computes for it matches *)
Lemma ws_match_in_range : forall ws D, numbered ws = true ->
  fst (date_range ws D) <= D <= snd (date_range ws D) -> ws_match ws D = true.
Proof.
  intros ws D N H. unfold ws_match. apply negb_true_iff in N. rewrite N. cbv zeta.
  destruct (date_range ws D) as [s e]; cbn [fst snd] in *.
  assert (X : (e <? D) || (D <? s) = false) by lia. rewrite X. lia.
Qed.

(* the anchor day is the nth / last occurrence the numbered span is anchored at; D may be any day of the month *)
Lemma anchor_matches : forall ws D, ws_wf ws = true -> numbered ws = true -> ws_match ws (anchor ws D) = true.
Proof.
  intros ws D W N. apply (ws_match_in_range _ _ N). rewrite date_range_base, (base_idem ws D W N). cbv zeta.
  (* the range computed from the anchor's month is that of D's month, and the anchor is one of its ends before adjustment *)
  pose proof (occ_close D (wday (ws_start ws)) (wday (ws_end ws)) (wpos ws)) as C. unfold anchor. rewrite base_occ; cbn [fst snd].
  set (s := occ D (wday (ws_start ws)) (wpos ws)) in *. set (e := occ D (wday (ws_end ws)) (wpos ws)) in *.
  destruct (anchored_at_start ws), ((e <? s) || ((s =? e) && negb (is_single_day ws))) eqn:EJ; cbn [fst snd]; lia.
Qed.

Lemma anchor_match : forall ws D, ws_wf ws = true -> numbered ws = true -> dom_of D = 1 ->
  ws_match ws (anchor ws D) = true.
Proof. intros ws D W N _. exact (anchor_matches ws D W N). Qed.

Lemma anchor_bounds : forall ws D, ws_wf ws = true -> numbered ws = true ->
  month_start D <= anchor ws D <= month_start D + 30.
Proof.
  intros ws D W N. pose proof (wpos_range ws W N) as R. destruct (month_next_spec D) as (_ & NB & _).
  pose proof (occ_in_month D (wday (ws_start ws)) (wpos ws) R). pose proof (occ_in_month D (wday (ws_end ws)) (wpos ws) R).
  unfold anchor. rewrite base_occ. destruct (anchored_at_start ws); cbn [fst snd]; lia.
Qed.

Lemma ws_recurs : forall ws D0, ws_wf ws = true -> exists D, D0 < D <= D0 + 61 /\ ws_match ws D = true.
Proof.
  intros ws D0 W. destruct (numbered ws) eqn:N.
  - (* the anchor of the month that contains D0 + 31: that month starts within D0 + 1 .. D0 + 31 *)
    exists (anchor ws (D0 + 31)). split; [|apply anchor_matches; assumption].
    pose proof (anchor_bounds ws (D0 + 31) W N). pose proof (dom_pos (D0 + 31)). unfold month_start in *. lia.
  - (* plain weekdays: the start weekday within the next 7 days *)
    unfold numbered in N. assert (Z0 : (pos (ws_start ws) =? 0) && (pos (ws_end ws) =? 0) = true) by lia.
    set (a := wday (ws_start ws)).
    assert (Ha : 0 <= a <= 6) by (unfold ws_wf, week_wf in W; unfold a; lia).
    exists (D0 + 1 + (a - weekday_of (D0 + 1)) mod 7).
    pose proof (Z.mod_pos_bound (a - weekday_of (D0 + 1)) 7). split; [lia|].
    unfold ws_match. rewrite Z0. unfold weekday_match. rewrite (weekday_hit (D0 + 1) a Ha). fold a.
    destruct (a <=? wday (ws_end ws)) eqn:E; lia.
Qed.

Lemma week_ok_recurs : forall s D0, forallb ws_wf (weekspans s) = true ->
  exists D, D0 < D <= D0 + 61 /\ week_ok s D = true.
Proof.
  intros s D0 W. unfold week_ok. destruct (weekspans s) as [|ws l] eqn:E.
  - exists (D0 + 1). split; [lia | reflexivity].
  - cbn [forallb] in W. apply andb_true_iff in W as [W1 _].
    destruct (ws_recurs ws D0 W1) as (D & B & M). exists D. split; [exact B|]. cbn [existsb]. rewrite M. reflexivity.
Qed.

Lemma clock_add_nonneg : forall c d, clock_nonneg c -> 0 <= d -> clock_nonneg (clock_add c d).
Proof.
  intros c d [H1 H2] Hd. unfold clock_add, clock_nonneg, clock_ns, hour_ns, minute_ns; cbn [hour minute].
  split; apply Z.rem_nonneg; try lia; apply Z.quot_pos; lia.
Qed.

Lemma clock_wf_nonneg : forall c, clock_wf c = true -> clock_nonneg c.
Proof. intros c H. unfold clock_wf in H. unfold clock_nonneg. lia. Qed.

Lemma clock_spans_ok : forall ts, cs_wf ts = true ->
  (exists cs, In cs (clock_spans ts)) /\
  forall cs, In cs (clock_spans ts) -> clock_nonneg (cs_start cs) /\ clock_nonneg (cs_end cs).
Proof.
  intros ts W. unfold cs_wf in W.
  assert (Ws : clock_nonneg (cs_start ts)) by (apply clock_wf_nonneg; lia).
  assert (We : clock_nonneg (cs_end ts)) by (apply clock_wf_nonneg; lia).
  unfold clock_spans.
  destruct ((split ts =? 0) || (split ts =? 1) || clock_eqb (cs_end ts) (cs_start ts)) eqn:E.
  - split; [exists ts; left; reflexivity|]. intros cs [<-|[]]. split; assumption.
  - assert (S2 : 2 <= split ts) by lia.
    set (step := Z.quot (Z.abs (clock_sub (cs_end ts) (cs_start ts))) (split ts)).
    assert (St : 0 <= step) by (apply Z.quot_pos; lia).
    split.
    + eexists. apply in_map, (in_seq _ _ 0%nat). lia.
    + intros cs Hin. apply in_map_iff in Hin as (i & <- & _). cbn [cs_start cs_end].
      assert (A : clock_nonneg (clock_add (cs_start ts) (Z.of_nat i * step))) by (apply clock_add_nonneg; [exact Ws | lia]).
      split; [exact A | apply clock_add_nonneg; [exact A | exact St]].
Qed.

Lemma flattened_ok : forall s, forallb cs_wf (clockspans s) = true ->
  (exists cs, In cs (flattened s)) /\
  forall cs, In cs (flattened s) -> clock_nonneg (cs_start cs) /\ clock_nonneg (cs_end cs).
Proof.
  intros s W. unfold flattened.
  set (l := match clockspans s with [] => [mkCS (mkClock 0 0) (mkClock 0 0) 0 false] | c :: l0 => c :: l0 end).
  assert (Wl : forallb cs_wf l = true) by (unfold l; destruct (clockspans s); [reflexivity | exact W]).
  assert (Nl : exists ts, In ts l) by (unfold l; destruct (clockspans s); eexists; left; reflexivity).
  rewrite forallb_forall in Wl. split.
  - destruct Nl as [ts Hts]. destruct (clock_spans_ok ts (Wl ts Hts)) as [[cs Hcs] _].
    exists cs. apply in_flat_map. exists ts. split; assumption.
  - intros cs Hin. apply in_flat_map in Hin as (ts & Hts & Hcs). exact (proj2 (clock_spans_ok ts (Wl ts Hts)) cs Hcs).
Qed.

Lemma window_bounds : forall cs D, clock_nonneg (cs_start cs) -> clock_nonneg (cs_end cs) ->
  D * 86400 <= w_start (window_of cs D) /\ D * 86400 <= w_end (window_of cs D).
Proof.
  intros cs D [H1 H2] [H3 H4]. unfold window_of, clock_time; cbn [w_start w_end]. destruct (_ <? _); lia.
Qed.

(* 64: the week spans match on a day within 61 days after the later of last and now (week_ok_recurs) *)
Definition next_fuel (last now : Z) : nat := Z.to_nat (Z.max 0 (now / 86400 - last / 86400)) + 64.

(* For every schedule with well-formed week spans and clock spans (what ParseSchedule accepts) and every last and
   now, the day search of Schedule.Next finds a window within next_fuel last now days: the out-of-fuel value is never
   returned. (Any weekday recurs within 7 days; a numbered week span recurs within 61 days.) *)
Theorem next_fuel_suffices : forall (s : schedule) (last now : Z),
  sched_wf s = true -> exists w, sched_next (next_fuel last now) s last now = Some w.
Proof.
  intros s last now W. unfold sched_wf in W. apply andb_true_iff in W as [WW WC].
  destruct (flattened_ok s WC) as [[cs Hin] C].
  set (D0 := Z.max (now / 86400) (last / 86400)).
  destruct (week_ok_recurs s D0 WW) as (D & B & M).
  pose proof (Z.mod_pos_bound now 86400 ltac:(lia)). pose proof (Z.div_mod now 86400 ltac:(lia)).
  pose proof (Z.mod_pos_bound last 86400 ltac:(lia)). pose proof (Z.div_mod last 86400 ltac:(lia)).
  (* D is a day after those of last and now on which the week spans match: every window of that day is eligible *)
  destruct (C cs Hin) as [A A']. destruct (window_bounds cs D A A').
  destruct (day_window_some s (flattened s) now last D cs M Hin) as (w0 & Hw0); [unfold eligible, D0 in *; lia|].
  unfold sched_next. pose proof (next_from_days (next_fuel last now) s (flattened s) now last last) as R.
  destruct (next_from _ _ _ _ _ _) as [w|]; [eexists; reflexivity|].
  specialize (R (D - last / 86400)). replace (last / 86400 + (D - last / 86400)) with D in R by ring.
  rewrite R in Hw0; [discriminate | unfold next_fuel, D0 in *; lia].
Qed.

Lemma next_from_more_fuel : forall f s tsp now last t w, next_from f s tsp now last t = Some w ->
  forall g, (f <= g)%nat -> next_from g s tsp now last t = Some w.
Proof.
  induction f as [|f IH]; intros s tsp now last t w H g Hg; [discriminate|].
  destruct g as [|g]; [lia|]. rewrite next_from_step in *.
  destruct (day_window s tsp now last (t / 86400)); [exact H | apply IH; [exact H | lia]].
Qed.
