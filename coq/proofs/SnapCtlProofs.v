(* C25. What `run` does is read off two lemmas: `may_exec_inv` (what a MayExec outcome implies) and `may_exec_intro`
   (its converse); the gate is used through `allowed_nonroot`, the generated lists through `allowed_in_spec`,
   `spec_registered` and `registered_plain`. *)
From Coq Require Import List NArith Bool Lia ZifyBool.
Import ListNotations.
Require Import V.lib.Bytes V.proofs.BytesFacts V.gen.NonRootAllowed V.models.SnapCtl.
Open Scope N_scope.

Lemma mem_In : forall x l, mem x l = true <-> In x l.
Proof.
  induction l as [|y l IH]; cbn; split; intro H; try discriminate; try contradiction.
  - apply orb_true_iff in H. destruct H as [H|H]; [left; symmetry; apply beq_true_iff; exact H | right; apply IH; exact H].
  - apply orb_true_iff. destruct H as [H|H]; [left; subst; apply beq_true_iff; reflexivity | right; apply IH; exact H].
Qed.

(* the loop of the gate and the independent description of `a help token before any --` agree *)
Lemma scan_help_spec : forall args, scan_help args = help_before_dd args.
Proof.
  unfold help_before_dd. induction args as [|a r IH]; cbn [scan_help before_dd existsb]; [reflexivity|].
  destruct (is_help a) eqn:H.
  - destruct (is_dd a) eqn:D.
    + (* a token cannot be both -h/--help and -- *)
      unfold is_help, is_dd in *. apply orb_true_iff in H. apply beq_true_iff in D. subst a.
      destruct H as [H|H]; vm_compute in H; discriminate.
    + cbn [existsb]. rewrite H. reflexivity.
  - destruct (is_dd a); [reflexivity|]. cbn [existsb]. rewrite H. cbn [orb]. exact IH.
Qed.

Lemma allowed_subset_spec : forallb (fun a => mem a spec_allowed) non_root_allowed = true.
Proof. vm_compute. reflexivity. Qed.
Lemma spec_subset_allowed : forallb (fun a => mem a non_root_allowed) spec_allowed = true.
Proof. vm_compute. reflexivity. Qed.
Lemma allowed_are_registered : forallb (fun a => mem a registered_commands) non_root_allowed = true.
Proof. vm_compute. reflexivity. Qed.
Lemma registered_are_plain : forallb (fun n => negb (argument_is_option n) && negb (is_dd n) && negb (is_help n)) registered_commands = true.
Proof. vm_compute. reflexivity. Qed.

Lemma allowed_in_spec : forall n, mem n non_root_allowed = true -> In n spec_allowed.
Proof.
  intros n M. pose proof allowed_subset_spec as S. rewrite forallb_forall in S. apply mem_In, S, mem_In, M.
Qed.

Lemma spec_registered : forall n, In n spec_allowed -> mem n non_root_allowed = true /\ In n registered_commands.
Proof.
  intros n Hin. pose proof spec_subset_allowed as S. rewrite forallb_forall in S. specialize (S n Hin).
  pose proof allowed_are_registered as R. rewrite forallb_forall in R.
  split; [exact S | apply mem_In, R, mem_In, S].
Qed.

Lemma registered_plain : forall n, In n registered_commands -> argument_is_option n = false /\ is_dd n = false.
Proof.
  intros n Hin. pose proof registered_are_plain as P. rewrite forallb_forall in P. specialize (P n Hin).
  apply andb_true_iff in P. destruct P as [P _]. apply andb_true_iff in P. destruct P as [P1 P2].
  split; apply negb_true_iff; assumption.
Qed.

(* isAllowedToRun for a caller other than root: the first token is on the list, or help is asked for *)
Lemma allowed_nonroot : forall uid a r, uid <> 0 ->
  is_allowed_to_run uid (a :: r) = mem a non_root_allowed || help_before_dd (a :: r).
Proof.
  intros uid a r Hu. unfold is_allowed_to_run. replace (uid =? 0) with false by lia.
  rewrite scan_help_spec. destruct (mem a non_root_allowed); reflexivity.
Qed.

Lemma may_exec_inv : forall args uid n, run args uid = MayExec n ->
  exists r, args = n :: r /\ In n registered_commands /\ is_allowed_to_run uid args = true /\ help_before_dd args = false.
Proof.
  unfold run. intros [|a r] uid n H; [discriminate|].
  destruct (is_allowed_to_run uid (a :: r)) eqn:G; cbn [negb] in H; [|discriminate].
  destruct (scan_help (a :: r)) eqn:S; [discriminate|].
  destruct (argument_is_option a || is_dd a); [discriminate|].
  destruct (mem a registered_commands) eqn:M; [|discriminate].
  inversion H; subst. exists r. rewrite <- scan_help_spec. apply mem_In in M. auto.
Qed.

Lemma may_exec_intro : forall n rest uid, In n registered_commands ->
  is_allowed_to_run uid (n :: rest) = true -> help_before_dd (n :: rest) = false -> run (n :: rest) uid = MayExec n.
Proof.
  intros n rest uid Hin G Hh. unfold run. rewrite G, scan_help_spec, Hh.
  destruct (registered_plain n Hin) as [P1 P2]. rewrite P1, P2.
  apply mem_In in Hin. rewrite Hin. reflexivity.
Qed.

Theorem gate : forall args uid n, uid <> 0 -> run args uid = MayExec n -> In n spec_allowed.
Proof.
  intros args uid n Hu H. destruct (may_exec_inv _ _ _ H) as (r & -> & _ & G & Hh).
  rewrite (allowed_nonroot _ _ _ Hu), Hh, orb_false_r in G. exact (allowed_in_spec n G).
Qed.

Theorem help_is_never_forbidden : forall args uid, help_before_dd args = true -> run args uid = NoExec.
Proof.
  intros [|a r] uid Hh; [cbn in Hh; discriminate|].
  unfold run. rewrite <- scan_help_spec in Hh.
  assert (G : is_allowed_to_run uid (a :: r) = true).
  { unfold is_allowed_to_run. destruct (uid =? 0); [reflexivity|]. destruct (mem a non_root_allowed); [reflexivity|exact Hh]. }
  rewrite G, Hh. reflexivity.
Qed.

Theorem root_never_forbidden : forall args, run args 0 <> Forbidden.
Proof.
  intros [|a r] H; [discriminate|]. unfold run in H. cbn [is_allowed_to_run N.eqb negb] in H.
  destruct (scan_help (a :: r)); [discriminate|]. destruct (argument_is_option a || is_dd a); [discriminate|].
  destruct (mem a registered_commands); discriminate.
Qed.

Theorem nonroot_allowed_reach : forall n rest uid, In n spec_allowed -> help_before_dd (n :: rest) = false ->
  run (n :: rest) uid = MayExec n.
Proof.
  intros n rest uid Hin Hh. destruct (spec_registered n Hin) as [S R].
  apply may_exec_intro; [exact R | | exact Hh].
  unfold is_allowed_to_run. rewrite S. destruct (uid =? 0); reflexivity.
Qed.

Theorem nonroot_other_forbidden : forall a rest uid, uid <> 0 -> ~ In a spec_allowed ->
  help_before_dd (a :: rest) = false -> run (a :: rest) uid = Forbidden.
Proof.
  intros a rest uid Hu Hn Hh. unfold run. rewrite (allowed_nonroot _ _ _ Hu), Hh, orb_false_r.
  destruct (mem a non_root_allowed) eqn:M; [contradiction (Hn (allowed_in_spec a M)) | reflexivity].
Qed.
