(* On models/TaskEngine.v (C01): the lower half of the closure sandwich. Every task all of whose lanes are aborted, and
   everything that transitively waits on such a task (lowR), is no longer live (Do / Doing / Done, or Wait to become Done) after
   Change.AbortLanes (abort_lanes_top_lower, finish_err_lower): what had completed goes to Undo, what was running to Abort, what
   had not started to Hold. *)
From Coq Require Import List Lia.
Import ListNotations.
Require Import V.models.TaskEngine V.proofs.TaskEngineProofs V.proofs.TaskEngineFuel V.proofs.TaskEngineLive.

Inductive lowR (s : state) (L0 : list nat) : nat -> Prop :=
| LR_all : forall t, t < length (tasks s) -> (forall x, In x (lanes_of (get s t)) -> In x L0) -> lowR s L0 t
| LR_halt : forall t h, lowR s L0 t -> In h (t_halts (get s t)) -> lowR s L0 h.

(* a task all of whose lanes are in the kill list is selected by abortLanes (it is a lane task and cannot be spared) *)
Lemma all_lanes_selected : forall l kill t,
  t < length l -> (forall x, In x (lanes_of (nth t l dummy)) -> In x kill) -> In t (select_abort l kill).
Proof. exact select_abort_all_lanes. Qed.

Lemma lowR_swept : forall s s' seen L0 u,
  swept s s' seen -> (forall x, In x (select_abort (tasks s) L0) -> In x seen) -> lowR s L0 u -> In u seen.
Proof.
  intros s s' seen L0 u Sw Sel Hu. induction Hu as [t Ht Hall | t h _ IH Hh].
  - apply Sel, all_lanes_selected; assumption.
  - exact (swept_closed _ _ _ t h Sw IH Hh).
Qed.

(* Change.AbortLanes: every task of the lower closure is dead afterwards *)
Theorem abort_lanes_top_lower : forall s L0 u, lowR s L0 u -> lv (abort_lanes_top s L0) u = false.
Proof.
  intros s L0 u Hu. destruct (abort_lanes_top_swept s L0) as (seen & Sw & Sel).
  exact (swept_dead _ _ _ u Sw (lowR_swept _ _ _ _ _ Sw Sel Hu)).
Qed.

Lemma lv_set_status_other : forall s t nw u, u <> t -> lv (set_status s t nw) u = lv s u.
Proof.
  intros s t nw u N. destruct (tasks_set_status_cases s t nw) as [E|E]; rewrite (lv_eq_tasks _ _ u E); [reflexivity|].
  apply lv_put_other. assumption.
Qed.

(* the error path of the task runner: every task of the lower closure of the failed task's lanes, other than the
   failed task itself (which goes to Error), is dead afterwards *)
Theorem finish_err_lower : forall s t u,
  panicked s = false -> memn t (running s) = true -> u <> t ->
  lowR (remove_running s t) (lanes_of (get s t)) u -> lv (finish s t OErr) u = false.
Proof.
  intros s t u Hp Hr Hn Hu. unfold finish. rewrite Hp, Hr. simpl negb. cbv iota.
  rewrite lv_set_status_other by assumption.
  change (get (remove_running s t) t) with (get s t).
  apply abort_lanes_top_lower; assumption.
Qed.

(* non-vacuity: chain 0 <- 1 in the default lane; aborting lane 0: both tasks are in the lower closure *)
Lemma lower_example :
  let s := init_state [([], [], true); ([], [0], true)] in lowR s [0] 0 /\ lowR s [0] 1.
Proof.
  cbv zeta. set (s := init_state [([], [], true); ([], [0], true)]).
  assert (H0 : lowR s [0] 0).
  { apply LR_all; [simpl; lia|]. intros x Hx. simpl in Hx. destruct Hx as [<-|[]]. left; reflexivity. }
  split; [assumption|]. apply (LR_halt s [0] 0 1 H0). simpl. left; reflexivity.
Qed.
