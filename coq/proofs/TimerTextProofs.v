(* C16, string level, about models/TimerText.v: what ParseSchedule accepts is well formed (parse_accepts_only_wf); String
   then ParseSchedule gives the schedule back up to norm_sched (format_parse_roundtrip: fragment by fragment, then the `,`
   and the `,,` level); norm_sched denotes the same schedule (norm_sched_equivalent). *)
From Coq Require Import List NArith ZArith Bool Lia ZifyBool ZifyN ZifyNat.
Import ListNotations.
Require Import V.lib.Bytes V.lib.Dec V.proofs.DecProofs V.models.Timer V.models.TimerText V.proofs.TimerProofs.
Open Scope N_scope.

Lemma weekday_of_name_range : forall a b c d, weekday_of_name a b c = Some d -> (0 <= d <= 6)%Z.
Proof.
  intros a b c d H. unfold weekday_of_name in H.
  repeat match type of H with (if ?x then _ else _) = _ => destruct x end; inversion H; lia.
Qed.

Lemma parse_weekday_wf : forall s w, parse_weekday s = Some w -> week_wf w = true.
Proof.
  intros s w H. unfold parse_weekday in H.
  destruct s as [|a [|b [|c [|n [|x r]]]]]; try discriminate.
  - destruct (weekday_of_name a b c) as [d|] eqn:E; [|discriminate]. apply weekday_of_name_range in E.
    cbn in H. inversion H; subst w. unfold week_wf; cbn [wday pos]. lia.
  - destruct ((49 <=? n) && (n <=? 53)) eqn:En; [|discriminate].
    destruct (weekday_of_name a b c) as [d|] eqn:E; [|discriminate]. apply weekday_of_name_range in E.
    cbn in H. inversion H; subst w. unfold week_wf, dig; cbn [wday pos]. lia.
Qed.

Lemma fin_wf : forall st en ws,
  week_wf st = true -> week_wf en = true ->
  (if negb (pos st =? 0)%Z && negb (pos en =? 0)%Z then
      if (pos en <? pos st)%Z then None
      else if negb (week_eqb st en) then Some (mkWS st (mkWeek (wday en) 0)) else Some (mkWS st en)
    else Some (mkWS st en)) = Some ws -> ws_wf ws = true.
Proof.
  intros st en ws H1 H2 H. unfold week_wf in *.
  destruct (negb (pos st =? 0)%Z && negb (pos en =? 0)%Z) eqn:E.
  - destruct (pos en <? pos st)%Z; [discriminate|].
    destruct (negb (week_eqb st en)) eqn:E2; inversion H; subst ws;
      unfold ws_wf, week_wf, is_single_day; cbn [ws_start ws_end wday pos].
    + lia.
    + apply negb_false_iff in E2. rewrite E2. lia.
  - inversion H; subst ws. unfold ws_wf, week_wf, is_single_day; cbn [ws_start ws_end]. lia.
Qed.

Lemma parse_week_span_wf : forall s ws, parse_week_span s = Some ws -> ws_wf ws = true.
Proof.
  intros s ws H. unfold parse_week_span in H.
  destruct (split_on 45 s) as [|a [|b [|c r]]]; try discriminate.
  - destruct (parse_weekday a) as [st|] eqn:E; [|discriminate]. apply parse_weekday_wf in E.
    exact (fin_wf st st ws E E H).
  - destruct (parse_weekday a) as [st|] eqn:E1; [|discriminate].
    destruct (parse_weekday b) as [en|] eqn:E2; [|discriminate].
    apply parse_weekday_wf in E1, E2. exact (fin_wf st en ws E1 E2 H).
Qed.

Lemma parse_clock_wf : forall s c, parse_clock s = Some c -> clock_wf c = true.
Proof.
  intros s c H. unfold parse_clock in H.
  destruct s as [|a [|b [|x [|y [|z [|w r]]]]]]; try discriminate.
  - destruct (is_digit a && (b =? 58) && is_d05 x && is_digit y) eqn:E; [|discriminate].
    inversion H; subst c. unfold clock_wf, dig, is_digit, is_d05 in *; cbn [hour minute]. lia.
  - destruct ((a =? 50) && (b =? 52) && (x =? 58) && (y =? 48) && (z =? 48)); [inversion H; reflexivity|].
    match type of H with (if ?e then _ else _) = _ => destruct e eqn:E end; [|discriminate].
    inversion H; subst c. unfold clock_wf, dig, is_digit, is_d05 in *; cbn [hour minute]. lia.
Qed.

Lemma parse_uint32_range : forall s z, parse_uint32 s = Some z -> (0 <= z < 4294967296)%Z.
Proof.
  intros s z H. unfold parse_uint32 in H. destruct (undec s) as [n|]; [|discriminate].
  destruct (n <? 4294967296) eqn:E; [|discriminate]. inversion H; lia.
Qed.

Lemma parse_count_range : forall s c r, parse_count s = Some (c, r) -> (0 <= c < 4294967296)%Z.
Proof.
  intros s c r H. unfold parse_count in H.
  destruct (negb (contains 47 s)); [inversion H; lia|].
  destruct (split_on 47 s) as [|a [|b [|x y]]]; try discriminate.
  destruct (parse_uint32 b) as [v|] eqn:E; [|discriminate]. apply parse_uint32_range in E.
  destruct (v =? 0)%Z; [discriminate|]. inversion H; subst; exact E.
Qed.

Lemma parse_clock_span_wf : forall s cs, parse_clock_span s = Some cs -> cs_wf cs = true /\ split_ok cs = true.
Proof.
  intros s cs H. unfold parse_clock_span in H.
  destruct (parse_count s) as [[cnt rest]|] eqn:EC; [|discriminate]. apply parse_count_range in EC.
  set (rest' := if contains 126 rest then replace_first 126 45 rest else rest) in *.
  assert (G : forall st en, clock_wf st = true -> clock_wf en = true ->
            cs_wf (mkCS st en cnt (contains 126 rest)) = true /\ split_ok (mkCS st en cnt (contains 126 rest)) = true).
  { intros st en A B. unfold cs_wf, split_ok; cbn [cs_start cs_end split]. rewrite A, B. lia. }
  destruct (beq rest' [45]).
  - inversion H; subst cs. apply G; reflexivity.
  - destruct (contains 45 rest').
    + unfold parse_clock_range in H. destruct (cut_first 45 rest') as [[a b]|]; [|discriminate].
      destruct (parse_clock a) as [x|] eqn:E1; [|discriminate]. destruct (parse_clock b) as [y|] eqn:E2; [|discriminate].
      inversion H; subst cs. apply G; eapply parse_clock_wf; eassumption.
    + destruct (parse_clock rest') as [x|] eqn:E1; [|discriminate].
      inversion H; subst cs. apply G; eapply parse_clock_wf; eassumption.
Qed.

Definition sched_ok (s : schedule) : bool :=
  sched_wf s && forallb split_ok (clockspans s) && negb (is_nil_b (weekspans s) && is_nil_b (clockspans s)).

Lemma parse_frags_wf : forall frs e w c, parse_frags frs e = Some (w, c) ->
  forallb ws_wf w = true /\ forallb cs_wf c = true /\ forallb split_ok c = true /\
  (frs <> [] -> is_nil_b w && is_nil_b c = false).
Proof.
  induction frs as [|f r IH]; intros e w c H; cbn [parse_frags] in H.
  - inversion H; subst. repeat split; auto. intros X; contradiction.
  - destruct (is_nil_b f); [discriminate|].
    destruct (contains 58 f).
    + destruct (parse_clock_span f) as [cs|] eqn:E1; [|discriminate].
      destruct (parse_frags r true) as [[w' c']|] eqn:E2; [|discriminate].
      inversion H; subst. apply parse_clock_span_wf in E1 as [A B]. apply IH in E2 as (P & Q & R & _).
      cbn [forallb is_nil_b]. rewrite A, B, Q, R, andb_false_r. repeat split; auto.
    + destruct e; [discriminate|].
      destruct (parse_week_span f) as [ws|] eqn:E1; [|discriminate].
      destruct (parse_frags r false) as [[w' c']|] eqn:E2; [|discriminate].
      inversion H; subst. apply parse_week_span_wf in E1. apply IH in E2 as (P & Q & R & _).
      cbn [forallb is_nil_b andb]. rewrite E1, P. repeat split; auto.
Qed.

Lemma cons_head_nonnil : forall x l, cons_head x l <> [].
Proof. intros x [|h t]; discriminate. Qed.

Lemma split_on_nonnil : forall c l, split_on c l <> [].
Proof.
  intros c l; destruct l as [|x r]; cbn; [discriminate|].
  destruct (x =? c); [discriminate | apply cons_head_nonnil].
Qed.

Lemma parse_event_set_ok : forall s sc, parse_event_set s = Some sc -> sched_ok sc = true.
Proof.
  intros s sc H. unfold parse_event_set in H.
  destruct (parse_frags (split_on 44 s) false) as [[w c]|] eqn:E; [|discriminate].
  inversion H; subst sc. apply parse_frags_wf in E as (A & B & C & D).
  unfold sched_ok, sched_wf; cbn [weekspans clockspans]. rewrite A, B, C, (D (split_on_nonnil 44 s)). reflexivity.
Qed.

Lemma all_some_spec : forall (A : Type) (l : list (option A)) r, all_some l = Some r -> l = map Some r.
Proof.
  induction l as [|[x|] l IH]; intros r H; cbn in H; try discriminate.
  - injection H as <-. reflexivity.
  - destruct (all_some l) as [t|]; [|discriminate]. injection H as <-. cbn. f_equal. apply IH. reflexivity.
Qed.

Lemma split_cc_cons2 : forall x y r,
  split_cc (x :: y :: r) = if (x =? 44) && (y =? 44) then [] :: split_cc r else cons_head x (split_cc (y :: r)).
Proof. reflexivity. Qed.

Lemma split_cc_nonnil : forall l, split_cc l <> [].
Proof.
  intros [|x [|y r]]; [discriminate | discriminate |]. rewrite split_cc_cons2.
  destruct ((x =? 44) && (y =? 44)); [discriminate | apply cons_head_nonnil].
Qed.

(* whatever ParseSchedule accepts is a non-empty list of well-formed, non-empty schedules:
   weekdays 0..6, week positions 0..5 with at most one numbered end unless the span is a single day, clocks within
   00:00..23:59 or exactly 24:00, 0 <= split < 2^32 *)
Theorem parse_accepts_only_wf : forall (s : bytes) (l : list schedule),
  parse_schedule s = Some l -> l <> [] /\ Forall (fun sc => sched_ok sc = true) l.
Proof.
  intros s l H. apply all_some_spec in H. split.
  - intros ->. exact (split_cc_nonnil s (map_eq_nil _ _ H)).
  - apply Forall_forall. intros sc Hin. apply (in_map Some) in Hin. rewrite <- H in Hin.
    apply in_map_iff in Hin as (x & Hx & _). exact (parse_event_set_ok x sc Hx).
Qed.

Lemma contains_app : forall c a b, contains c (a ++ b) = contains c a || contains c b.
Proof. intros; unfold contains; apply existsb_app. Qed.

Lemma contains_cons : forall c x l, contains c (x :: l) = (c =? x) || contains c l.
Proof. reflexivity. Qed.

Lemma contains_cons_false : forall c x l, contains c (x :: l) = false -> (x =? c) = false /\ contains c l = false.
Proof. intros c x l H. rewrite contains_cons, N.eqb_sym in H. apply orb_false_iff in H. exact H. Qed.

Lemma split_on_nosep : forall c f, contains c f = false -> split_on c f = [f].
Proof.
  intros c; induction f as [|x f IH]; intros H; [reflexivity|].
  apply contains_cons_false in H as [H1 H2]. cbn [split_on]. rewrite H1, (IH H2). reflexivity.
Qed.

Lemma split_on_app : forall c a b, contains c a = false -> split_on c (a ++ c :: b) = a :: split_on c b.
Proof.
  intros c; induction a as [|x a IH]; intros b H; cbn [app split_on].
  - rewrite N.eqb_refl; reflexivity.
  - apply contains_cons_false in H as [H1 H2]. rewrite H1, (IH b H2). reflexivity.
Qed.

Lemma cut_first_app : forall c a b, contains c a = false -> cut_first c (a ++ c :: b) = Some (a, b).
Proof.
  intros c; induction a as [|x a IH]; intros b H; cbn [app cut_first].
  - rewrite N.eqb_refl; reflexivity.
  - apply contains_cons_false in H as [H1 H2]. rewrite H1, (IH b H2). reflexivity.
Qed.

Lemma replace_first_app : forall o n a b, contains o a = false -> replace_first o n (a ++ o :: b) = a ++ n :: b.
Proof.
  intros o n; induction a as [|x a IH]; intros b H; cbn [app replace_first].
  - rewrite N.eqb_refl; reflexivity.
  - apply contains_cons_false in H as [H1 H2]. rewrite H1, (IH b H2). reflexivity.
Qed.

Lemma digits_no : forall c d, forallb is_digit d = true -> (c < 48 \/ 57 < c) -> contains c d = false.
Proof.
  intros c; induction d as [|x d IH]; intros H K; [reflexivity|].
  cbn in H. apply andb_true_iff in H as [H1 H2]. unfold contains in *; cbn [existsb]. rewrite (IH H2 K). unfold is_digit in H1.
  destruct (c =? x) eqn:E; [apply N.eqb_eq in E; subst; lia | reflexivity].
Qed.

(* clocks (1441) and week spans (42 x 42) are bounded formats: what String and the parsers do on them is evaluated over
   the complete domains (all_clock_facts, all_ws_facts) *)
Definition zrange (n : nat) : list Z := map Z.of_nat (seq 0 n).
Lemma in_zrange : forall n z, (0 <= z < Z.of_nat n)%Z -> In z (zrange n).
Proof.
  intros n z H. unfold zrange. replace z with (Z.of_nat (Z.to_nat z)) by lia. apply in_map. apply in_seq. lia.
Qed.

Definition all_clocks : list clock :=
  flat_map (fun h => map (mkClock h) (zrange 60)) (zrange 24) ++ [mkClock 24 0].

Definition clock_fact (c : clock) : bool :=
  let A := fmt_clock c in
  match parse_clock A with Some c' => clock_eqb c c' | None => false end &&
  negb (contains 44 A) && negb (contains 45 A) && negb (contains 47 A) && negb (contains 126 A) &&
  contains 58 A && negb (is_nil_b A) && negb (beq A [45]).

Lemma all_clock_facts : forallb clock_fact all_clocks = true.
Proof. vm_compute. reflexivity. Qed.

Lemma clock_in_all : forall c, clock_wf c = true -> In c all_clocks.
Proof.
  intros [h m] H. unfold clock_wf in H; cbn [hour minute] in H. unfold all_clocks. apply in_or_app.
  destruct (h =? 24)%Z eqn:E.
  - right. assert (h = 24 /\ m = 0)%Z as [-> ->] by lia. left; reflexivity.
  - left. apply in_flat_map. exists h. split; [apply in_zrange; lia | apply in_map; apply in_zrange; lia].
Qed.

Lemma clock_eqb_eq : forall a b, clock_eqb a b = true -> a = b.
Proof. intros [h m] [h' m'] H. unfold clock_eqb in H; cbn in H. f_equal; lia. Qed.

Lemma clock_facts : forall c, clock_wf c = true ->
  let A := fmt_clock c in
  parse_clock A = Some c /\ contains 44 A = false /\ contains 45 A = false /\ contains 47 A = false /\
  contains 126 A = false /\ contains 58 A = true /\ is_nil_b A = false /\ beq A [45] = false.
Proof.
  intros c H A. pose proof all_clock_facts as F. rewrite forallb_forall in F.
  specialize (F c (clock_in_all c H)). unfold clock_fact in F. fold A in F.
  destruct (parse_clock A) as [c'|]; [|discriminate F].
  do 7 (apply andb_true_iff in F as [F ?]).
  apply clock_eqb_eq in F; subst c'.
  repeat split; try (apply negb_true_iff; assumption); assumption.
Qed.

Definition all_weeks : list week := flat_map (fun d => map (mkWeek d) (zrange 6)) (zrange 7).
Definition all_ws : list weekspan := flat_map (fun a => map (mkWS a) all_weeks) all_weeks.

Definition ws_fact (ws : weekspan) : bool :=
  if ws_wf ws then
    let A := fmt_ws ws in
    match parse_week_span A with Some ws' => ws_eqb ws ws' | None => false end &&
    negb (contains 44 A) && negb (contains 58 A) && negb (is_nil_b A)
  else true.

Lemma all_ws_facts : forallb ws_fact all_ws = true.
Proof. vm_compute. reflexivity. Qed.

Lemma week_in_all : forall w, week_wf w = true -> In w all_weeks.
Proof.
  intros [d p] H. unfold week_wf in H; cbn in H. unfold all_weeks. apply in_flat_map.
  exists d. split; [apply in_zrange; lia | apply in_map; apply in_zrange; lia].
Qed.

Lemma ws_eqb_eq : forall a b, ws_eqb a b = true -> a = b.
Proof.
  intros [[d1 p1] [d2 p2]] [[d3 p3] [d4 p4]] H. unfold ws_eqb, week_eqb in H; cbn in H.
  assert (d1 = d3 /\ p1 = p3 /\ d2 = d4 /\ p2 = p4)%Z as (-> & -> & -> & ->) by lia. reflexivity.
Qed.

Lemma ws_facts : forall ws, ws_wf ws = true ->
  let A := fmt_ws ws in
  parse_week_span A = Some ws /\ contains 44 A = false /\ contains 58 A = false /\ is_nil_b A = false.
Proof.
  intros ws H A. pose proof all_ws_facts as F. rewrite forallb_forall in F.
  assert (I : In ws all_ws).
  { destruct ws as [a b]. unfold ws_wf in H; cbn [ws_start ws_end] in H.
    apply andb_true_iff in H as [H _]. apply andb_true_iff in H as [Ha Hb].
    unfold all_ws. apply in_flat_map. exists a. split; [apply week_in_all; exact Ha | apply in_map; apply week_in_all; exact Hb]. }
  specialize (F ws I). unfold ws_fact in F. rewrite H in F. fold A in F.
  destruct (parse_week_span A) as [ws'|]; [|discriminate F].
  do 3 (apply andb_true_iff in F as [F ?]).
  apply ws_eqb_eq in F; subst ws'.
  repeat split; try (apply negb_true_iff; assumption).
Qed.

Lemma parse_uint32_dec : forall z, (0 <= z < 4294967296)%Z -> parse_uint32 (dec (Z.to_N z)) = Some z.
Proof.
  intros z H. unfold parse_uint32. rewrite undec_dec.
  destruct (Z.to_N z <? 4294967296) eqn:E; [f_equal; lia | lia].
Qed.

Lemma parse_count_fmt : forall body sp, contains 47 body = false -> (0 <= sp < 4294967296)%Z ->
  parse_count (body ++ (if (0 <? sp)%Z then 47 :: dec (Z.to_N sp) else [])) = Some (sp, body).
Proof.
  intros body sp NB R. unfold parse_count. destruct (0 <? sp)%Z eqn:Esp.
  - assert (D47 : contains 47 (dec (Z.to_N sp)) = false) by (apply digits_no; [apply dec_digits | left; reflexivity]).
    rewrite contains_app, contains_cons, N.eqb_refl, orb_true_r. cbn [negb orb].
    rewrite (split_on_app 47 body _ NB), (split_on_nosep 47 _ D47), (parse_uint32_dec sp R).
    destruct (sp =? 0)%Z eqn:E0; [lia | reflexivity].
  - rewrite app_nil_r, NB. cbn [negb]. do 2 f_equal. lia.
Qed.

(* the two bodies String prints: a single time, and start, `-` or `~`, end *)
Lemma parse_clock_span_single : forall s cnt st, clock_wf st = true ->
  parse_count s = Some (cnt, fmt_clock st) -> parse_clock_span s = Some (mkCS st st cnt false).
Proof.
  intros s cnt st W PC. destruct (clock_facts st W) as (P & _ & M & _ & T & _ & _ & B).
  unfold parse_clock_span. rewrite PC, T, B, M, P. reflexivity.
Qed.

Lemma parse_clock_span_range : forall s cnt st en (sd : bool), clock_wf st = true -> clock_wf en = true ->
  parse_count s = Some (cnt, fmt_clock st ++ (if sd then 126 else 45) :: fmt_clock en) ->
  parse_clock_span s = Some (mkCS st en cnt sd).
Proof.
  intros s cnt st en sd Wst Wen PC.
  destruct (clock_facts st Wst) as (P1 & _ & M1 & _ & T1 & _ & N1 & _).
  destruct (clock_facts en Wen) as (P2 & _ & _ & _ & T2 & _ & _ & _).
  cbv zeta in *. set (A := fmt_clock st) in *. set (B := fmt_clock en) in *.
  set (body := A ++ (if sd then 126 else 45) :: B) in *. unfold parse_clock_span. rewrite PC.
  assert (SP : contains 126 body = sd) by (unfold body; rewrite contains_app, contains_cons, T1, T2; destruct sd; reflexivity).
  assert (R : (if sd then replace_first 126 45 body else body) = A ++ 45 :: B)
    by (unfold body; destruct sd; [apply replace_first_app; exact T1 | reflexivity]).
  rewrite SP, R.
  assert (NB : beq (A ++ 45 :: B) [45] = false).
  { destruct A as [|a [|a' A']]; [discriminate | |]; cbn [app beq]; rewrite ?andb_false_r; reflexivity. }
  rewrite NB, contains_app, contains_cons, N.eqb_refl, orb_true_r.
  unfold parse_clock_range. rewrite (cut_first_app 45 A B M1), P1, P2. reflexivity.
Qed.

Lemma cs_roundtrip : forall cs, cs_wf cs = true -> split_ok cs = true ->
  parse_clock_span (fmt_cs cs) = Some (norm_cs cs).
Proof.
  intros [st en sp sd] W S. unfold cs_wf, split_ok in *; cbn [cs_start cs_end split] in *.
  assert (Wst : clock_wf st = true) by lia. assert (Wen : clock_wf en = true) by lia.
  destruct (clock_facts st Wst) as (_ & _ & _ & S1 & _). destruct (clock_facts en Wen) as (_ & _ & _ & S2 & _).
  cbv zeta in *. unfold fmt_cs, norm_cs; cbn [cs_start cs_end split spread].
  destruct (clock_eqb en st) eqn:EQ.
  - apply clock_eqb_eq in EQ; subst en. apply parse_clock_span_single; [exact Wst|].
    unfold parse_count. rewrite S1. reflexivity.
  - rewrite app_comm_cons, app_assoc. apply parse_clock_span_range; [exact Wst | exact Wen |].
    apply parse_count_fmt; [|lia]. rewrite contains_app, contains_cons, S1, S2. destruct sd; reflexivity.
Qed.

(* what the loop over the fragments looks at: a clock span has a `:`, no fragment has a `,` or is empty *)
Lemma fmt_cs_chars : forall cs, cs_wf cs = true ->
  contains 58 (fmt_cs cs) = true /\ contains 44 (fmt_cs cs) = false /\ is_nil_b (fmt_cs cs) = false.
Proof.
  intros [st en sp sd] W. unfold cs_wf in W; cbn [cs_start cs_end split] in W.
  assert (Wst : clock_wf st = true) by lia. assert (Wen : clock_wf en = true) by lia.
  destruct (clock_facts st Wst) as (_ & C1 & _ & _ & _ & K1 & N1 & _). destruct (clock_facts en Wen) as (_ & C2 & _).
  cbv zeta in *. unfold fmt_cs; cbn [cs_start cs_end split spread].
  assert (N : forall l, is_nil_b (fmt_clock st ++ l) = false) by (intros l; destruct (fmt_clock st); [discriminate | reflexivity]).
  destruct (clock_eqb en st); [rewrite <- (app_nil_r (fmt_clock st)) at 3; auto|].
  split; [rewrite contains_app, K1; reflexivity|]. split; [|apply N].
  assert (D : contains 44 (dec (Z.to_N sp)) = false) by (apply digits_no; [apply dec_digits | left; reflexivity]).
  rewrite contains_app, contains_cons, contains_app, C1, C2.
  destruct (0 <? sp)%Z; [rewrite contains_cons, D|]; destruct sd; reflexivity.
Qed.

Lemma join_split : forall frs, frs <> [] -> (forall f, In f frs -> contains 44 f = false) ->
  split_on 44 (join 44 frs) = frs.
Proof.
  induction frs as [|f [|g r] IH]; intros N H; [contradiction | |].
  - cbn [join]. apply split_on_nosep. apply H; left; reflexivity.
  - change (join 44 (f :: g :: r)) with (f ++ 44 :: join 44 (g :: r)).
    rewrite split_on_app by (apply H; left; reflexivity). f_equal.
    apply IH; [discriminate | intros x Hx; apply H; right; exact Hx].
Qed.

Lemma parse_frags_cs : forall C e,
  forallb cs_wf C = true -> forallb split_ok C = true ->
  parse_frags (map fmt_cs C) e = Some ([], map norm_cs C).
Proof.
  induction C as [|cs C IH]; intros e W S; [reflexivity|].
  cbn [forallb] in W, S. apply andb_true_iff in W as [W1 W2]. apply andb_true_iff in S as [S1 S2].
  destruct (fmt_cs_chars cs W1) as (K & _ & N).
  cbn [map parse_frags]. rewrite N, K, (cs_roundtrip cs W1 S1), (IH true W2 S2). reflexivity.
Qed.

Lemma parse_frags_ws : forall W C,
  forallb ws_wf W = true -> forallb cs_wf C = true -> forallb split_ok C = true ->
  parse_frags (map fmt_ws W ++ map fmt_cs C) false = Some (W, map norm_cs C).
Proof.
  induction W as [|ws W IH]; intros C HW HC HS.
  - cbn [map app]. apply parse_frags_cs; assumption.
  - cbn [forallb] in HW. apply andb_true_iff in HW as [H1 H2].
    destruct (ws_facts ws H1) as (P & _ & K & N).
    cbn [map app parse_frags]. rewrite N, K, P, (IH C H2 HC HS). reflexivity.
Qed.

Lemma sched_ok_parts : forall s, sched_ok s = true ->
  forallb ws_wf (weekspans s) = true /\ forallb cs_wf (clockspans s) = true /\ forallb split_ok (clockspans s) = true /\
  is_nil_b (weekspans s) && is_nil_b (clockspans s) = false.
Proof.
  intros s H. unfold sched_ok, sched_wf in H.
  apply andb_true_iff in H as [H N]. apply andb_true_iff in H as [H HS]. apply andb_true_iff in H as [HW HC].
  apply negb_true_iff in N. auto.
Qed.

Lemma sched_ok_wf : forall s, sched_ok s = true -> sched_wf s = true.
Proof. intros s H. destruct (sched_ok_parts s H) as (HW & HC & _). unfold sched_wf. rewrite HW, HC. reflexivity. Qed.

Lemma frags_no_comma : forall s, sched_ok s = true ->
  forall f, In f (map fmt_ws (weekspans s) ++ map fmt_cs (clockspans s)) -> contains 44 f = false /\ is_nil_b f = false.
Proof.
  intros s H f Hin. destruct (sched_ok_parts s H) as (HW & HC & _). rewrite forallb_forall in HW, HC.
  apply in_app_or in Hin as [Hin|Hin]; apply in_map_iff in Hin as (x & <- & Hx).
  - destruct (ws_facts x (HW x Hx)) as (_ & A & _ & B). split; assumption.
  - destruct (fmt_cs_chars x (HC x Hx)) as (_ & A & B). split; assumption.
Qed.

(* one event set: for every well-formed non-empty schedule, parseEventSet (String s) gives s back, up to the
   normalisation of clock spans whose end equals their start (Spread and Split are not printed for them) *)
Theorem event_set_roundtrip : forall s : schedule, sched_ok s = true ->
  parse_event_set (fmt_sched s) = Some (norm_sched s).
Proof.
  intros s H. unfold parse_event_set, fmt_sched. destruct (sched_ok_parts s H) as (HW & HC & HS & NE).
  rewrite join_split; [| | intros f Hf; apply (frags_no_comma s H f Hf)].
  - rewrite (parse_frags_ws _ _ HW HC HS). reflexivity.
  - destruct (weekspans s), (clockspans s); [discriminate NE | discriminate..].
Qed.

Fixpoint no_cc (l : bytes) : bool :=
  match l with
  | x :: ((y :: _) as r) => negb ((x =? 44) && (y =? 44)) && no_cc r
  | _ => true
  end.

Lemma split_cc_nocc : forall l, no_cc l = true -> split_cc l = [l].
Proof.
  induction l as [|x r IH]; intros H; [reflexivity|].
  destruct r as [|y r']; [reflexivity|].
  cbn [no_cc] in H. apply andb_true_iff in H as [H1 H2]. apply negb_true_iff in H1.
  rewrite split_cc_cons2, H1, (IH H2). reflexivity.
Qed.

Lemma nocc_skip : forall a r, contains 44 a = false -> no_cc (a ++ r) = no_cc r.
Proof.
  induction a as [|x a IH]; intros r H; [reflexivity|].
  apply contains_cons_false in H as [H H'].
  cbn [app no_cc]. rewrite <- (IH r H'). destruct (a ++ r); [reflexivity|]. rewrite H. reflexivity.
Qed.

(* no_cc (44 :: l) says that l has no ",," and does not begin with a comma: a non-empty fragment after a comma restores it *)
Lemma nocc_comma_frag : forall f r, contains 44 f = false -> is_nil_b f = false -> no_cc (44 :: f ++ r) = no_cc r.
Proof.
  intros [|x f] r H N; [discriminate|]. etransitivity; [|exact (nocc_skip (x :: f) r H)].
  apply contains_cons_false in H as [H _]. cbn [app no_cc]. rewrite H. reflexivity.
Qed.

Lemma join_nocc : forall frs, (forall f, In f frs -> contains 44 f = false /\ is_nil_b f = false) ->
  no_cc (44 :: join 44 frs) = true.
Proof.
  induction frs as [|f [|g r] IH]; intros H; [reflexivity | |]; destruct (H f (or_introl eq_refl)) as [A B].
  - cbn [join]. rewrite <- (app_nil_r f), nocc_comma_frag by assumption. reflexivity.
  - change (join 44 (f :: g :: r)) with (f ++ 44 :: join 44 (g :: r)). rewrite nocc_comma_frag by assumption.
    apply IH. intros x Hx. apply H. right. exact Hx.
Qed.

(* ParseSchedule (String s) = [s] up to the same normalisation, for every well-formed non-empty schedule;
   by parse_accepts_only_wf every schedule the parser returns is one. *)
Theorem format_parse_roundtrip : forall s : schedule, sched_ok s = true ->
  parse_schedule (fmt_sched s) = Some [norm_sched s].
Proof.
  intros s H. unfold parse_schedule.
  pose proof (join_nocc _ (frags_no_comma s H)) as N. fold (fmt_sched s) in N.
  assert (N' : no_cc (fmt_sched s) = true) by (destruct (fmt_sched s); [reflexivity | apply andb_true_iff in N; apply N]).
  rewrite (split_cc_nocc _ N'). cbn [map all_some]. rewrite (event_set_roundtrip s H). reflexivity.
Qed.

(* two windows that differ at most in the spread flag of an EMPTY window; two clock spans whose windows do so on every day *)
Definition win_rel (a b : window) : Prop :=
  w_start a = w_start b /\ w_end a = w_end b /\ (w_spread a = w_spread b \/ w_start a = w_end a).
Definition owin_rel (a b : option window) : Prop :=
  match a, b with
  | None, None => True
  | Some x, Some y => win_rel x y
  | _, _ => False
  end.
Definition span_rel (a b : clockspan) : Prop := forall D, win_rel (window_of a D) (window_of b D).

Lemma span_rel_refl : forall l, Forall2 span_rel l l.
Proof. induction l as [|a l IH]; constructor; [intros D; repeat split; auto | exact IH]. Qed.

Lemma pick_rel : forall now last D acc1 acc2 a b, owin_rel acc1 acc2 -> span_rel a b ->
  owin_rel (pick now last D acc1 a) (pick now last D acc2 b).
Proof.
  intros now last D acc1 acc2 a b HA HS. pose proof (HS D) as W. destruct W as (E1 & E2 & _).
  unfold pick. rewrite E1, E2.
  destruct (w_end (window_of b D) <? now)%Z; [exact HA|].
  destruct ((w_start (window_of b D) <=? last)%Z && (last <=? w_end (window_of b D))%Z); [exact HA|].
  destruct acc1 as [x|], acc2 as [y|]; cbn in HA; try contradiction; [|exact (HS D)].
  destruct HA as (A1 & A2 & A3). rewrite A1.
  destruct (w_start (window_of b D) <? w_start y)%Z; [exact (HS D) | repeat split; assumption].
Qed.

Lemma fold_pick_rel : forall now last D t1 t2, Forall2 span_rel t1 t2 ->
  forall acc1 acc2, owin_rel acc1 acc2 ->
  owin_rel (fold_left (pick now last D) t1 acc1) (fold_left (pick now last D) t2 acc2).
Proof.
  intros now last D t1 t2 F. induction F as [|a b t1 t2 R F IH]; intros acc1 acc2 HA; [exact HA|].
  cbn [fold_left]. apply IH. apply pick_rel; assumption.
Qed.

Lemma day_window_rel : forall s1 s2 t1 t2 now last D,
  week_ok s1 D = week_ok s2 D -> Forall2 span_rel t1 t2 ->
  owin_rel (day_window s1 t1 now last D) (day_window s2 t2 now last D).
Proof.
  intros s1 s2 t1 t2 now last D HW F. unfold day_window. rewrite HW.
  destruct (week_ok s2 D); [|exact I].
  pose proof (fold_pick_rel now last D t1 t2 F None None I) as R.
  destruct (fold_left (pick now last D) t1 None) as [x|], (fold_left (pick now last D) t2 None) as [y|];
    cbn in R; try contradiction; [|exact I].
  destruct R as (R1 & R2 & R3). rewrite R2. destruct (w_end y <? now)%Z; [exact I | repeat split; assumption].
Qed.

Lemma next_from_rel : forall fuel s1 s2 t1 t2 now last t,
  (forall D, week_ok s1 D = week_ok s2 D) -> Forall2 span_rel t1 t2 ->
  owin_rel (next_from fuel s1 t1 now last t) (next_from fuel s2 t2 now last t).
Proof.
  induction fuel as [|f IH]; intros s1 s2 t1 t2 now last t HW F; [exact I|].
  rewrite !next_from_step. pose proof (day_window_rel s1 s2 t1 t2 now last (t / 86400)%Z (HW _) F) as R.
  destruct (day_window s1 t1 now last (t / 86400)%Z), (day_window s2 t2 now last (t / 86400)%Z);
    cbn in R; try contradiction; [exact R | apply IH; assumption].
Qed.

Lemma clock_spans_norm_rel : forall c, Forall2 span_rel (clock_spans (norm_cs c)) (clock_spans c).
Proof.
  intros c. unfold norm_cs. destruct (clock_eqb (cs_end c) (cs_start c)) eqn:E.
  - unfold clock_spans; cbn [split cs_end cs_start]. rewrite E, !orb_true_r. cbn [Z.eqb orb].
    constructor; [|constructor]. intros D. apply clock_eqb_eq in E.
    unfold win_rel, window_of; cbn [w_start w_end w_spread cs_start cs_end]. rewrite E, Z.ltb_irrefl. auto.
  - apply span_rel_refl.
Qed.

Lemma flat_map_rel : forall C, Forall2 span_rel (flat_map clock_spans (map norm_cs C)) (flat_map clock_spans C).
Proof.
  induction C as [|c C IH]; [constructor|]. cbn [map flat_map]. apply Forall2_app; [apply clock_spans_norm_rel | exact IH].
Qed.

Lemma flattened_norm_rel : forall s, Forall2 span_rel (flattened (norm_sched s)) (flattened s).
Proof.
  intros s. unfold flattened, norm_sched; cbn [clockspans].
  destruct (clockspans s) as [|c C] eqn:E.
  - apply span_rel_refl.
  - apply (flat_map_rel (c :: C)).
Qed.

Lemma existsb_includes_rel : forall t D l1 l2, Forall2 span_rel l1 l2 ->
  existsb (span_includes t D) l1 = existsb (span_includes t D) l2.
Proof.
  intros t D l1 l2 F. induction F as [|a b l1 l2 R F IH]; [reflexivity|].
  cbn [existsb]. rewrite IH. f_equal. destruct (R D) as (E1 & E2 & _).
  unfold span_includes. rewrite E1, E2. reflexivity.
Qed.

(* Includes and Next read a schedule only through week_ok and the windows of its flattened spans *)
Theorem sched_rel_equivalent : forall s1 s2 : schedule,
  (forall D, week_ok s1 D = week_ok s2 D) -> Forall2 span_rel (flattened s1) (flattened s2) ->
  (forall t, sched_includes s1 t = sched_includes s2 t) /\
  (forall fuel last now, owin_rel (sched_next fuel s1 last now) (sched_next fuel s2 last now)).
Proof.
  intros s1 s2 HW F. split.
  - intros t. unfold sched_includes. rewrite HW, (existsb_includes_rel t _ _ _ F). reflexivity.
  - intros fuel last now. unfold sched_next. apply next_from_rel; assumption.
Qed.

(* the normalised schedule denotes the same schedule: Includes agrees everywhere, and Next returns windows with the same
   start and end (the spread flag can differ only on an empty window, where the random spread is 0 anyway) *)
Theorem norm_sched_equivalent : forall (s : schedule),
  (forall t, sched_includes (norm_sched s) t = sched_includes s t) /\
  (forall fuel last now, owin_rel (sched_next fuel (norm_sched s) last now) (sched_next fuel s last now)).
Proof. intros s. apply sched_rel_equivalent; [intros D; reflexivity | apply flattened_norm_rel]. Qed.
