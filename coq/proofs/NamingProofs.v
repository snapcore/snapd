(* C24. Every name validator (the daemon's, snap-confine's, snap-update-ns') equals one reference recogniser on ALL byte
   strings. Dashed names meet in `dshape`, which characterises both the expressions F(-?A)* and the C scanning loop;
   security tags meet in the dotted form `join 46 (tag_parts ...)` that the daemon's generator writes. *)
From Coq Require Import List NArith Bool Arith Lia.
Import ListNotations.
Require Import V.lib.Bytes V.lib.Regex V.proofs.BytesFacts V.proofs.ListFacts V.proofs.RegexProofs V.gen.NamingRegexes V.models.Naming.
Open Scope N_scope.

Ltac bool_lia :=
  apply eq_true_iff_eq; repeat rewrite ?orb_false_r, ?orb_true_iff, ?andb_true_iff, ?N.leb_le, ?N.eqb_eq; lia.

Definition dn_char (c : N) : bool := name_char c || (c =? 45).

Lemma cls_dn c : in_ranges c [(45,45);(48,57);(97,122)] = dn_char c.
Proof. unfold dn_char, name_char, c_lower, c_digit. cbn [in_ranges]. bool_lia. Qed.
Lemma cls_lower c : in_ranges c [(97,122)] = c_lower c.
Proof. unfold c_lower. cbn [in_ranges]. bool_lia. Qed.
Lemma cls_name c : in_ranges c [(48,57);(97,122)] = name_char c.
Proof. unfold name_char, c_lower, c_digit. cbn [in_ranges]. bool_lia. Qed.
Lemma cls_app c : in_ranges c [(48,57);(65,90);(97,122)] = app_char c.
Proof. unfold app_char, c_lower, c_digit. cbn [in_ranges]. bool_lia. Qed.
Lemma cls_alias c : in_ranges c [(45,46);(48,57);(65,90);(95,95);(97,122)] = alias_char c.
Proof. unfold alias_char, app_char, c_lower, c_digit. cbn [in_ranges]. bool_lia. Qed.

Lemma name_char_not_dash c : name_char c = true -> (c =? 45) = false.
Proof. intros H. apply N.eqb_neq. intros ->. discriminate. Qed.
Lemma app_char_not_dash c : app_char c = true -> (c =? 45) = false.
Proof. unfold app_char, c_lower, c_digit. intros H. apply N.eqb_neq. intros ->. discriminate. Qed.
Lemma lower_name c : c_lower c = true -> name_char c = true.
Proof. unfold name_char. intros ->. reflexivity. Qed.
Lemma digit_name c : c_digit c = true -> name_char c = true.
Proof. unfold name_char. intros ->. apply orb_true_r. Qed.
Lemma digit_not_lower c : c_digit c = true -> c_lower c = false.
Proof.
  unfold c_digit, c_lower. intros H. apply andb_true_iff in H as [_ H]. apply N.leb_le in H.
  apply andb_false_iff. left. apply N.leb_gt. lia.
Qed.

Lemma existsb_ext {A} (f g : A -> bool) l : (forall x, f x = g x) -> existsb f l = existsb g l.
Proof. intros H. induction l; cbn; [reflexivity | rewrite H, IHl; reflexivity]. Qed.

Lemma window_ltb lo hi n : negb ((n <? lo)%nat || (hi <? n)%nat) = ((lo <=? n)%nat && (n <=? hi)%nat).
Proof. rewrite negb_orb, <- !Nat.leb_antisym. reflexivity. Qed.

Lemma dshape_cons al pd c r :
  dshape al pd (c :: r) = if al c then dshape al false r else if c =? 45 then negb pd && dshape al true r else false.
Proof. reflexivity. Qed.

Lemma dshape_true_cons al c r : dshape al true (c :: r) = al c && dshape al false r.
Proof. rewrite dshape_cons. destruct (al c); [reflexivity |]. destruct (c =? 45); reflexivity. Qed.

Lemma dshape_false_cons al c r : (c =? 45) = false -> dshape al false (c :: r) = al c && dshape al false r.
Proof. intros E. rewrite dshape_cons, E. destruct (al c); reflexivity. Qed.

Lemma dshape_skip al pd c run rest :
  forallb al (c :: run) = true -> dshape al pd ((c :: run) ++ rest) = dshape al false rest.
Proof.
  intros H. cbn in H. apply andb_true_iff in H as [Hc Hr]. cbn [app]. rewrite dshape_cons, Hc. clear pd c Hc.
  induction run as [|d run IH]; [reflexivity |].
  cbn in Hr. apply andb_true_iff in Hr as [Hd Hr]. cbn [app]. rewrite dshape_cons, Hd. exact (IH Hr).
Qed.

(* Go's three dash tests (first byte, last byte, two in a row); pd stands for a dash in front of s *)
Definition dash_faults (pd : bool) (s : bytes) : bool :=
  (pd && (is_nil_b s || hd_is 45 s)) || last_is 45 s || contains2 45 45 s.

Lemma dash_faults_cons pd c r : dash_faults pd (c :: r) = (pd && (c =? 45)) || dash_faults (c =? 45) r.
Proof.
  unfold dash_faults. destruct r as [|d r'].
  - cbn. destruct pd, (c =? 45); reflexivity.
  - change (last_is 45 (c :: d :: r')) with (last_is 45 (d :: r')).
    change (contains2 45 45 (c :: d :: r')) with (((c =? 45) && (d =? 45)) || contains2 45 45 (d :: r')).
    cbn [is_nil_b hd_is orb].
    destruct (pd && (c =? 45)), ((c =? 45) && (d =? 45)), (last_is 45 (d :: r')); reflexivity.
Qed.

Lemma dshape_closed al : al 45 = false -> forall s pd,
  dshape al pd s = forallb (fun c => al c || (c =? 45)) s && negb (dash_faults pd s).
Proof.
  intros H45. induction s as [|c r IH]; intros pd; [destruct pd; reflexivity |].
  rewrite dshape_cons, dash_faults_cons, !IH. cbn [forallb].
  destruct (al c) eqn:Ea.
  - assert (E : (c =? 45) = false) by (apply N.eqb_neq; intros ->; congruence).
    rewrite E, andb_false_r. reflexivity.
  - destruct (c =? 45); [| reflexivity].
    destruct pd, (forallb (fun c => al c || (c =? 45)) r), (dash_faults true r); reflexivity.
Qed.

Lemma almost_valid_name_char s : rmatch almost_valid_name s = forallb dn_char s && existsb c_lower s.
Proof.
  revert s. apply rmatch_char. intros s. unfold almost_valid_name. rewrite andb_true_iff, lang_cat_inv. split.
  - intros (s1 & s2 & -> & H1 & H2). apply lang_cls_cat in H2. destruct s2 as [|c s2]; [contradiction |]. destruct H2 as [Hc H2].
    apply (lang_star_class _ _ _ cls_dn) in H1, H2. rewrite cls_lower in Hc.
    rewrite forallb_app, existsb_app. cbn. unfold dn_char at 2. rewrite H1, H2, Hc, (lower_name _ Hc), orb_true_r. auto.
  - intros [Hf He]. apply existsb_exists in He as (c & Hin & Hc). apply in_split in Hin as (l1 & l2 & ->).
    rewrite forallb_app in Hf. cbn in Hf. apply andb_true_iff in Hf as [Hf1 Hf2]. apply andb_true_iff in Hf2 as [_ Hf2].
    exists l1, (c :: l2). rewrite lang_cls_cat, cls_lower, !(lang_star_class _ _ _ cls_dn). auto.
Qed.

Lemma go_is_valid_name_ref s : go_is_valid_name s = dshape name_char true s && existsb c_lower s.
Proof.
  unfold go_is_valid_name. rewrite almost_valid_name_char, (dshape_closed name_char eq_refl). unfold dn_char, dash_faults.
  destruct s as [|c r]; [reflexivity |]. cbn [is_nil_b orb andb].
  destruct (forallb _ _), (existsb _ _), (_ || contains2 _ _ _); reflexivity.
Qed.

Theorem go_validate_snap_ref s : go_validate_snap s = valid_snap_name s.
Proof.
  unfold go_validate_snap, valid_snap_name, go_snap_min_len, go_snap_max_len.
  rewrite go_is_valid_name_ref, <- andb_assoc, <- window_ltb.
  destruct ((length s <? 2)%nat || (40 <? length s)%nat), (dshape name_char true s && existsb c_lower s); reflexivity.
Qed.

(* what the loop of validate_as_snap_or_component_name computes from p, the count n and the letter flag so far: the
   dashed shape of p decides between an error and the end of the string; count and flag are sums over p *)
Definition name_scan (p : bytes) (n : nat) (got : bool) : loop_res :=
  if dshape name_char false p then LoopEnd (n + length p) (got || existsb c_lower p) else LoopErr.

Lemma name_scan_run c run rest n got :
  forallb name_char (c :: run) = true ->
  name_scan ((c :: run) ++ rest) n got = name_scan rest (n + length (c :: run)) (got || existsb c_lower (c :: run)).
Proof.
  intros H. unfold name_scan.
  rewrite (dshape_skip _ _ _ _ _ H), app_length, existsb_app, Nat.add_assoc, orb_assoc. reflexivity.
Qed.

Lemma name_scan_dash d r n got : (d =? 45) = false -> name_scan (45 :: d :: r) n got = name_scan (d :: r) (n + 1) got.
Proof.
  intros E. unfold name_scan.
  change (dshape name_char false (45 :: d :: r)) with (dshape name_char true (d :: r)).
  change (existsb c_lower (45 :: d :: r)) with (existsb c_lower (d :: r)).
  rewrite dshape_true_cons, (dshape_false_cons _ d r E).
  destruct (name_char d && dshape name_char false r); [| reflexivity]. f_equal. cbn [length]. lia.
Qed.

Lemma existsb_lower_of_digits ds : forallb c_digit ds = true -> existsb c_lower ds = false.
Proof.
  induction ds as [|c r IH]; cbn; [reflexivity |]. intros H. apply andb_true_iff in H as [Hc Hr].
  rewrite (digit_not_lower _ Hc), (IH Hr). reflexivity.
Qed.

(* every round takes a non-empty run of letters, a non-empty run of digits, or one dash that is followed by a byte
   other than a dash; whatever is left is scanned with less fuel *)
Lemma sc_name_loop_spec : forall fuel p n got, (length p < fuel)%nat -> sc_name_loop fuel p n got = name_scan p n got.
Proof.
  induction fuel as [|f IH]; intros p n got Hl; [lia |].
  destruct p as [|c p']; [unfold name_scan; cbn; rewrite Nat.add_0_r, orb_false_r; reflexivity |].
  cbn [sc_name_loop].
  destruct (span c_lower (c :: p')) as [[|l ls] p1] eqn:Els; apply span_spec in Els as (E & Hls & Hc); cbn [is_nil_b negb].
  2:{ rewrite E, app_length in Hl. rewrite E, IH by (cbn [length] in Hl; lia).
      rewrite name_scan_run by (eapply forallb_impl; [apply lower_name | exact Hls]).
      cbn in Hls. apply andb_true_iff in Hls as [Hl' _]. cbn [existsb]. rewrite Hl', orb_true_r. reflexivity. }
  cbn [app] in E. subst p1.
  destruct (span c_digit (c :: p')) as [[|d ds] p2] eqn:Eds; apply span_spec in Eds as (E & Hds & Hd); cbn [is_nil_b negb].
  2:{ rewrite E, app_length in Hl. rewrite E, IH by (cbn [length] in Hl; lia).
      rewrite name_scan_run by (eapply forallb_impl; [apply digit_name | exact Hds]).
      rewrite (existsb_lower_of_digits _ Hds), orb_false_r. reflexivity. }
  cbn [app] in E. subst p2.
  assert (En : name_char c = false) by (unfold name_char; rewrite Hc, Hd; reflexivity).
  destruct (N.eqb_spec c 45) as [-> | Hne].
  - destruct p' as [|d r]; [reflexivity |]. destruct (d =? 45) eqn:Edd.
    + apply N.eqb_eq in Edd. subst d. reflexivity.
    + rewrite IH by (cbn [length] in *; lia). symmetry. apply name_scan_dash. exact Edd.
  - unfold name_scan. rewrite dshape_cons, En. apply N.eqb_neq in Hne. rewrite Hne. reflexivity.
Qed.

Theorem sc_snap_name_validate_ref s : sc_snap_name_validate s = valid_snap_name s.
Proof.
  unfold sc_snap_name_validate, valid_snap_name, sc_name_min, sc_snap_name_len.
  destruct s as [|c r]; [reflexivity |]. rewrite dshape_true_cons. cbn [hd_is].
  destruct (c =? 45) eqn:E.
  - apply N.eqb_eq in E. subst c. reflexivity.
  - rewrite sc_name_loop_spec by lia. unfold name_scan. rewrite (dshape_false_cons _ c r E).
    destruct (name_char c && dshape name_char false r); [| reflexivity].
    cbn [orb Nat.add]. rewrite <- andb_assoc, <- window_ltb.
    destruct (existsb c_lower (c :: r)), (length (c :: r) <? 2)%nat, (40 <? length (c :: r))%nat; reflexivity.
Qed.

Lemma sun_name_loop_same : forall fuel p n got, sun_name_loop fuel p n got = sc_name_loop fuel p n got.
Proof.
  induction fuel as [|f IH]; intros p n got; [reflexivity |].
  cbn [sun_name_loop sc_name_loop]. destruct p as [|c p']; [reflexivity |].
  destruct (span c_lower (c :: p')) as [ls p1]. destruct (span c_digit (c :: p')) as [ds p2].
  rewrite !IH. destruct p'; reflexivity.
Qed.

Theorem sun_validate_snap_name_ref s : sun_validate_snap_name s = valid_snap_name s.
Proof.
  rewrite <- sc_snap_name_validate_ref.
  unfold sun_validate_snap_name, sc_snap_name_validate, sun_name_min, sun_name_max, sc_name_min, sc_snap_name_len.
  rewrite sun_name_loop_same. reflexivity.
Qed.

Lemma valid_key_iff k : valid_key k = true <-> (1 <= length k <= 10)%nat /\ forallb name_char k = true.
Proof. unfold valid_key. rewrite !andb_true_iff, !Nat.leb_le. tauto. Qed.

Lemma go_instance_key_ref k : rmatch NamingRegexes.valid_instance_key k = valid_key k.
Proof.
  revert k. apply rmatch_char. intros k. rewrite valid_key_iff. exact (lang_rep_class _ _ 1 9 k cls_name).
Qed.

Lemma sc_key_loop_spec : forall k i,
  sc_key_loop k i = if forallb name_char k then Some (i + length k)%nat else None.
Proof.
  induction k as [|c r IH]; intros i; cbn.
  - rewrite Nat.add_0_r. reflexivity.
  - fold (name_char c). destruct (name_char c); cbn; [| reflexivity].
    rewrite IH. destruct (forallb name_char r); [f_equal; lia | reflexivity].
Qed.

Theorem sc_instance_key_validate_ref k : sc_instance_key_validate k = valid_key k.
Proof.
  unfold sc_instance_key_validate, valid_key, sc_instance_key_len. rewrite sc_key_loop_spec.
  destruct (forallb name_char k); cbn [Nat.add]; [| rewrite andb_false_r; reflexivity].
  rewrite andb_true_r, (Nat.leb_antisym 10). destruct (length k) as [|n]; [reflexivity |].
  destruct (10 <? S n)%nat; reflexivity.
Qed.

Lemma sun_key_loop_same : forall k i, sun_key_loop k i = sc_key_loop k i.
Proof. induction k as [|c r IH]; intros i; cbn; [reflexivity | rewrite IH; reflexivity]. Qed.

Theorem sun_instance_key_validate_ref k : sun_instance_key_validate k = valid_key k.
Proof.
  rewrite <- sc_instance_key_validate_ref.
  unfold sun_instance_key_validate, sc_instance_key_validate, sun_key_max, sc_instance_key_len.
  rewrite sun_key_loop_same. reflexivity.
Qed.

Theorem go_validate_instance_ref s : go_validate_instance s = valid_instance_name s.
Proof.
  unfold go_validate_instance, valid_instance_name.
  destruct (split_first 95 s) as [[a b] |].
  - rewrite go_validate_snap_ref, go_instance_key_ref. destruct (valid_snap_name a); reflexivity.
  - apply go_validate_snap_ref.
Qed.

Lemma split_first_spec c s a b : split_first c s = Some (a, b) -> s = a ++ c :: b.
Proof.
  revert a b. induction s as [|x r IH]; intros a b; cbn; [discriminate |].
  destruct (x =? c) eqn:E.
  - intros H. injection H as <- <-. apply N.eqb_eq in E. subst. reflexivity.
  - destruct (split_first c r) as [[a' b'] |]; [| discriminate].
    intros H. injection H as <- <-. cbn. f_equal. apply IH. reflexivity.
Qed.

Lemma split_first_none c s (p : N -> bool) : p c = false -> forallb p s = true -> split_first c s = None.
Proof.
  intros Hp. induction s as [|x r IH]; cbn; [reflexivity |]. intros H. apply andb_true_iff in H as [Hx Hr].
  destruct (N.eqb_spec x c) as [-> |]; [congruence |]. rewrite (IH Hr). reflexivity.
Qed.

Lemma split_first_app_stop c a b (p : N -> bool) :
  p c = false -> forallb p a = true -> split_first c (a ++ c :: b) = Some (a, b).
Proof.
  intros Hp. induction a as [|x a IH]; intros H; cbn [app split_first].
  - rewrite N.eqb_refl. reflexivity.
  - cbn in H. apply andb_true_iff in H as [Hx Ha].
    destruct (N.eqb_spec x c) as [-> |]; [congruence |]. rewrite (IH Ha). reflexivity.
Qed.

Lemma valid_snap_name_iff s :
  valid_snap_name s = true <->
  dshape name_char true s = true /\ existsb c_lower s = true /\ (2 <= length s <= 40)%nat.
Proof. unfold valid_snap_name. rewrite !andb_true_iff, !Nat.leb_le. tauto. Qed.

Lemma valid_snap_name_len s : valid_snap_name s = true -> (2 <= length s <= 40)%nat.
Proof. intros H. apply valid_snap_name_iff in H. apply H. Qed.

Lemma valid_key_no_underscore k : valid_key k = true -> split_first 95 k = None.
Proof. intros H. apply valid_key_iff in H as [_ H]. exact (split_first_none 95 k name_char eq_refl H). Qed.

Lemma valid_instance_name_len s : valid_instance_name s = true -> (length s <= 51)%nat.
Proof.
  unfold valid_instance_name. destruct (split_first 95 s) as [[a b] |] eqn:E.
  - intros H. apply andb_true_iff in H as [Ha Hb]. apply split_first_spec in E. subst.
    apply valid_snap_name_len in Ha. apply valid_key_iff in Hb as [Hb _]. rewrite app_length. cbn [length]. lia.
  - intros H. apply valid_snap_name_len in H. lia.
Qed.

(* the strsep part shared by both C implementations, for any name and key validators vs, vk *)
Definition c_instance_core (vs vk : bytes -> bool) (s : bytes) : bool :=
  let (snap_name, t1) := strsep 95 (Some s) in
  let (key, t2) := strsep 95 t1 in
  let (third, _) := strsep 95 t2 in
  match third with
  | Some _ => false
  | None =>
      match snap_name with
      | None => false
      | Some nm => if negb (vs nm) then false else match key with Some k => vk k | None => true end
      end
  end.

Lemma c_instance_core_ref vs vk s :
  (forall x, vs x = valid_snap_name x) -> (forall x, vk x = valid_key x) ->
  c_instance_core vs vk s = valid_instance_name s.
Proof.
  intros Hs Hk. unfold c_instance_core, valid_instance_name, strsep.
  destruct (split_first 95 s) as [[a b] |].
  - destruct (split_first 95 b) as [[b1 b2] |] eqn:Eb.
    + destruct (split_first 95 b2) as [[? ?] |]; (destruct (valid_key b) eqn:Ek;
        [apply valid_key_no_underscore in Ek; congruence | rewrite andb_false_r; reflexivity]).
    + rewrite Hs, Hk. destruct (valid_snap_name a); reflexivity.
  - rewrite Hs. destruct (valid_snap_name s); reflexivity.
Qed.

Theorem sc_instance_name_validate_ref s : sc_instance_name_validate s = valid_instance_name s.
Proof.
  unfold sc_instance_name_validate, sc_instance_len.
  destruct (Nat.ltb_spec 51 (length s)) as [Hl | Hl].
  - destruct (valid_instance_name s) eqn:E; [| reflexivity]. apply valid_instance_name_len in E. lia.
  - rewrite firstn_all2 by lia.
    apply (c_instance_core_ref _ _ s sc_snap_name_validate_ref sc_instance_key_validate_ref).
Qed.

(* snap-update-ns has no length test and cuts the name at 52 bytes: a longer name is refused all the same, because its
   first 52 bytes are already too long for an instance name *)
Theorem sun_validate_instance_name_ref s : sun_validate_instance_name s = valid_instance_name s.
Proof.
  change (c_instance_core sun_validate_snap_name sun_instance_key_validate (firstn (53 - 1) s) = valid_instance_name s).
  rewrite (c_instance_core_ref _ _ _ sun_validate_snap_name_ref sun_instance_key_validate_ref).
  destruct (Nat.le_gt_cases (length s) 52) as [Hl | Hl]; [rewrite firstn_all2 by (cbn; lia); reflexivity |].
  destruct (valid_instance_name s) eqn:E1; [apply valid_instance_name_len in E1; lia |].
  destruct (valid_instance_name (firstn (53 - 1) s)) eqn:E2; [| reflexivity].
  apply valid_instance_name_len in E2. rewrite firstn_length in E2. lia.
Qed.

Lemma split_all_unfold c s :
  split_all c s = match split_first c s with None => [s] | Some (a, b) => a :: split_all c b end.
Proof.
  induction s as [|x r IH]; cbn; [reflexivity |].
  destruct (x =? c); [reflexivity |].
  rewrite IH. destruct (split_first c r) as [[a b] |]; reflexivity.
Qed.

Lemma split_all_nonempty c s : split_all c s <> [].
Proof. rewrite split_all_unfold. destruct (split_first c s) as [[? ?] |]; discriminate. Qed.

Lemma valid_snap_name_no_plus s : valid_snap_name s = true -> split_first 43 s = None.
Proof.
  intros H. apply valid_snap_name_iff in H as [H _]. rewrite (dshape_closed _ eq_refl) in H. apply andb_true_iff in H as [H _].
  exact (split_first_none 43 s _ eq_refl H).
Qed.

Theorem go_validate_component_ref s : go_validate_component s = valid_component s.
Proof.
  unfold go_validate_component, valid_component. rewrite split_all_unfold.
  destruct (split_first 43 s) as [[a b] |]; [| reflexivity].
  rewrite split_all_unfold. destruct (split_first 43 b) as [[b1 b2] |] eqn:Eb.
  - destruct (split_all 43 b2) eqn:E2; [exfalso; eapply split_all_nonempty; eassumption |].
    destruct (valid_snap_name b) eqn:Ev; [apply valid_snap_name_no_plus in Ev; congruence |].
    rewrite andb_false_r. reflexivity.
  - rewrite !go_validate_snap_ref. destruct (valid_snap_name a); reflexivity.
Qed.

Theorem sc_snap_component_validate_ref s : sc_snap_component_validate s = valid_component s.
Proof.
  unfold sc_snap_component_validate, valid_component, sc_snap_name_len.
  destruct (split_first 43 s) as [[a b] |]; [| reflexivity].
  rewrite !sc_snap_name_validate_ref.
  destruct (valid_snap_name a) eqn:Ea, (valid_snap_name b) eqn:Eb; cbn [negb andb];
    try (apply valid_snap_name_len in Ea); try (apply valid_snap_name_len in Eb);
    destruct (Nat.ltb_spec 40 (length a)), (Nat.ltb_spec 40 (length b)); try reflexivity; lia.
Qed.

(* the repeated part (-?[A])* of every dashed-name expression *)
Definition dash_star (A : ranges) : regex := Star (Cat (Opt (Lit [45])) (Cls A)).

Lemma lang_dash_unit A c (d : bool) :
  in_ranges c A = true -> lang (Cat (Opt (Lit [45])) (Cls A)) ((if d then [45] else []) ++ [c]).
Proof.
  intros H. constructor; [| constructor; exact H].
  apply lang_opt_inv. destruct d; [right; apply lang_lit |left]; reflexivity.
Qed.

(* a pending dash is a dash already read: it belongs in front of what is still to come *)
Lemma dshape_lang A (al : N -> bool) :
  (forall c, in_ranges c A = al c) ->
  forall s pd, dshape al pd s = true -> lang (dash_star A) ((if pd then [45] else []) ++ s).
Proof.
  intros HA. induction s as [|c r IH]; intros pd H.
  - destruct pd; [discriminate | constructor].
  - rewrite dshape_cons in H. destruct (al c) eqn:Ec.
    + change (c :: r) with ([c] ++ r). rewrite app_assoc.
      apply L_stars; [apply lang_dash_unit; rewrite HA; exact Ec | exact (IH false H)].
    + destruct (c =? 45) eqn:E45; [| discriminate]. apply N.eqb_eq in E45. subst c.
      destruct pd; [discriminate |]. exact (IH true H).
Qed.

Lemma lang_dash_star A (al : N -> bool) :
  (forall c, in_ranges c A = al c) -> al 45 = false ->
  forall s, lang (dash_star A) s <-> dshape al false s = true.
Proof.
  intros HA H45 s. split; [| exact (dshape_lang A al HA s false)].
  revert s. unfold dash_star. apply star_ind'; [reflexivity |].
  intros s1 s2 H1 _ IH. apply lang_cat_inv in H1 as (o & x & -> & Ho & Hx).
  apply lang_cls_inv in Hx as (c & -> & Hc). rewrite HA in Hc.
  apply lang_opt_inv in Ho as [-> | Ho].
  - cbn [app]. rewrite dshape_cons, Hc. exact IH.
  - apply lang_lit in Ho. subst o. cbn [app]. rewrite dshape_cons, H45. cbn [N.eqb Pos.eqb negb andb].
    rewrite dshape_cons, Hc. exact IH.
Qed.

Lemma lang_dashed F A (al : N -> bool) s :
  (forall c, in_ranges c A = al c) -> al 45 = false ->
  (lang (Cat (Cls F) (dash_star A)) s <->
   match s with c :: r => in_ranges c F = true /\ dshape al false r = true | [] => False end).
Proof. intros HA H45. rewrite lang_cls_cat. destruct s; [| rewrite (lang_dash_star A al HA H45)]; reflexivity. Qed.

Theorem go_validate_app_ref s : go_validate_app s = valid_app_name s.
Proof.
  revert s. apply rmatch_char. intros s. unfold valid_app, valid_app_name.
  rewrite (lang_dashed _ _ app_char s cls_app eq_refl).
  destruct s as [|c r]; [split; [tauto | discriminate] |].
  rewrite dshape_true_cons, cls_app, andb_true_iff. reflexivity.
Qed.

Theorem go_validate_hook_ref s : go_validate_hook s = valid_hook_name s.
Proof.
  revert s. apply rmatch_char. intros s. unfold valid_hook, valid_hook_name.
  rewrite (lang_dashed _ _ name_char s cls_name eq_refl).
  destruct s as [|c r]; [split; [tauto | discriminate] |].
  rewrite cls_lower, andb_true_iff. reflexivity.
Qed.

Theorem go_validate_provenance_ref s : go_validate_provenance s = valid_app_name s.
Proof. rewrite <- go_validate_app_ref. destruct s; reflexivity. Qed.

Theorem go_validate_alias_ref s : go_validate_alias s = valid_alias_name s.
Proof.
  revert s. apply rmatch_char. intros s. unfold valid_alias, valid_alias_name. rewrite lang_cls_cat.
  destruct s as [|c r]; [split; [tauto | discriminate] |].
  rewrite cls_app, (lang_star_class _ _ _ cls_alias), andb_true_iff. reflexivity.
Qed.

Theorem go_validate_snap_id_ref s : go_validate_snap_id s = valid_snap_id_name s.
Proof.
  revert s. apply rmatch_char. intros s. unfold valid_snap_id, valid_snap_id_name.
  rewrite (lang_rep_class _ _ _ _ _ cls_app), andb_true_iff, Nat.eqb_eq. intuition lia.
Qed.

(* ValidateQuotaGroup repeats ValidateSnap with its own copies of the expression and the limits (and an empty test
   that the length window makes redundant): a quota group name is valid exactly when it is a valid snap name *)
Theorem go_validate_quota_group_ref s : go_validate_quota_group s = valid_snap_name s.
Proof.
  rewrite <- go_validate_snap_ref.
  unfold go_validate_quota_group, go_validate_snap, go_is_valid_name, go_quota_min_len, go_quota_max_len, go_snap_min_len, go_snap_max_len.
  destruct s as [|c r]; [reflexivity |]. cbn [is_nil_b].
  destruct ((length (c :: r) <? 2)%nat || (40 <? length (c :: r))%nat); [reflexivity |]. cbn [orb].
  destruct (rmatch almost_valid_name (c :: r)); cbn [negb]; [| reflexivity].
  destruct (hd_is 45 (c :: r) || last_is 45 (c :: r) || contains2 45 45 (c :: r)); reflexivity.
Qed.

(* parts joined by the separator c: strings.SplitN cuts a tag into such parts, snap-confine's expression spells them out *)
Fixpoint join (c : N) (parts : list bytes) : bytes :=
  match parts with
  | [] => []
  | a :: rest => match rest with [] => a | _ => a ++ c :: join c rest end
  end.

Lemma splitn_SS n c s :
  splitn (S (S n)) c s = match split_first c s with None => [s] | Some (a, b) => a :: splitn (S n) c b end.
Proof. reflexivity. Qed.

Lemma splitn_join n c : forall s, exists a rest, splitn (S n) c s = a :: rest /\ join c (a :: rest) = s.
Proof.
  induction n as [|n IH]; intros s; [exists s, []; auto |].
  rewrite splitn_SS. destruct (split_first c s) as [[a b] |] eqn:E; [| exists s, []; auto].
  apply split_first_spec in E. destruct (IH b) as (x & xs & -> & J).
  exists a, (x :: xs). rewrite E, <- J. auto.
Qed.

Lemma splitn_parts c (p : N -> bool) : p c = false ->
  forall parts a n, Forall (fun x => forallb p x = true) (a :: parts) -> (length parts <= n)%nat ->
  splitn (S n) c (join c (a :: parts)) = a :: parts.
Proof.
  intros Hp. induction parts as [|b parts IH]; intros a n Hf Hl; inversion_clear Hf as [|? ? Ha Hf'].
  - destruct n; [reflexivity |]. cbn [join]. rewrite splitn_SS, (split_first_none c a p Hp Ha). reflexivity.
  - destruct n as [|n]; [cbn in Hl; lia |]. change (join c (a :: b :: parts)) with (a ++ c :: join c (b :: parts)).
    rewrite splitn_SS, (split_first_app_stop c a _ p Hp Ha), IH; [reflexivity | exact Hf' | cbn in Hl; lia].
Qed.

Definition inst_comp (inst : bytes) (comp : option bytes) : bytes :=
  match comp with Some c => inst ++ 43 :: c | None => inst end.
Definition tag_parts (inst : bytes) (comp : option bytes) (h : bool) (name : bytes) : list bytes :=
  lit_snap :: inst_comp inst comp :: (if h then [lit_hook; name] else [name]).

Lemma model_tag_parts inst comp h name :
  (h = false -> comp = None) -> model_tag inst comp h name = join 46 (tag_parts inst comp h name).
Proof. intros Hc. destruct h; [reflexivity | rewrite (Hc eq_refl); reflexivity]. Qed.

(* strings.Cut(parts[1], "+") in ParseSecurityTag: the instance name and the component, if any *)
Definition cut_comp (p1 : bytes) : bytes * option bytes :=
  match split_first 43 p1 with Some (a, b) => (a, Some b) | None => (p1, None) end.

Lemma cut_comp_spec p1 inst comp : cut_comp p1 = (inst, comp) -> p1 = inst_comp inst comp.
Proof.
  unfold cut_comp. destruct (split_first 43 p1) as [[a b] |] eqn:E; intros [= <- <-]; [| reflexivity].
  exact (split_first_spec 43 p1 a b E).
Qed.

(* ParseSecurityTag's test of the component name *)
Lemma comp_ok_negb (f : bytes -> bool) comp :
  match comp with Some c => negb (f c) | None => false end = negb (comp_ok f comp).
Proof. destruct comp; reflexivity. Qed.

Lemma cut_comp_inst_comp inst comp : forallb not_dot_plus inst = true -> cut_comp (inst_comp inst comp) = (inst, comp).
Proof.
  intros Hi. unfold cut_comp. destruct comp as [cn |]; cbn [inst_comp].
  - rewrite (split_first_app_stop 43 inst cn not_dot_plus eq_refl Hi). reflexivity.
  - rewrite (split_first_none 43 inst not_dot_plus eq_refl Hi). reflexivity.
Qed.

Lemma not_dot_plus_dot s : forallb not_dot_plus s = true -> forallb not_dot s = true.
Proof. apply forallb_impl. intros x H. apply andb_true_iff in H as [H _]. exact H. Qed.

(* submatches 1 and 7 of snap-confine's expression, taken by position, on a string of this form *)
Lemma tag_groups g1 comp h name :
  forallb not_dot_plus g1 = true -> comp_ok (fun cn => forallb not_dot cn) comp = true ->
  tag_group1 (join 46 (tag_parts g1 comp h name)) = g1 /\ tag_group7 (join 46 (tag_parts g1 comp h name)) = comp.
Proof.
  intros H1 Hc. unfold tag_group1, tag_group7.
  assert (E : exists tl, skipn 5 (join 46 (tag_parts g1 comp h name)) = inst_comp g1 comp ++ 46 :: tl)
    by (destruct h; eexists; reflexivity).
  destruct E as (tl & ->). destruct comp as [cn |]; cbn [inst_comp].
  - rewrite <- app_assoc. cbn [app]. rewrite (span_app_stop not_dot_plus g1 43 _ H1 eq_refl). cbn [fst snd].
    change (43 =? 43) with true. cbv iota. rewrite (span_app_stop not_dot cn 46 _ Hc eq_refl). auto.
  - rewrite (span_app_stop not_dot_plus g1 46 _ H1 eq_refl). auto.
Qed.

Definition re_name : regex := Cat (Cls [(48,57);(97,122)]) (dash_star [(48,57);(97,122)]).
(* group 1 of the snap-confine expression *)
Definition re_g1 : regex :=
  Cat (Cls [(48,57);(97,122)])
      (Cat (dash_star [(48,57);(97,122)]) (Opt (Cat (Lit [95]) (rep 1 9 (Cls [(48,57);(97,122)]))))).
Definition re_app_alt : regex := Cat (Lit [46]) valid_app.
Definition re_hook_alt : regex :=
  Cat (Opt (Cat (Lit [43]) re_name)) (Cat (Lit [46;104;111;111;107;46]) valid_hook).

(* the expression extracted from snap.c has exactly this structure; the app and hook parts are, term for term, the
   daemon's own ValidApp and validHook expressions *)
Lemma sc_tag_re_shape : sc_tag_re = Cat (Lit [115;110;97;112;46]) (Cat re_g1 (Alt re_app_alt re_hook_alt)).
Proof. reflexivity. Qed.

Definition comp_lang (comp : option bytes) : Prop := match comp with Some cn => lang re_name cn | None => True end.

Lemma sc_tag_re_forms tag :
  lang sc_tag_re tag <->
  exists g1 comp h name, tag = join 46 (tag_parts g1 comp h name) /\ lang re_g1 g1 /\ comp_lang comp /\
    (h = false -> comp = None) /\ lang (if h then valid_hook else valid_app) name.
Proof.
  rewrite sc_tag_re_shape. split.
  - intros H. apply lang_lit_cat in H as (body & -> & H).
    apply lang_cat_inv in H as (g1 & tail & -> & Lg1 & H). apply lang_alt_inv in H as [H | H].
    + apply lang_lit_cat in H as (ap & -> & Lapp). exists g1, None, false, ap. cbn [comp_lang]. auto.
    + apply lang_cat_inv in H as (oc & rest & -> & Hoc & H). apply lang_lit_cat in H as (hook & -> & Lh).
      apply lang_opt_inv in Hoc as [-> | Hoc].
      * exists g1, None, true, hook. cbn [comp_lang]. repeat split; assumption.
      * apply lang_lit_cat in Hoc as (cn & -> & Lcn).
        exists g1, (Some cn), true, hook. cbn [comp_lang tag_parts inst_comp join]. rewrite <- !app_assoc.
        repeat split; [exact Lg1 | exact Lcn | discriminate | exact Lh].
  - intros (g1 & comp & h & name & -> & Lg1 & Lc & Happ & Ln).
    assert (T : exists tail, join 46 (tag_parts g1 comp h name) = [115;110;97;112;46] ++ g1 ++ tail /\
                             lang (Alt re_app_alt re_hook_alt) tail).
    { destruct h.
      - exists ((match comp with Some cn => [43] ++ cn | None => [] end) ++ [46;104;111;111;107;46] ++ name). split.
        + destruct comp; cbn [tag_parts inst_comp join]; rewrite <- ?app_assoc; reflexivity.
        + apply L_altr. constructor; [| constructor; [apply lang_lit; reflexivity | exact Ln]].
          apply lang_opt_inv. destruct comp; [right | left; reflexivity].
          constructor; [apply lang_lit; reflexivity | exact Lc].
      - rewrite (Happ eq_refl). exists ([46] ++ name). split; [reflexivity |].
        apply L_altl. constructor; [apply lang_lit; reflexivity | exact Ln]. }
    destruct T as (tail & -> & Lt). constructor; [apply lang_lit; reflexivity |]. constructor; assumption.
Qed.

Lemma re_g1_chars s : lang re_g1 s -> forallb not_dot_plus s = true.
Proof. intros H. exact (forallb_and _ _ s (lang_avoids 46 _ s H eq_refl) (lang_avoids 43 _ s H eq_refl)). Qed.

Lemma comp_lang_chars comp : comp_lang comp -> comp_ok (fun cn => forallb not_dot cn) comp = true.
Proof. destruct comp as [cn |]; [intros H; exact (lang_avoids 46 _ cn H eq_refl) | reflexivity]. Qed.

Lemma valid_snap_name_lang s : valid_snap_name s = true -> lang re_name s.
Proof.
  intros H. apply valid_snap_name_iff in H as [H _].
  apply (lang_dashed _ _ name_char s cls_name eq_refl).
  destruct s as [|c r]; [discriminate |]. rewrite dshape_true_cons in H. rewrite cls_name. apply andb_true_iff. exact H.
Qed.

Lemma lang_name_g1 nm k :
  lang re_name nm -> lang (Opt (Cat (Lit [95]) (rep 1 9 (Cls [(48,57);(97,122)])))) k -> lang re_g1 (nm ++ k).
Proof. intros H Hk. apply lang_cat_assoc. constructor; assumption. Qed.

Lemma valid_instance_name_lang inst : valid_instance_name inst = true -> lang re_g1 inst.
Proof.
  unfold valid_instance_name. destruct (split_first 95 inst) as [[a b] |] eqn:E.
  - intros H. apply andb_true_iff in H as [Ha Hb]. apply split_first_spec in E. subst inst.
    apply lang_name_g1; [apply valid_snap_name_lang; assumption |].
    apply lang_opt_inv. right. apply lang_lit_cat. exists b. split; [reflexivity |].
    apply (lang_rep_class _ _ _ _ _ cls_name), valid_key_iff. exact Hb.
  - intros H. rewrite <- (app_nil_r inst). apply lang_name_g1; [apply valid_snap_name_lang; assumption |].
    apply lang_opt_inv. left. reflexivity.
Qed.

Lemma go_names_lang inst comp (h : bool) name :
  go_validate_instance inst = true -> comp_ok go_validate_snap comp = true ->
  (if h then go_validate_hook name else go_validate_app name) = true ->
  lang re_g1 inst /\ comp_lang comp /\ lang (if h then valid_hook else valid_app) name.
Proof.
  intros Hi Hc Hn. repeat split.
  - apply valid_instance_name_lang. rewrite <- go_validate_instance_ref. exact Hi.
  - destruct comp as [cn |]; [| exact I]. apply valid_snap_name_lang. rewrite <- go_validate_snap_ref. exact Hc.
  - destruct h; apply rmatch_lang; exact Hn.
Qed.

Lemma go_parse_model_tag inst comp (h : bool) name :
  go_validate_instance inst = true -> comp_ok go_validate_snap comp = true ->
  (if h then go_validate_hook name else go_validate_app name) = true -> (h = false -> comp = None) ->
  go_parse_security_tag (model_tag inst comp h name) = Some (inst, comp, h, name).
Proof.
  intros Hi Hc Hn Happ. destruct (go_names_lang inst comp h name Hi Hc Hn) as (Li & Lc & Ln).
  apply re_g1_chars in Li. apply comp_lang_chars in Lc.
  assert (Cn : forallb not_dot name = true) by (destruct h; exact (lang_avoids 46 _ name Ln eq_refl)).
  assert (Cp : forallb not_dot (inst_comp inst comp) = true).
  { destruct comp as [cn |]; cbn [inst_comp]; [| exact (not_dot_plus_dot _ Li)].
    rewrite forallb_app, (not_dot_plus_dot _ Li). exact Lc. }
  unfold go_parse_security_tag. rewrite (model_tag_parts _ _ _ _ Happ). unfold tag_parts.
  rewrite (splitn_parts 46 not_dot eq_refl); [| destruct h; repeat constructor; assumption | destruct h; cbn; lia].
  fold (cut_comp (inst_comp inst comp)). rewrite (cut_comp_inst_comp inst comp Li), Hi, comp_ok_negb, Hc, beq_refl.
  destruct h; cbn [length Nat.eqb orb negb].
  - rewrite beq_refl, Hn. reflexivity.
  - rewrite (Happ eq_refl), Hn. reflexivity.
Qed.

(* ParseSecurityTag succeeds exactly on the tags the daemon's generator builds from names it accepts, and returns those
   names: the tag is, byte for byte, rebuilt from the returned parts *)
Theorem go_parse_security_tag_iff tag inst comp (h : bool) name :
  go_parse_security_tag tag = Some (inst, comp, h, name) <->
  tag = model_tag inst comp h name /\
  go_validate_instance inst = true /\ comp_ok go_validate_snap comp = true /\
  (if h then go_validate_hook name else go_validate_app name) = true /\ (h = false -> comp = None).
Proof.
  split; [| intros (-> & Hi & Hc & Hn & Happ); apply go_parse_model_tag; assumption].
  (* SplitN returns snap, the instance part and one or two more parts, and the tag is their join *)
  unfold go_parse_security_tag. destruct (splitn_join 4 46 tag) as (p0 & ps & -> & <-).
  destruct ps as [|p1 [|a [|b [|? ?]]]]; try discriminate; cbn [length Nat.eqb orb negb].
  all: destruct (beq p0 lit_snap) eqn:E0; cbn [negb]; [apply beq_eq in E0; subst p0 | discriminate].
  all: fold (cut_comp p1); destruct (cut_comp p1) as [i c] eqn:Ec; apply cut_comp_spec in Ec; subst p1.
  all: destruct (go_validate_instance i) eqn:Hi; cbn [negb]; [| discriminate].
  all: rewrite comp_ok_negb; destruct (comp_ok go_validate_snap c) eqn:Hc; cbn [negb]; [| discriminate].
  - destruct c; [discriminate |]. destruct (go_validate_app a) eqn:Ha; [| discriminate].
    intros [= <- <- <- <-]. auto.
  - destruct (beq a lit_hook) eqn:Eh; [apply beq_eq in Eh; subst a | discriminate].
    destruct (go_validate_hook b) eqn:Hh; [| discriminate].
    intros [= <- <- <- <-]. repeat split; auto; discriminate.
Qed.

Lemma sc_security_tag_validate_iff tag inst comp :
  sc_security_tag_validate tag inst comp = true <->
  (length tag <= 256)%nat /\ lang sc_tag_re tag /\ tag_group1 tag = inst /\ tag_group7 tag = comp /\ comp <> Some [].
Proof.
  unfold sc_security_tag_validate, sc_security_tag_max_len.
  destruct (Nat.ltb_spec 256 (length tag)) as [Hl | Hl]; [split; [discriminate | lia] |].
  rewrite <- rmatch_lang. destruct (rmatch sc_tag_re tag); cbn [negb]; [| split; [discriminate | intros (_ & H & _); discriminate]].
  destruct comp as [cn |], (tag_group7 tag) as [g |].
  2, 3: split; [discriminate | intros (_ & _ & _ & H & _); discriminate].
  - destruct cn as [|c cn]; cbn [is_nil_b orb]; [split; [discriminate | intros (_ & _ & _ & _ & H); exfalso; apply H; reflexivity] |].
    destruct (beq g (c :: cn)) eqn:E; cbn [negb].
    + apply beq_eq in E. subst g. rewrite beq_true_iff. intuition (auto; discriminate).
    + apply beq_false_iff in E. split; [discriminate | intros (_ & _ & _ & H & _); congruence].
  - rewrite beq_true_iff. intuition (auto; discriminate).
Qed.

Theorem generated_tags_accepted (inst : bytes) (comp : option bytes) (is_hook : bool) (name : bytes) :
  go_validate_instance inst = true ->
  comp_ok go_validate_snap comp = true ->
  (if is_hook then go_validate_hook name else go_validate_app name) = true ->
  (is_hook = false -> comp = None) ->
  (length (model_tag inst comp is_hook name) <= 256)%nat ->
  sc_security_tag_validate (model_tag inst comp is_hook name) inst comp = true.
Proof.
  intros Hi Hc Hn Happ Hlen. destruct (go_names_lang inst comp is_hook name Hi Hc Hn) as (Li & Lc & Ln).
  apply sc_security_tag_validate_iff. split; [exact Hlen |]. rewrite (model_tag_parts _ _ _ _ Happ).
  destruct (tag_groups inst comp is_hook name (re_g1_chars _ Li) (comp_lang_chars _ Lc)) as [E1 E7].
  repeat split; [| exact E1 | exact E7 | intros ->; discriminate Hc].
  apply sc_tag_re_forms. exists inst, comp, is_hook, name. auto.
Qed.

Theorem parsed_tags_accepted tag inst comp (h : bool) name :
  go_parse_security_tag tag = Some (inst, comp, h, name) -> (length tag <= 256)%nat ->
  sc_security_tag_validate tag inst comp = true.
Proof.
  intros H Hl. apply go_parse_security_tag_iff in H as (-> & Hi & Hc & Hn & Ha).
  apply generated_tags_accepted; assumption.
Qed.

Theorem accepted_tags_parsed tag inst comp :
  go_validate_instance inst = true -> comp_ok go_validate_snap comp = true ->
  sc_security_tag_validate tag inst comp = true ->
  exists h name, go_parse_security_tag tag = Some (inst, comp, h, name).
Proof.
  intros Hi Hc Hsc. apply sc_security_tag_validate_iff in Hsc as (_ & Erm & Hg1 & Hg7 & _).
  apply sc_tag_re_forms in Erm as (g1 & comp' & h & name & -> & Lg1 & Lc & Happ & Ln).
  destruct (tag_groups g1 comp' h name (re_g1_chars _ Lg1) (comp_lang_chars _ Lc)) as [E1 E7].
  rewrite E1 in Hg1. rewrite E7 in Hg7. subst g1 comp'.
  exists h, name. apply go_parse_security_tag_iff. split; [symmetry; apply model_tag_parts; exact Happ |].
  repeat split; try assumption. destruct h; apply rmatch_lang; exact Ln.
Qed.

Theorem is_hook_tag_recognised inst hook :
  go_validate_instance inst = true -> go_validate_hook hook = true ->
  match inst with c :: _ => c_lower c = true | [] => False end ->
  sc_is_hook_security_tag (go_hook_tag inst None hook) = true.
Proof.
  intros Hi Hh Hc. rewrite go_validate_instance_ref in Hi. apply valid_instance_name_lang in Hi.
  destruct inst as [|c t]; [contradiction |]. apply lang_cls_cat in Hi as [_ Ht].
  apply rmatch_lang. unfold sc_hook_tag_re, go_hook_tag.
  apply lang_lit_cat. eexists. split; [reflexivity |].
  apply lang_cls_cat. cbn [app]. split; [rewrite cls_lower; exact Hc |].
  apply lang_cat_assoc. constructor; [exact Ht |].
  apply lang_lit_cat. eexists. split; [reflexivity |].
  apply lang_lit_cat. eexists. split; [reflexivity | apply rmatch_lang; exact Hh].
Qed.

(* a component hook tag is a hook tag for the daemon and is accepted by sc_security_tag_validate, but is not one for
   sc_is_hook_security_tag *)
Lemma is_hook_component_example :
  go_parse_security_tag (go_hook_tag [102;111;111] (Some [99;111;109;112]) [120]) = Some ([102;111;111], Some [99;111;109;112], true, [120]) /\
  sc_security_tag_validate (go_hook_tag [102;111;111] (Some [99;111;109;112]) [120]) [102;111;111] (Some [99;111;109;112]) = true /\
  sc_is_hook_security_tag (go_hook_tag [102;111;111] (Some [99;111;109;112]) [120]) = false.
Proof. vm_compute. auto. Qed.
