(* C06, on models/AtomicWrite.v. Atomicity rests on [shows] (what the target name can point to on disk once any part of the
   pending directory updates has reached it) and the invariant [Inv] kept by every operation within the discipline ([step_inv]);
   durability on [settled] (a directory fsync leaves nothing pending for the target) and [settled_crash]. The operation lists
   of osutil/io.go come from gen/CommitOrder.v. *)
From Coq Require Import List NArith Bool Lia PeanoNat.
Import ListNotations.
Require Import V.lib.Bytes V.gen.CommitOrder V.models.AtomicWrite V.proofs.BytesFacts.
Open Scope N_scope.

Lemma name_eqb_eq : forall a b, name_eqb a b = true <-> a = b.
Proof.
  intros [a1 a2] [b1 b2]; unfold name_eqb; cbn [fst snd]. rewrite andb_true_iff, !N.eqb_eq.
  split; [intros [-> ->]; reflexivity | intros H; inversion H; auto].
Qed.
Lemma name_eqb_refl : forall a, name_eqb a a = true.
Proof. intros; apply name_eqb_eq; reflexivity. Qed.
Lemma name_eqb_neq : forall a b, name_eqb a b = false <-> a <> b.
Proof.
  intros a b; split.
  - intros H E. apply name_eqb_eq in E. congruence.
  - intros H. destruct (name_eqb a b) eqn:E; [apply name_eqb_eq in E; contradiction | reflexivity].
Qed.

(* the view of name t once a list of pending updates (oldest first) has been applied over default d *)
Definition lookup_pend (P : list dirent) (d : option ino) (t : name) : option ino :=
  fold_left (fun acc e => if name_eqb (fst e) t then snd e else acc) P d.

Lemma dlookup_rev_app : forall P D t, dlookup (rev P ++ D) t = lookup_pend P (dlookup D t) t.
Proof.
  induction P as [|[m v] P IH]; intros D t; cbn [rev]; [reflexivity|].
  rewrite <- app_assoc. cbn [app]. rewrite IH. reflexivity.
Qed.

Lemma lookup_pend_app : forall P Q d t, lookup_pend (P ++ Q) d t = lookup_pend Q (lookup_pend P d t) t.
Proof. intros; unfold lookup_pend; apply fold_left_app. Qed.

Lemma lookup_pend_cases : forall P d t,
  lookup_pend P d t = d \/ exists e, In e P /\ name_eqb (fst e) t = true /\ snd e = lookup_pend P d t.
Proof.
  induction P as [|e P IH]; intros d t; [left; reflexivity|].
  cbn [lookup_pend fold_left]. fold (lookup_pend P (if name_eqb (fst e) t then snd e else d) t).
  destruct (IH (if name_eqb (fst e) t then snd e else d) t) as [H | (e' & Hin & Hn & Hs)].
  - rewrite H. destruct (name_eqb (fst e) t) eqn:E; [right; exists e; cbn; auto | left; reflexivity].
  - right; exists e'; cbn; auto.
Qed.

Lemma lookup_pend_none : forall P d t,
  (forall e, In e P -> name_eqb (fst e) t = false) -> lookup_pend P d t = d.
Proof.
  induction P as [|e P IH]; intros d t H; [reflexivity|].
  cbn [lookup_pend fold_left]. rewrite (H e (or_introl eq_refl)). apply IH. intros; apply H; right; assumption.
Qed.

Lemma lookup_pend_filter : forall f P d t,
  (forall e, name_eqb (fst e) t = true -> f e = true) ->
  lookup_pend (filter f P) d t = lookup_pend P d t.
Proof.
  intros f; induction P as [|e P IH]; intros d t H; [reflexivity|].
  cbn [filter]. destruct (f e) eqn:Fe.
  - cbn [lookup_pend fold_left]. apply IH; assumption.
  - cbn [lookup_pend fold_left]. destruct (name_eqb (fst e) t) eqn:E.
    + rewrite (H e E) in Fe; discriminate.
    + apply IH; assumption.
Qed.

Lemma lookup_pend_filter_none : forall f P d t,
  (forall e, name_eqb (fst e) t = true -> f e = false) ->
  lookup_pend (filter f P) d t = d.
Proof.
  intros. apply lookup_pend_none. intros e Hin. apply filter_In in Hin as [_ Hf].
  destruct (name_eqb (fst e) t) eqn:E; [rewrite (H e E) in Hf; discriminate | reflexivity].
Qed.

Lemma kept_incl : forall k P e, In e (kept k P) -> In e P.
Proof.
  intros k P; revert k; induction P as [|x P IH]; intros k e H; [destruct k; cbn in H; contradiction|].
  destruct k as [|[|] k]; cbn in H; try contradiction.
  - destruct H as [->|H]; [left; reflexivity | right; eapply IH; eassumption].
  - right; eapply IH; eassumption.
Qed.

Definition good (s : st) (V : list (option bytes)) (v : option ino) : Prop :=
  match v with
  | None => In None V
  | Some i => exists c, ilookup (inodes s) i = Some (mkInode c []) /\ In (Some c) V
  end.

Definition fresh (s : st) : Prop := forall i nd, ilookup (inodes s) i = Some nd -> i < next s.

(* what name t can point to on disk once any part of the pending updates has reached it *)
Definition shows (t : name) (s : st) (v : option ino) : Prop :=
  dlookup (ddir s) t = v \/ exists e, In e (pend s) /\ name_eqb (fst e) t = true /\ snd e = v.

(* ... and once all of them have *)
Definition flushed_view (t : name) (s : st) : option ino := lookup_pend (pend s) (dlookup (ddir s) t) t.

(* V lists the allowed contents, oldest first: whatever t can show holds one of them, fully synced, and with everything
   pending applied it shows the last *)
Definition Inv (t : name) (s : st) (V : list (option bytes)) : Prop :=
  (forall v, shows t s v -> good s V v) /\ good s [last V None] (flushed_view t s) /\ fresh s.

(* initial states of the theorems: nothing pending, the target absent (old = None) or a fully synced file *)
Definition init_ok (t : name) (s : st) (old : option bytes) : Prop :=
  pend s = [] /\ good s [old] (dlookup (ddir s) t) /\ fresh s.

Lemma good_incl : forall s V V' v, good s V v -> incl V V' -> good s V' v.
Proof.
  intros s V V' [i|] H I; cbn in *; [destruct H as (c & H1 & H2); exists c; auto | auto].
Qed.

Lemma good_same : forall s s' V v,
  good s V v ->
  (forall i c, v = Some i -> ilookup (inodes s) i = Some (mkInode c []) -> ilookup (inodes s') i = Some (mkInode c [])) ->
  good s' V v.
Proof.
  intros s s' V [i|] H K; cbn in *; [destruct H as (c & H1 & H2); exists c; split; auto | auto].
Qed.

Lemma shows_lookup_pend : forall t s P, incl P (pend s) -> shows t s (lookup_pend P (dlookup (ddir s) t) t).
Proof.
  intros t s P I. destruct (lookup_pend_cases P (dlookup (ddir s) t) t) as [H | (e & Hin & Hn & Hs)].
  - left. symmetry. exact H.
  - right. exists e. auto.
Qed.

Lemma flushed_shows : forall t s, shows t s (flushed_view t s).
Proof. intros t s. apply shows_lookup_pend, incl_refl. Qed.

Lemma shows_published : forall t s i, shows t s (Some i) -> published t s i = true.
Proof.
  intros t s i [H | (e & Hin & Hn & Hs)]; unfold published.
  - rewrite H, N.eqb_refl. apply orb_true_r.
  - apply orb_true_iff; left. apply existsb_exists. exists e; split; [assumption|].
    unfold points_to. rewrite Hn, Hs, N.eqb_refl; reflexivity.
Qed.

Lemma clean_inode : forall s i, clean s i = true ->
  exists c, ilookup (inodes s) i = Some (mkInode c []) /\ vread s i = Some c.
Proof.
  intros s i H. unfold clean, vread in *. destruct (ilookup (inodes s) i) as [[c [|]]|]; try discriminate.
  exists c. cbn. rewrite app_nil_r. split; reflexivity.
Qed.

Definition op_versions (t : name) (s : st) (o : op) : list (option bytes) :=
  match o with
  | Rename a b => if name_eqb b t then match dlookup (vdir s) a with Some i => [vread s i] | None => [] end else []
  | _ => []
  end.

Lemma versions_cons : forall t s o r, versions t s (o :: r) = op_versions t s o ++ versions t (step s o) r.
Proof. reflexivity. Qed.

Lemma op_versions_other : forall t s o, is_rename_onto t o = false -> op_versions t s o = [].
Proof. intros t s o H. destruct o; try reflexivity. cbn in *. rewrite H. reflexivity. Qed.

Lemma fresh_new : forall s nd, fresh s ->
  fresh (mkSt (vdir s) (ddir s) (pend s) ((next s, nd) :: inodes s) (next s + 1)).
Proof.
  intros s nd F i nd' H; cbn in *. destruct (next s =? i) eqn:E; [apply N.eqb_eq in E; lia | apply F in H; lia].
Qed.

Lemma fresh_upd : forall s i nd nd', fresh s -> ilookup (inodes s) i = Some nd -> fresh (upd_inode s i nd').
Proof.
  intros s i nd nd' F Hi k nd'' H; cbn in H.
  destruct (i =? k) eqn:E; [apply N.eqb_eq in E; subst k |]; eapply F; eassumption.
Qed.

Lemma ilookup_new : forall s i nd c, fresh s -> ilookup (inodes s) i = Some c ->
  ilookup ((next s, nd) :: inodes s) i = Some c.
Proof.
  intros s i nd c F H; cbn. destruct (next s =? i) eqn:E; [apply N.eqb_eq in E; apply F in H; lia | assumption].
Qed.

(* What one operation does to the inodes: a fully synced inode that t may show stays as it is (it is never written
   again, and an fsync does not change it), and inode numbers stay below [next] *)
Lemma step_inodes : forall t s o, fresh s -> op_safe t s o = true ->
  fresh (step s o) /\
  forall i c, shows t s (Some i) -> ilookup (inodes s) i = Some (mkInode c []) ->
              ilookup (inodes (step s o)) i = Some (mkInode c []).
Proof.
  intros t s o Hf Hs. destruct o as [n | j data | j | | a b | d | n | n data]; cbn [step].
  - split; [apply fresh_new; assumption | intros i c _ H; apply ilookup_new; assumption].
  - destruct (ilookup (inodes s) j) as [nd|] eqn:Ej; [|auto]. split; [eapply fresh_upd; eassumption|].
    intros i c Hi H; cbn. destruct (j =? i) eqn:E; [|assumption]. apply N.eqb_eq in E; subst j.
    cbn [op_safe] in Hs. rewrite (shows_published t s i Hi) in Hs; discriminate.
  - destruct (ilookup (inodes s) j) as [nd|] eqn:Ej; [|auto]. split; [eapply fresh_upd; eassumption|].
    intros i c _ H; cbn. destruct (j =? i) eqn:E; [|assumption]. apply N.eqb_eq in E; subst j.
    rewrite Ej in H; inversion H; subst nd; cbn. rewrite app_nil_r; reflexivity.
  - auto.
  - destruct (dlookup (vdir s) a); auto.
  - auto.
  - auto.
  - split; [apply fresh_new; assumption | intros i c _ H; apply ilookup_new; assumption].
Qed.

Lemma step_dir : forall t s o, op_safe t s o = true -> is_rename_onto t o = false ->
  (ddir (step s o) = ddir s /\
   exists new, pend (step s o) = pend s ++ new /\ forall e, In e new -> name_eqb (fst e) t = false) \/
  (exists d, o = FsyncDir d).
Proof.
  intros t s o Hs Hr.
  assert (Same : forall s', ddir s' = ddir s -> pend s' = pend s ->
            ddir s' = ddir s /\ exists new, pend s' = pend s ++ new /\ forall e, In e new -> name_eqb (fst e) t = false).
  { intros s' Hd Hp. split; [exact Hd|]. exists []. rewrite app_nil_r. split; [exact Hp | intros e []]. }
  destruct o as [n | j data | j | | a b | d | n | n data]; cbn [op_safe is_rename_onto] in Hs, Hr; cbn [step];
    try apply negb_true_iff in Hs.
  - left. split; [reflexivity|]. eexists; split; [reflexivity|]. intros e [<-|[]]. exact Hs.
  - left. destruct (ilookup (inodes s) j); apply Same; reflexivity.
  - left. destruct (ilookup (inodes s) j); apply Same; reflexivity.
  - left. apply Same; reflexivity.
  - left. apply andb_true_iff in Hs as [Ha _]. apply negb_true_iff in Ha.
    destruct (dlookup (vdir s) a); [|apply Same; reflexivity].
    split; [reflexivity|]. eexists; split; [reflexivity|]. intros e [<-|[<-|[]]]; assumption.
  - right. exists d. reflexivity.
  - left. split; [reflexivity|]. eexists; split; [reflexivity|]. intros e [<-|[]]. exact Hs.
  - left. split; [reflexivity|]. eexists; split; [reflexivity|]. intros e [<-|[]]. exact Hs.
Qed.

Lemma step_shows : forall t s o v, op_safe t s o = true -> is_rename_onto t o = false ->
  shows t (step s o) v -> shows t s v.
Proof.
  intros t s o v Hs Hr Hv. destruct (step_dir t s o Hs Hr) as [(Hd & new & Hp & Hnew) | (d & ->)].
  - destruct Hv as [H | (e & Hin & Hn & He)]; [left; rewrite <- Hd; exact H|].
    rewrite Hp in Hin. apply in_app_or in Hin as [Hin|Hin]; [right; exists e; auto | rewrite (Hnew e Hin) in Hn; discriminate].
  - unfold shows in Hv. cbn [step ddir pend] in Hv. destruct Hv as [H | (e & Hin & Hn & He)].
    + rewrite dlookup_rev_app in H. rewrite <- H. apply shows_lookup_pend. intros e He. apply filter_In in He. tauto.
    + apply filter_In in Hin as [Hin _]. right; exists e; auto.
Qed.

Lemma in_dir_name : forall d e t, name_eqb (fst e) t = true -> in_dir d e = (fst t =? d).
Proof. intros d e t H; apply name_eqb_eq in H; unfold in_dir; rewrite H; reflexivity. Qed.

Lemma flushed_fsyncdir : forall t s d, flushed_view t (step s (FsyncDir d)) = flushed_view t s.
Proof.
  intros t s d; unfold flushed_view; cbn [step pend ddir]. rewrite dlookup_rev_app.
  (* the pending updates of t are all in directory d, or none is *)
  assert (K : forall e, name_eqb (fst e) t = true -> in_dir d e = (fst t =? d)) by (intros e; apply in_dir_name).
  destruct (fst t =? d).
  - rewrite lookup_pend_filter_none by (intros e H; rewrite (K e H); reflexivity). apply lookup_pend_filter, K.
  - rewrite (lookup_pend_filter_none (in_dir d)) by exact K. apply lookup_pend_filter. intros e H; rewrite (K e H); reflexivity.
Qed.

Lemma step_flushed : forall t s o, op_safe t s o = true -> is_rename_onto t o = false ->
  flushed_view t (step s o) = flushed_view t s.
Proof.
  intros t s o Hs Hr. destruct (step_dir t s o Hs Hr) as [(Hd & new & Hp & Hnew) | (d & ->)]; [|apply flushed_fsyncdir].
  unfold flushed_view. rewrite Hd, Hp, lookup_pend_app. apply lookup_pend_none, Hnew.
Qed.

Lemma step_inv : forall t s V o,
  Inv t s V -> op_safe t s o = true -> Inv t (step s o) (V ++ op_versions t s o).
Proof.
  intros t s V o (Hg & Hl & Hf) Hs. destruct (step_inodes t s o Hf Hs) as [Hf' Hi].
  destruct (is_rename_onto t o) eqn:Hr.
  2: { assert (Keep : forall W v, shows t s v -> good s W v -> good (step s o) W v).
       { intros W v Hv G. eapply good_same; [exact G|]. intros i c -> H. apply Hi; assumption. }
       rewrite (op_versions_other t s o Hr), app_nil_r. split; [|split; [|exact Hf']].
       - intros v Hv. apply step_shows in Hv; [|assumption..]. apply Keep; auto.
       - rewrite step_flushed by assumption. apply Keep; [apply flushed_shows | exact Hl]. }
  (* a rename onto t: the renamed inode is fully synced, and its content joins the allowed ones as the last *)
  destruct o as [| | | | a b | | |]; try discriminate. cbn [is_rename_onto] in Hr. cbn [op_safe] in Hs. rewrite Hr in Hs.
  apply name_eqb_eq in Hr; subst b. apply andb_true_iff in Hs as [Ha Hb]. apply negb_true_iff in Ha.
  revert Hf'. cbn [step op_versions]. rewrite name_eqb_refl.
  destruct (dlookup (vdir s) a) as [i|] eqn:Ea; intros Hf'; [|rewrite app_nil_r; exact (conj Hg (conj Hl Hf))].
  destruct (clean_inode s i Hb) as (c & Ei & ->).
  assert (New : forall W, good s (W ++ [Some c]) (Some i)).
  { intros W. exists c. split; [exact Ei | apply in_or_app; right; left; reflexivity]. }
  assert (Old : forall v, shows t s v -> good s (V ++ [Some c]) v).
  { intros v Hv. eapply good_incl; [apply Hg, Hv | apply incl_appl, incl_refl]. }
  split; [|split; [|exact Hf']].
  - intros v [H | (e & Hin & Hn & He)]; [apply Old; left; exact H|]. cbn [pend] in Hin.
    apply in_app_or in Hin as [Hin | [<- | [<- | []]]]; [apply Old; right; exists e; auto | cbn in Hn; congruence |].
    subst v. apply New.
  - rewrite last_last. unfold flushed_view; cbn [pend ddir]. rewrite lookup_pend_app. cbn [lookup_pend fold_left fst snd].
    rewrite Ha, name_eqb_refl. apply (New []).
Qed.

Lemma safe_from_app : forall t a s b, safe_from t s (a ++ b) = safe_from t s a && safe_from t (run s a) b.
Proof.
  intros t; induction a as [|o a IH]; intros s b; [reflexivity|].
  cbn [app safe_from run fold_left]. fold (run (step s o) a). rewrite IH, andb_assoc; reflexivity.
Qed.

Lemma versions_app : forall t a s b, versions t s (a ++ b) = versions t s a ++ versions t (run s a) b.
Proof.
  intros t; induction a as [|o a IH]; intros s b; [reflexivity|].
  cbn [app run fold_left]. fold (run (step s o) a). rewrite !versions_cons, IH, app_assoc; reflexivity.
Qed.

Lemma versions_no_rename : forall t tr s, existsb (is_rename_onto t) tr = false -> versions t s tr = [].
Proof.
  intros t; induction tr as [|o tr IH]; intros s H; [reflexivity|]. cbn [existsb] in H. apply orb_false_iff in H as [Ho H].
  rewrite versions_cons, (IH _ H), app_nil_r. apply op_versions_other, Ho.
Qed.

Lemma run_app : forall a b s, run s (a ++ b) = run (run s a) b.
Proof. intros; unfold run; apply fold_left_app. Qed.

Lemma run_inv : forall t p s V, Inv t s V -> safe_from t s p = true -> Inv t (run s p) (V ++ versions t s p).
Proof.
  intros t; induction p as [|o p IH]; intros s V HI HS.
  - cbn. rewrite app_nil_r; assumption.
  - cbn [safe_from] in HS. apply andb_true_iff in HS as [H1 H2].
    cbn [run fold_left]. fold (run (step s o) p). rewrite versions_cons, app_assoc.
    apply IH; [apply step_inv; assumption | assumption].
Qed.

Lemma crash_good : forall t s W keep cut,
  good s W (lookup_pend (kept keep (pend s)) (dlookup (ddir s) t) t) -> In (crash_read s keep cut t) W.
Proof.
  intros t s W keep cut G. unfold crash_read, crash_dir. rewrite dlookup_rev_app.
  destruct (lookup_pend (kept keep (pend s)) (dlookup (ddir s) t) t) as [i|]; cbn in G; [|assumption].
  destruct G as (c & H1 & H2). rewrite H1. cbn. rewrite firstn_nil, app_nil_r. assumption.
Qed.

Lemma inv_crash : forall t s V keep cut, Inv t s V -> In (crash_read s keep cut t) V.
Proof.
  intros t s V keep cut (Hg & _). apply crash_good, Hg, shows_lookup_pend. exact (kept_incl keep (pend s)).
Qed.

Lemma init_inv : forall t s old, init_ok t s old -> Inv t s [old].
Proof.
  intros t s old (Hp & Hd & Hf). split; [|split; [unfold flushed_view; rewrite Hp; exact Hd | exact Hf]].
  intros v [H | (e & Hin & _)]; [rewrite <- H; exact Hd | rewrite Hp in Hin; destruct Hin].
Qed.

Theorem shape_safe : forall (t : name) (s0 : st) (old : option bytes) (tr : list op),
  init_ok t s0 old -> safe_from t s0 tr = true ->
  forall p q, tr = p ++ q ->
  forall keep cut, In (crash_read (run s0 p) keep cut t) (old :: versions t s0 p).
Proof.
  intros t s0 old tr HI HS p q -> keep cut. rewrite safe_from_app in HS. apply andb_true_iff in HS as [HS _].
  apply (inv_crash t (run s0 p) ([old] ++ versions t s0 p)). apply run_inv; [apply init_inv; assumption | assumption].
Qed.

Lemma crash_within : forall t s0 old tr, init_ok t s0 old -> safe_from t s0 tr = true ->
  forall p q, tr = p ++ q -> forall keep cut, In (crash_read (run s0 p) keep cut t) (old :: versions t s0 tr).
Proof.
  intros t s0 old tr HI HS p q Hpq keep cut.
  destruct (shape_safe t s0 old tr HI HS p q Hpq keep cut) as [H|H]; [left; exact H | right].
  rewrite Hpq, versions_app. apply in_or_app; left; exact H.
Qed.

Definition settled (t : name) (s : st) : Prop := forall e, In e (pend s) -> name_eqb (fst e) t = false.

Lemma step_settled : forall t s o, op_safe t s o = true -> is_rename_onto t o = false -> settled t s -> settled t (step s o).
Proof.
  intros t s o Hs Hr Q e Hin. destruct (step_dir t s o Hs Hr) as [(Hd & new & Hp & Hnew) | (d & ->)].
  - rewrite Hp in Hin. apply in_app_or in Hin as [Hin|Hin]; [apply Q | apply Hnew]; assumption.
  - cbn [step pend] in Hin. apply filter_In in Hin as [Hin _]. apply Q; assumption.
Qed.

Lemma fsyncdir_settled : forall t s, settled t (step s (FsyncDir (fst t))).
Proof.
  intros t s e Hin. cbn [step pend] in Hin. apply filter_In in Hin as [_ Hn].
  destruct (name_eqb (fst e) t) eqn:En; [|reflexivity].
  rewrite (in_dir_name (fst t) e t En), N.eqb_refl in Hn. discriminate.
Qed.

Lemma settled_run : forall t q s,
  safe_from t s q = true -> existsb (is_rename_onto t) q = false ->
  (settled t s \/ existsb (is_fsyncdir (fst t)) q = true) -> settled t (run s q).
Proof.
  intros t; induction q as [|o q IH]; intros s HS HR HQ.
  - cbn in *. destruct HQ as [HQ|HQ]; [exact HQ | discriminate].
  - cbn [safe_from existsb] in *. apply andb_true_iff in HS as [S1 S2]. apply orb_false_iff in HR as [R1 R2].
    cbn [run fold_left]. fold (run (step s o) q). apply IH; try assumption.
    destruct HQ as [HQ|HQ]; [left; apply step_settled; assumption|]. apply orb_true_iff in HQ as [HQ|HQ]; [left | right; assumption].
    destruct o; try discriminate. cbn in HQ. apply N.eqb_eq in HQ; subst d. apply fsyncdir_settled.
Qed.

(* Durability in general: once nothing pending concerns t, every crash shows the content published last *)
Theorem settled_crash : forall t s V keep cut, Inv t s V -> settled t s -> crash_read s keep cut t = last V None.
Proof.
  intros t s V keep cut (_ & Hl & _) Q. unfold flushed_view in Hl. rewrite lookup_pend_none in Hl by exact Q.
  destruct (crash_good t s [last V None] keep cut) as [E|[]]; [|symmetry; exact E].
  rewrite lookup_pend_none by (intros e Hin; apply Q; eapply kept_incl; eassumption). exact Hl.
Qed.

Theorem success_is_durable : forall (t : name) (s0 : st) (old : option bytes) (p q : list op) (a : name) (i : ino),
  init_ok t s0 old ->
  safe_from t s0 (p ++ Rename a t :: q) = true ->
  dlookup (vdir (run s0 p)) a = Some i ->
  existsb (is_rename_onto t) q = false ->
  existsb (is_fsyncdir (fst t)) q = true ->
  forall keep cut, crash_read (run s0 (p ++ Rename a t :: q)) keep cut t = vread (run s0 p) i.
Proof.
  intros t s0 old p q a i HI HS Ha HR HD keep cut.
  pose proof (run_inv t _ s0 [old] (init_inv t s0 old HI) HS) as I.
  rewrite versions_app, versions_cons in I. cbn [op_versions] in I.
  rewrite name_eqb_refl, Ha, (versions_no_rename t q _ HR), app_nil_r, app_assoc in I.
  rewrite (settled_crash _ _ _ keep cut I); [apply last_last|].
  rewrite safe_from_app in HS. apply andb_true_iff in HS as [_ HS]. cbn [safe_from] in HS. apply andb_true_iff in HS as [_ HS].
  rewrite run_app. apply (settled_run t q (step (run s0 p) (Rename a t))); auto.
Qed.

(* [k] cut or padded with false to length n: the same crash scenario, in the form [all_keeps] lists *)
Fixpoint norm (k : list bool) (n : nat) : list bool :=
  match n with
  | O => []
  | S m => match k with [] => false :: norm [] m | b :: r => b :: norm r m end
  end.

Lemma kept_nil : forall P, kept [] P = [].
Proof. destruct P; reflexivity. Qed.

Lemma kept_norm : forall P k, kept k P = kept (norm k (length P)) P.
Proof.
  induction P as [|e P IH]; intros k; [destruct k; reflexivity|].
  destruct k as [|[|] k]; cbn [length norm kept].
  - rewrite <- IH, kept_nil; reflexivity.
  - rewrite <- IH; reflexivity.
  - rewrite <- IH; reflexivity.
Qed.

Lemma norm_in : forall n k, In (norm k n) (all_keeps n).
Proof.
  induction n as [|n IH]; intros k; [left; reflexivity|].
  cbn [all_keeps]. apply in_flat_map.
  destruct k as [|b r]; cbn [norm].
  - exists (norm [] n); split; [apply IH | right; left; reflexivity].
  - exists (norm r n); split; [apply IH | destruct b; [left | right; left]; reflexivity].
Qed.

Lemma firstn_prefixes : forall (l : bytes) k, In (firstn k l) (prefixes l).
Proof.
  induction l as [|x l IH]; intros k.
  - rewrite firstn_nil; left; reflexivity.
  - destruct k; cbn [firstn prefixes]; [left; reflexivity | right; apply in_map; apply IH].
Qed.

Theorem crash_reads_complete : forall s keep cut n, In (crash_read s keep cut n) (crash_reads s n).
Proof.
  intros s keep cut n. unfold crash_reads. apply in_flat_map.
  exists (norm keep (length (pend s))); split; [apply norm_in|].
  unfold crash_read, crash_dir. rewrite <- kept_norm.
  destruct (dlookup (rev (kept keep (pend s)) ++ ddir s) n) as [i|]; [|left; reflexivity].
  destruct (ilookup (inodes s) i) as [nd|]; [|left; reflexivity].
  apply (in_map (fun p => Some (synced nd ++ p))). apply firstn_prefixes.
Qed.

Lemma obytes_eqb_eq : forall a b, obytes_eqb a b = true -> a = b.
Proof. intros [a|] [b|]; cbn; try discriminate; auto. intros H; f_equal; apply beq_eq, H. Qed.

Theorem commit_safe_shape : forall (t tmp : name) (s : st) (i : ino) (nd : inode) (ch mt : bool),
  name_eqb tmp t = false ->
  dlookup (vdir s) tmp = Some i ->
  ilookup (inodes s) i = Some nd ->
  let tr := commit_ops (mkCfg false ch mt) i tmp t in
  safe_from t s tr = true /\
  versions t s tr = [Some (synced nd ++ unsynced nd)] /\
  exists p, tr = p ++ [Rename tmp t; FsyncDir (fst t)] /\ dlookup (vdir (run s p)) tmp = Some i /\
            vread (run s p) i = Some (synced nd ++ unsynced nd).
Proof.
  intros t tmp s i nd ch mt Hn Hv Hi.
  assert (Hn' : tmp <> t) by (apply name_eqb_neq; assumption).
  destruct ch, mt; cbv [commit_ops commit_calls flat_map guard_on unsafe_io do_chown do_mtime negb fst snd commit_call_ops app];
    cbn [safe_from op_safe versions step andb]; rewrite ?Hi; unfold upd_inode; cbn [vdir inodes andb];
    rewrite ?Hn, ?name_eqb_refl, ?Hv; cbn [negb andb]; unfold clean; cbn [ilookup inodes]; rewrite ?N.eqb_refl; cbn [unsynced is_nil_b];
    (split; [reflexivity|]); (split; [unfold vread; cbn [ilookup inodes]; rewrite ?N.eqb_refl; cbn; rewrite ?app_nil_r; reflexivity|]).
  all: match goal with |- exists p, ?tr = _ /\ _ => exists (removelast (removelast tr)) end;
    cbn [removelast]; (split; [reflexivity|]); cbn [run fold_left step]; rewrite ?Hi; unfold upd_inode, vread;
    cbn [vdir inodes ilookup]; rewrite ?N.eqb_refl; cbn; rewrite ?app_nil_r; auto.
Qed.

Lemma write_ops_eq : forall c i tmp t chunks,
  write_ops c i tmp t chunks = Creat tmp :: map (Write i) chunks ++ commit_ops c i tmp t.
Proof. intros; cbv [write_ops write_calls flat_map snd]. rewrite app_nil_r; reflexivity. Qed.

Lemma run_writes : forall t i chunks s c u,
  ilookup (inodes s) i = Some (mkInode c u) ->
  let s' := run s (map (Write i) chunks) in
  vdir s' = vdir s /\ ilookup (inodes s') i = Some (mkInode c (u ++ concat chunks)) /\
  (published t s i = false -> safe_from t s (map (Write i) chunks) = true).
Proof.
  intros t i; induction chunks as [|d chunks IH]; intros s c u H; cbv zeta; cbn [map run fold_left concat safe_from op_safe].
  - rewrite app_nil_r; auto.
  - fold (run (step s (Write i d)) (map (Write i) chunks)).
    assert (St : step s (Write i d) = upd_inode s i (mkInode c (u ++ d))) by (cbn [step]; rewrite H; reflexivity).
    rewrite St.
    assert (H' : ilookup (inodes (upd_inode s i (mkInode c (u ++ d)))) i = Some (mkInode c (u ++ d))).
    { cbn. rewrite N.eqb_refl; reflexivity. }
    destruct (IH _ _ _ H') as (A & E & F).
    rewrite A, E, <- app_assoc. repeat split. intros P. rewrite P. exact (F P).
Qed.

Lemma published_upd : forall t s j nd i, published t (upd_inode s j nd) i = published t s i.
Proof. reflexivity. Qed.

Lemma no_rename_in_writes : forall t i chunks, existsb (is_rename_onto t) (map (Write i) chunks) = false.
Proof. intros t i; induction chunks as [|d c IH]; [reflexivity | exact IH]. Qed.

(* the common start of AtomicWriteChown's operation lists: the temp file is created and written. The target is not touched,
   nothing is published, and the temp name points to the new inode, which holds the chunks unsynced *)
Lemma write_prefix : forall (t tmp : name) (s0 : st) (old : option bytes) (chunks : list bytes),
  init_ok t s0 old -> name_eqb tmp t = false ->
  let i := next s0 in
  let s2 := run (step s0 (Creat tmp)) (map (Write i) chunks) in
  dlookup (vdir s2) tmp = Some i /\ ilookup (inodes s2) i = Some (mkInode [] (concat chunks)) /\
  (forall r, safe_from t s0 (Creat tmp :: map (Write i) chunks ++ r) = safe_from t s2 r) /\
  (forall r, versions t s0 (Creat tmp :: map (Write i) chunks ++ r) = versions t s2 r).
Proof.
  intros t tmp s0 old chunks (Hp0 & Hd0 & Hf0) Hn i. set (s1 := step s0 (Creat tmp)). intros s2.
  assert (E1 : ilookup (inodes s1) i = Some (mkInode [] [])) by (cbn; unfold i; rewrite N.eqb_refl; reflexivity).
  destruct (run_writes t i chunks s1 [] [] E1) as (Av & Ai & Sw). cbn [app] in Ai. fold s2 in Av, Ai.
  assert (Pub : published t s1 i = false).
  { unfold published; cbn [s1 step pend ddir]. rewrite Hp0; cbn [app existsb]. unfold points_to; cbn [fst snd]. rewrite Hn; cbn [andb orb].
    destruct (dlookup (ddir s0) t) as [j|] eqn:Ej; [|reflexivity]. cbn in Hd0. destruct Hd0 as (c & Hc & _).
    apply Hf0 in Hc. apply N.eqb_neq. unfold i; lia. }
  split; [rewrite Av; cbn; rewrite name_eqb_refl; reflexivity|]. split; [exact Ai|]. split; intros r.
  - cbn [safe_from op_safe]. rewrite Hn; cbn [negb andb]. fold s1. rewrite safe_from_app, (Sw Pub). reflexivity.
  - rewrite versions_cons; cbn [op_versions app]. fold s1. rewrite versions_app, (versions_no_rename t _ _ (no_rename_in_writes t i chunks)). reflexivity.
Qed.

Theorem atomic_write_safe : forall (t tmp : name) (s0 : st) (old : option bytes) (chunks : list bytes) (ch mt : bool),
  init_ok t s0 old -> name_eqb tmp t = false ->
  let tr := write_ops (mkCfg false ch mt) (next s0) tmp t chunks in
  safe_from t s0 tr = true /\
  versions t s0 tr = [Some (concat chunks)] /\
  (forall p q, tr = p ++ q -> forall keep cut, In (crash_read (run s0 p) keep cut t) [old; Some (concat chunks)]) /\
  (forall keep cut, crash_read (run s0 tr) keep cut t = Some (concat chunks)).
Proof.
  intros t tmp s0 old chunks ch mt HI Hn tr.
  destruct (write_prefix t tmp s0 old chunks HI Hn) as (Hv2 & Ai & PS & PV). cbv zeta in *.
  set (i := next s0) in *. set (s2 := run (step s0 (Creat tmp)) (map (Write i) chunks)) in *.
  destruct (commit_safe_shape t tmp s2 i _ ch mt Hn Hv2 Ai) as (C1 & C2 & pc & C3 & _). cbn [synced unsynced app] in C2.
  assert (TR : tr = Creat tmp :: map (Write i) chunks ++ commit_ops (mkCfg false ch mt) i tmp t) by apply write_ops_eq.
  assert (S : safe_from t s0 tr = true) by (rewrite TR, PS; exact C1).
  assert (Vs : versions t s0 tr = [Some (concat chunks)]) by (rewrite TR, PV; exact C2).
  split; [exact S | split; [exact Vs | split]].
  - rewrite <- Vs. exact (crash_within t s0 old tr HI S).
  - (* the commit ends with the directory fsync, and the last content of [old; new] is the new one *)
    intros keep cut. pose proof (run_inv t tr s0 [old] (init_inv t s0 old HI) S) as I. rewrite Vs in I.
    rewrite (settled_crash _ _ _ keep cut I); [reflexivity|].
    rewrite TR, C3. change [Rename tmp t; FsyncDir (fst t)] with ([Rename tmp t] ++ [FsyncDir (fst t)]).
    rewrite !app_assoc, app_comm_cons, run_app. exact (fsyncdir_settled t _).
Qed.

Theorem atomic_rename_safe : forall (t a : name) (s : st) (i : ino),
  name_eqb a t = false -> dlookup (vdir s) a = Some i -> clean s i = true ->
  let tr := rename_ops (mkCfg false false false) a t in
  safe_from t s tr = true /\
  exists q, tr = Rename a t :: q /\ existsb (is_fsyncdir (fst t)) q = true /\ existsb (is_rename_onto t) q = false.
Proof.
  intros t a s i Hn Ha Hc.
  cbv [rename_ops rename_calls flat_map guard_on unsafe_io negb fst snd app andb].
  destruct a as [a1 a2], t as [t1 t2]. cbn [fst snd] in *.
  destruct (a1 =? t1) eqn:E; cbn [negb app safe_from op_safe andb step]; rewrite ?Hn, ?name_eqb_refl, ?Ha, ?Hc; cbn [negb andb].
  - split; [reflexivity|]. eexists; split; [reflexivity|]. cbn [existsb is_fsyncdir is_rename_onto fst]. rewrite E. split; reflexivity.
  - split; [reflexivity|]. eexists; split; [reflexivity|]. cbn [existsb is_fsyncdir is_rename_onto fst]. rewrite N.eqb_refl, orb_true_r. split; reflexivity.
Qed.

Lemma commit_ops_active : forall c i tmp t,
  commit_ops c i tmp t = flat_map (fun gc => commit_call_ops i tmp t (snd gc)) (active_commit_calls c).
Proof.
  intros c i tmp t. unfold commit_ops, active_commit_calls. induction commit_calls as [|gc l IH]; [reflexivity|].
  cbn [filter flat_map]. destruct (guard_on c false (fst gc)); cbn [flat_map]; rewrite IH; reflexivity.
Qed.

Lemma commit_ops_f_all : forall c i tmp t k, (length (active_commit_calls c) <= k)%nat ->
  commit_ops_f c i tmp t k = commit_ops c i tmp t.
Proof.
  intros c i tmp t k H. unfold commit_ops_f. rewrite firstn_all2 by exact H.
  assert (E : Nat.ltb k (length (active_commit_calls c)) = false) by (apply Nat.ltb_ge; exact H).
  rewrite E, app_nil_r. symmetry. apply commit_ops_active.
Qed.

(* The calls that succeeded are a prefix of the full commit: as safe as the whole, and they publish nothing or what the whole
   publishes. The cleanup that follows a failure touches only the temp name. *)
Theorem commit_error_exits : forall (t tmp : name) (s : st) (i : ino) (nd : inode) (ch mt : bool) (k : nat),
  name_eqb tmp t = false -> dlookup (vdir s) tmp = Some i -> ilookup (inodes s) i = Some nd ->
  let tr := commit_ops_f (mkCfg false ch mt) i tmp t k in
  safe_from t s tr = true /\
  (versions t s tr = [] \/ versions t s tr = [Some (synced nd ++ unsynced nd)]) /\
  (existsb (is_rename_onto t) tr = false -> versions t s tr = []).
Proof.
  intros t tmp s i nd ch mt k Hn Hv Hi tr.
  destruct (commit_safe_shape t tmp s i nd ch mt Hn Hv Hi) as (A & B & _). cbv zeta in A, B.
  rewrite commit_ops_active, <- (firstn_skipn k (active_commit_calls _)), flat_map_app in A, B.
  rewrite safe_from_app in A. apply andb_true_iff in A as [A _]. rewrite versions_app in B.
  unfold tr, commit_ops_f. set (done := firstn k (active_commit_calls _)) in *.
  set (pre := flat_map _ done) in *. set (cleanup := if Nat.ltb _ _ then _ else _).
  assert (C : cleanup = [] \/ cleanup = [Unlink tmp; Meta])
    by (unfold cleanup; destruct (Nat.ltb _ _); [destruct (existsb _ _)|]; auto).
  split; [|split; [|apply versions_no_rename]].
  - rewrite safe_from_app, A. destruct C as [-> | ->]; [reflexivity|]. cbn [safe_from op_safe]. rewrite Hn. reflexivity.
  - rewrite versions_app. replace (versions t (run s pre) cleanup) with (@nil (option bytes)) by (destruct C as [-> | ->]; reflexivity).
    rewrite app_nil_r. destruct (versions t s pre) as [|v [|]]; cbn [app] in B; [left; reflexivity | right; injection B as -> _; reflexivity | discriminate B].
Qed.

Theorem atomic_write_error_exits : forall (t tmp : name) (s0 : st) (old : option bytes) (chunks : list bytes) (ch mt : bool) (k : nat),
  init_ok t s0 old -> name_eqb tmp t = false ->
  let tr := write_ops_f (mkCfg false ch mt) (next s0) tmp t chunks k in
  safe_from t s0 tr = true /\
  (forall p q, tr = p ++ q -> forall keep cut, In (crash_read (run s0 p) keep cut t) [old; Some (concat chunks)]) /\
  (existsb (is_rename_onto t) tr = false ->
   forall p q, tr = p ++ q -> forall keep cut, crash_read (run s0 p) keep cut t = old).
Proof.
  intros t tmp s0 old chunks ch mt k HI Hn tr.
  destruct (write_prefix t tmp s0 old chunks HI Hn) as (Hv2 & Ai & PS & PV). cbv zeta in *.
  set (i := next s0) in *. set (s2 := run (step s0 (Creat tmp)) (map (Write i) chunks)) in *.
  destruct (commit_error_exits t tmp s2 i _ ch mt k Hn Hv2 Ai) as (C1 & C2 & C3). cbv zeta in C1, C2, C3. cbn [synced unsynced app] in C2.
  assert (S : safe_from t s0 tr = true) by (unfold tr, write_ops_f; rewrite PS; exact C1).
  assert (Vs : versions t s0 tr = versions t s2 (commit_ops_f (mkCfg false ch mt) i tmp t k)) by apply PV.
  pose proof (crash_within t s0 old tr HI S) as Sub.
  split; [exact S | split].
  - intros p q Hpq keep cut. specialize (Sub p q Hpq keep cut). rewrite Vs in Sub.
    destruct C2 as [C2|C2]; rewrite C2 in Sub; cbn in Sub |- *; tauto.
  - intros NR p q Hpq keep cut. specialize (Sub p q Hpq keep cut). rewrite Vs in Sub.
    assert (NR' : existsb (is_rename_onto t) (commit_ops_f (mkCfg false ch mt) i tmp t k) = false).
    { unfold tr, write_ops_f in NR. cbn [existsb is_rename_onto] in NR. rewrite existsb_app, no_rename_in_writes in NR. exact NR. }
    rewrite (C3 NR') in Sub. destruct Sub as [H|[]]. symmetry; exact H.
Qed.

(* the example of C06_init_ok_example and C06_no_fsync_refuted: a target holding "old", written with "ne", "w!" *)
Definition ex_t : name := (0, 0).
Definition ex_tmp : name := (0, 1).
Definition ex_s0 : st := init_st [(ex_t, [111; 108; 100])].
Definition ex_chunks : list bytes := [[110; 101]; [119; 33]].
