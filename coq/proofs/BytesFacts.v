(* Facts about the byte-string helpers of lib/Bytes.v: beq, has_prefix, span. *)
From Coq Require Import List NArith Bool.
Import ListNotations.
Require Import V.lib.Bytes.
Open Scope N_scope.

Lemma beq_true_iff : forall a b, beq a b = true <-> a = b.
Proof.
  induction a as [|x a IH]; destruct b as [|y b]; cbn; split; intro H; try congruence.
  - apply andb_true_iff in H as [H1 H2]. apply N.eqb_eq in H1. apply IH in H2. congruence.
  - injection H as -> ->. rewrite N.eqb_refl. apply IH. reflexivity.
Qed.

Lemma beq_refl : forall a, beq a a = true.
Proof. intro a. apply beq_true_iff. reflexivity. Qed.

Lemma beq_eq : forall a b, beq a b = true -> a = b.
Proof. intros a b. apply beq_true_iff. Qed.

Lemma beq_false_iff : forall a b, beq a b = false <-> a <> b.
Proof. intros a b. rewrite <- beq_true_iff. symmetry. apply not_true_iff_false. Qed.

Lemma beq_neq : forall a b, a <> b -> beq a b = false.
Proof. intros a b. apply beq_false_iff. Qed.

Lemma beq_sym : forall a b, beq a b = beq b a.
Proof.
  intros a b. destruct (beq b a) eqn:E.
  - apply beq_true_iff in E. subst. apply beq_refl.
  - apply beq_false_iff. apply beq_false_iff in E. congruence.
Qed.

Lemma has_prefix_app : forall p s, has_prefix p (p ++ s) = true.
Proof. induction p as [|x p IH]; intro s; cbn; [reflexivity|]. rewrite N.eqb_refl. apply IH. Qed.

Lemma has_prefix_split : forall p l, has_prefix p l = true -> exists r, l = p ++ r.
Proof.
  induction p as [|x p IH]; intros l H; [exists l; reflexivity|].
  destruct l as [|y l]; [discriminate|]. cbn in H. apply andb_true_iff in H as [E H].
  apply N.eqb_eq in E. subst y. destruct (IH l H) as (r & ->). exists r. reflexivity.
Qed.

Lemma span_spec : forall p l a b, span p l = (a, b) ->
  l = a ++ b /\ forallb p a = true /\ match b with [] => True | c :: _ => p c = false end.
Proof.
  induction l as [|x l IH]; intros a b H; cbn in H.
  - injection H as <- <-. auto.
  - destruct (p x) eqn:E.
    + destruct (span p l) as [a' b']. injection H as <- <-.
      destruct (IH _ _ eq_refl) as (-> & Ha & Hb). cbn. rewrite E. auto.
    + injection H as <- <-. auto.
Qed.

Lemma span_app_stop : forall (p : N -> bool) a c r, forallb p a = true -> p c = false ->
  span p (a ++ c :: r) = (a, c :: r).
Proof.
  induction a as [|x a IH]; intros c r Ha Hc; cbn.
  - rewrite Hc. reflexivity.
  - cbn in Ha. apply andb_true_iff in Ha as [Hx Ha]. rewrite Hx, (IH c r Ha Hc). reflexivity.
Qed.
