(* C09 — proofs about models/Prune.v, for every state, every parameter choice and every visiting order. Prune goes by the id
   and task list of a change and by the id, link and spawn time of a task (csk, tsk), and rewrites none of them: apply_skeleton
   gives the loop over the changes as filters over these projections; the theorems are read off that form. *)
From Coq Require Import List NArith ZArith Bool Lia Sorting.Sorted Sorting.Permutation.
Import ListNotations.
Require Import V.proofs.ListFacts V.models.Prune.
Open Scope Z_scope.

Definition removes (d : decision) : bool := match d with RemoveEmpty | RemoveReady => true | _ => false end.
Definition has_id (l : list pchange) (id : N) : Prop := exists c, In c l /\ pc_id c = id.
Definition has_task (l : list ptask) (id ch : N) (sp : Z) : Prop := exists t, In t l /\ pt_id t = id /\ pt_change t = ch /\ pt_spawn t = sp.

Lemma decide_is : forall p count c d, decide p count c = d ->
  match d with
  | RemoveReady => exists r, pc_ready c = Some r /\ (r < prune_limit p \/ p_max_ready p < count)
  | RemoveEmpty => pc_ready c = None /\ pc_tasks c = [] /\ clamped_spawn p c < prune_limit p
  | AbortIt => pc_ready c = None /\ clamped_spawn p c < abort_limit p /\ is_pending p c = false
  | Keep => forall r, pc_ready c = Some r -> prune_limit p <= r /\ count <= p_max_ready p
  end.
Proof.
  intros p count c d <-. unfold decide. destruct (pc_ready c) as [r|].
  - destruct (_ || _) eqn:E; [exists r; split; [reflexivity | lia] | intros r' [= <-]; lia].
  - destruct (clamped_spawn p c <? prune_limit p) eqn:E1, (pc_tasks c); simpl; [repeat split; lia | | |];
      (destruct (clamped_spawn p c <? abort_limit p) eqn:E2; [destruct (is_pending p c) eqn:P|]);
      try discriminate; repeat split; lia.
Qed.

Lemma decide_old_ready : forall p count c r, pc_ready c = Some r -> r < prune_limit p -> decide p count c = RemoveReady.
Proof. intros p count c r Hr Hold. unfold decide. rewrite Hr. replace (r <? prune_limit p) with true by lia. reflexivity. Qed.

Lemma decide_old_empty : forall p count c, pc_ready c = None -> pc_tasks c = [] -> clamped_spawn p c < prune_limit p ->
  decide p count c = RemoveEmpty.
Proof.
  intros p count c Hr Ht Hold. unfold decide. rewrite Hr, Ht.
  replace (clamped_spawn p c <? prune_limit p) with true by lia. reflexivity.
Qed.

Lemma decide_old_unready : forall p count c, pc_ready c = None ->
  (pc_tasks c <> [] \/ prune_limit p <= clamped_spawn p c) -> clamped_spawn p c < abort_limit p -> is_pending p c = false ->
  decide p count c = AbortIt.
Proof.
  intros p count c Hr Hne Hold Hp. unfold decide. rewrite Hr, Hp.
  replace (clamped_spawn p c <? abort_limit p) with true by lia.
  destruct Hne as [Hne|Hne]; [destruct (pc_tasks c); [congruence|]; rewrite andb_false_r; reflexivity|].
  replace (clamped_spawn p c <? prune_limit p) with false by lia. reflexivity.
Qed.

Lemma visit_in : forall p l count c d, In (c, d) (visit p count l) ->
  In c l /\ exists count', count' <= count /\ d = decide p count' c.
Proof.
  intros p l. induction l as [|x l IH]; intros count c d H; simpl in H; [contradiction|].
  destruct H as [H|H].
  - inversion H; subst. split; [left; reflexivity | exists count; split; [lia | reflexivity]].
  - apply IH in H as (H1 & k & Hk & H2). split; [right; exact H1|]. exists k. split; [destruct (decide p count x); lia | exact H2].
Qed.

Lemma visit_fst : forall p l count, map fst (visit p count l) = l.
Proof. intros p l. induction l as [|c l IH]; intros count; simpl; [reflexivity | rewrite IH; reflexivity]. Qed.

Lemma visit_covers : forall p l count c, In c l -> exists count', In (c, decide p count' c) (visit p count l).
Proof.
  intros p l count c H. rewrite <- (visit_fst p l count) in H. apply in_map_iff in H as ([c' d] & E & H). simpl in E. subst c'.
  destruct (visit_in _ _ _ _ _ H) as (_ & k & _ & ->). exists k. exact H.
Qed.

Lemma filter_filter : forall {A} (f g : A -> bool) l, filter f (filter g l) = filter (fun x => g x && f x) l.
Proof.
  intros A f g l. induction l as [|x l IH]; simpl; [reflexivity|].
  destruct (g x); simpl; [destruct (f x)|]; rewrite IH; reflexivity.
Qed.

Lemma map_filter_swap : forall {A B} (f : A -> B) (q : B -> bool) (q' : A -> bool) l,
  (forall x, q' x = q (f x)) -> map f (filter q' l) = filter q (map f l).
Proof.
  intros A B f q q' l H. induction l as [|x l IH]; simpl; [reflexivity|]. rewrite H, <- IH. destruct (q (f x)); reflexivity.
Qed.

Lemma mem_In : forall x l, mem x l = true <-> In x l.
Proof. exact (existsb_eqb_In N.eqb N.eqb_eq). Qed.

(* what Prune goes by and never rewrites: of a change its id and task list, of a task its id, change link and spawn time
   (the abort writes ready times and statuses only) *)
Definition csk (c : pchange) : N * list N := (pc_id c, pc_tasks c).
Definition tsk (t : ptask) : N * N * Z := (pt_id t, pt_change t, pt_spawn t).

Lemma has_id_csk : forall l id, has_id l id <-> In id (map fst (map csk l)).
Proof.
  intros l id. rewrite map_map, in_map_iff. unfold has_id.
  split; intros (c & H1 & H2); exists c; auto.
Qed.

Lemma has_task_tsk : forall l id ch sp, has_task l id ch sp <-> In (id, ch, sp) (map tsk l).
Proof.
  intros l id ch sp. rewrite in_map_iff. unfold has_task, tsk. split.
  - intros (t & Ht & <- & <- & <-). eauto.
  - intros (t & [= <- <- <-] & Ht). eauto.
Qed.

Definition removed (vs : list (pchange * decision)) (id : N) : bool :=
  existsb (fun cd => removes (snd cd) && (id =? pc_id (fst cd))%N) vs.
Definition dropped (vs : list (pchange * decision)) (tid : N) : bool :=
  existsb (fun cd => match snd cd with RemoveReady => mem tid (pc_tasks (fst cd)) | _ => false end) vs.

Lemma removed_true : forall vs id, removed vs id = true <-> exists c d, In (c, d) vs /\ removes d = true /\ pc_id c = id.
Proof.
  intros vs id. unfold removed. rewrite existsb_exists. split.
  - intros ([c d] & Hin & H). simpl in H. apply andb_true_iff in H as [H1 H2]. apply N.eqb_eq in H2. eauto.
  - intros (c & d & Hin & H1 & H2). exists (c, d). simpl. rewrite H1, H2, N.eqb_refl. auto.
Qed.

Lemma dropped_true : forall vs tid, dropped vs tid = true <-> exists c, In (c, RemoveReady) vs /\ mem tid (pc_tasks c) = true.
Proof.
  intros vs tid. unfold dropped. rewrite existsb_exists. split.
  - intros ([c d] & Hin & H). simpl in H. destruct d; try discriminate. eauto.
  - intros (c & Hin & H). exists (c, RemoveReady). auto.
Qed.

Lemma set_statuses_tsk : forall ids sts l, map tsk (set_statuses ids sts l) = map tsk l.
Proof.
  induction ids as [|i ids IH]; intros [|st sts] l; simpl; try reflexivity.
  rewrite IH, map_map. apply map_ext. intro t. destruct (pt_id t =? i)%N; reflexivity.
Qed.

Lemma set_statuses_other : forall ids sts l t, mem (pt_id t) ids = false -> In t l -> In t (set_statuses ids sts l).
Proof.
  induction ids as [|i ids IH]; intros [|st sts] l t Hm Ht; simpl; try exact Ht.
  simpl in Hm. apply orb_false_iff in Hm as [Hi Hm]. apply IH; [exact Hm|].
  apply in_map_iff. exists t. rewrite Hi. auto.
Qed.

(* the whole loop, seen on what it goes by: the changes not removed; the tasks not listed by a change removed as ready; the
   aborted ids in visiting order. A visit filters the changes by id and the tasks by id, or (the abort) rewrites ready times
   and statuses, which no later visit looks at *)
Lemma apply_skeleton : forall p vs chs tks ab chs' tks' ab', apply p vs chs tks ab = (chs', tks', ab') ->
  map csk chs' = filter (fun x => negb (removed vs (fst x))) (map csk chs) /\
  map tsk tks' = filter (fun x => negb (dropped vs (fst (fst x)))) (map tsk tks) /\
  ab' = ab ++ map (fun cd => pc_id (fst cd)) (filter (fun cd => match snd cd with AbortIt => true | _ => false end) vs).
Proof.
  intros p. induction vs as [|[c d] vs IH]; intros chs tks ab chs' tks' ab' E; simpl in E.
  - injection E as <- <- <-. rewrite !filter_all, app_nil_r by reflexivity. auto.
  - assert (Hc : forall chs, filter (fun x => negb (removed vs (fst x))) (map csk (filter (fun x => negb (pc_id x =? pc_id c)%N) chs))
                             = filter (fun x => negb ((fst x =? pc_id c)%N || removed vs (fst x))) (map csk chs)).
    { intro l. rewrite (map_filter_swap csk (fun x => negb (fst x =? pc_id c)%N)), filter_filter by reflexivity.
      apply filter_ext. intro x. symmetry. apply negb_orb. }
    destruct d; apply IH in E as (E1 & E2 & E3); rewrite E1, E2, E3.
    + auto.
    + rewrite Hc. auto.
    + rewrite <- app_assoc, set_statuses_tsk, map_map, (map_ext _ csk); [auto|].
      intro x. destruct (pc_id x =? pc_id c)%N; reflexivity.
    + rewrite Hc, (map_filter_swap tsk (fun x => negb (mem (fst (fst x)) (pc_tasks c)))), filter_filter by reflexivity.
      repeat split. apply filter_ext. intro x. symmetry. apply negb_orb.
Qed.

Lemma apply_untouched : forall p vs chs tks ab chs' tks' ab' t, apply p vs chs tks ab = (chs', tks', ab') -> In t tks ->
  (forall c, In (c, AbortIt) vs -> mem (pt_id t) (pc_tasks c) = false) ->
  (forall c, In (c, RemoveReady) vs -> mem (pt_id t) (pc_tasks c) = false) -> In t tks'.
Proof.
  intros p. induction vs as [|[c d] vs IH]; intros chs tks ab chs' tks' ab' t E Ht Hab Hrm; simpl in E;
    [injection E as <- <- <-; exact Ht|].
  assert (Hab' := fun c0 H => Hab c0 (or_intror H)). assert (Hrm' := fun c0 H => Hrm c0 (or_intror H)).
  destruct d; (eapply IH; [exact E | | exact Hab' | exact Hrm']).
  - exact Ht.
  - exact Ht.
  - apply set_statuses_other; [apply Hab; left; reflexivity | exact Ht].
  - apply filter_In. split; [exact Ht|]. apply negb_true_iff, Hrm. left. reflexivity.
Qed.

Definition vs_of (p : params) (order : list pchange) := visit p (ready_count order) order.

Lemma prune_with_skeleton : forall p order s,
  map csk (r_changes (prune_with p order s)) =
    filter (fun x => negb (removed (vs_of p order) (fst x))) (map csk (ps_changes s)) /\
  map tsk (r_tasks (prune_with p order s)) =
    filter (fun x => existsb (fun c => (pc_id c =? snd (fst x))%N) (r_changes (prune_with p order s))
                     || negb (snd x <? prune_limit p))
           (filter (fun x => negb (dropped (vs_of p order) (fst (fst x)))) (map tsk (ps_tasks s))) /\
  r_aborted (prune_with p order s) =
    map (fun cd => pc_id (fst cd)) (filter (fun cd => match snd cd with AbortIt => true | _ => false end) (vs_of p order)).
Proof.
  intros p order s. unfold prune_with. fold (vs_of p order).
  destruct (apply p (vs_of p order) (ps_changes s) (ps_tasks s) []) as [[chs tks] ab] eqn:E.
  apply apply_skeleton in E as (E1 & E2 & E3). simpl. rewrite <- E2. split; [exact E1|]. split; [|exact E3].
  apply map_filter_swap. reflexivity.
Qed.

Lemma pruned_has_id : forall p order s id,
  has_id (r_changes (prune_with p order s)) id <-> has_id (ps_changes s) id /\ removed (vs_of p order) id = false.
Proof.
  intros p order s id. destruct (prune_with_skeleton p order s) as (E & _). rewrite !has_id_csk, E, <- negb_true_iff.
  rewrite !in_map_iff. setoid_rewrite filter_In. split.
  - intros (x & <- & Hx & Hq). eauto.
  - intros ((x & <- & Hx) & Hq). eauto.
Qed.

Lemma pruned_origin : forall p order s c', In c' (r_changes (prune_with p order s)) ->
  exists c, In c (ps_changes s) /\ pc_id c = pc_id c' /\ pc_tasks c = pc_tasks c'.
Proof.
  intros p order s c' H. destruct (prune_with_skeleton p order s) as (E & _).
  apply (in_map csk) in H. rewrite E in H. apply filter_In in H as [H _].
  apply in_map_iff in H as (c & [= E1 E2] & Hc). eauto.
Qed.

Lemma pruned_nodup : forall p order s,
  NoDup (map pc_id (ps_changes s)) -> NoDup (map pc_id (r_changes (prune_with p order s))).
Proof.
  intros p order s H. destruct (prune_with_skeleton p order s) as (E & _).
  assert (I : forall l, map pc_id l = map fst (map csk l)) by (intro l; rewrite map_map; reflexivity).
  rewrite I in *. rewrite E. apply NoDup_map_filter, H.
Qed.

Lemma pruned_has_task : forall p order s id ch sp,
  has_task (r_tasks (prune_with p order s)) id ch sp <->
  has_task (ps_tasks s) id ch sp /\ dropped (vs_of p order) id = false /\
  (has_id (r_changes (prune_with p order s)) ch \/ prune_limit p <= sp).
Proof.
  intros p order s id ch sp. destruct (prune_with_skeleton p order s) as (_ & E & _).
  rewrite !has_task_tsk, E, !filter_In, orb_true_iff, !negb_true_iff, Z.ltb_ge. simpl.
  assert (L : existsb (fun c => (pc_id c =? ch)%N) (r_changes (prune_with p order s)) = true
              <-> has_id (r_changes (prune_with p order s)) ch).
  { rewrite existsb_exists. unfold has_id. setoid_rewrite N.eqb_eq. reflexivity. }
  rewrite L. tauto.
Qed.

Lemma in_task_ids : forall l id, In id (map pt_id l) <-> exists ch sp, has_task l id ch sp.
Proof.
  intros l id. rewrite in_map_iff. unfold has_task. split.
  - intros (t & E & Ht). exists (pt_change t), (pt_spawn t), t. auto.
  - intros (ch & sp & t & Ht & E & _). eauto.
Qed.

Theorem removed_only_if : forall p order s id,
  has_id (ps_changes s) id -> ~ has_id (r_changes (prune_with p order s)) id ->
  exists c count, In c order /\ pc_id c = id /\
    ((exists r, pc_ready c = Some r /\ (r < prune_limit p \/ p_max_ready p < count)) \/
     (pc_ready c = None /\ pc_tasks c = [] /\ clamped_spawn p c < prune_limit p)).
Proof.
  intros p order s id Hid Hgone. rewrite pruned_has_id in Hgone.
  destruct (removed (vs_of p order) id) eqn:E; [|tauto].
  apply removed_true in E as (c & d & Hin & Hr & Hc). apply visit_in in Hin as (Hin & count & _ & Hd).
  exists c, count. repeat split; try assumption. symmetry in Hd. destruct d; try discriminate.
  - right. exact (decide_is _ _ _ _ Hd).
  - left. exact (decide_is _ _ _ _ Hd).
Qed.

Theorem unfinished_kept : forall p order s id,
  has_id (ps_changes s) id -> (forall c, In c order -> pc_id c = id -> pc_ready c = None /\ pc_tasks c <> []) ->
  has_id (r_changes (prune_with p order s)) id.
Proof.
  intros p order s id Hid Hun. apply pruned_has_id. split; [exact Hid|]. apply not_true_iff_false. intro E.
  apply removed_true in E as (c & d & Hin & Hr & Hc). apply visit_in in Hin as (Hin & count & _ & Hd).
  destruct (Hun c Hin Hc) as [Hn Ht]. symmetry in Hd. destruct d; try discriminate.
  - apply decide_is in Hd. tauto.
  - apply decide_is in Hd as (r & Hd & _). congruence.
Qed.

Theorem tasks_go_with_change : forall p order s c id,
  NoDup (map pc_id order) -> In c order -> pc_ready c <> None -> has_id (ps_changes s) (pc_id c) ->
  ~ has_id (r_changes (prune_with p order s)) (pc_id c) ->
  mem id (pc_tasks c) = true -> ~ In id (map pt_id (r_tasks (prune_with p order s))).
Proof.
  intros p order s c id Hn Hin Hr Hid Hgone Hm Hc. rewrite pruned_has_id in Hgone.
  destruct (removed (vs_of p order) (pc_id c)) eqn:E; [|tauto].
  (* the entry that removed it is c's own, and it says RemoveReady since c is finished *)
  apply removed_true in E as (c' & d & Hin' & Hrm & Hc'). pose proof (visit_in _ _ _ _ _ Hin') as (Hin'' & count & _ & Hd).
  assert (c' = c) by (apply (NoDup_map_inj pc_id order); assumption). subst c'. symmetry in Hd.
  destruct d; try discriminate; [apply decide_is in Hd; tauto|].
  apply in_task_ids in Hc as (ch & sp & Ht). apply pruned_has_task in Ht as (_ & Hd' & _).
  apply not_true_iff_false in Hd'. apply Hd', dropped_true. eauto.
Qed.

Lemma tasks_kept_with_change : forall p order s id ch sp,
  has_task (ps_tasks s) id ch sp ->
  (forall c, In (c, RemoveReady) (vs_of p order) -> mem id (pc_tasks c) = false) ->
  (has_id (r_changes (prune_with p order s)) ch \/ prune_limit p <= sp) ->
  has_task (r_tasks (prune_with p order s)) id ch sp.
Proof.
  intros p order s id ch sp Ht Hno Hl. apply pruned_has_task. repeat split; try assumption.
  apply not_true_iff_false. intro D. apply dropped_true in D as (c & Hc & Hm). rewrite (Hno c Hc) in Hm. discriminate.
Qed.

Theorem abort_only_after : forall p order s id, In id (r_aborted (prune_with p order s)) ->
  exists c, In c order /\ pc_id c = id /\ pc_ready c = None /\ clamped_spawn p c < abort_limit p /\ is_pending p c = false.
Proof.
  intros p order s id Hin. destruct (prune_with_skeleton p order s) as (_ & _ & E). rewrite E in Hin.
  apply in_map_iff in Hin as ([c d] & Hid & Hc). apply filter_In in Hc as [Hc Hd]. simpl in *. destruct d; try discriminate.
  apply visit_in in Hc as (Hc & count & _ & Hd'). symmetry in Hd'. apply decide_is in Hd'. exists c. tauto.
Qed.

Theorem status_untouched : forall p order s t, In t (ps_tasks s) ->
  (forall c, In (c, AbortIt) (vs_of p order) -> mem (pt_id t) (pc_tasks c) = false) ->
  (forall c, In (c, RemoveReady) (vs_of p order) -> mem (pt_id t) (pc_tasks c) = false) ->
  (existsb (fun c => (pc_id c =? pt_change t)%N) (r_changes (prune_with p order s)) = true \/ prune_limit p <= pt_spawn t) ->
  In t (r_tasks (prune_with p order s)).
Proof.
  intros p order s t Hin Hab Hrm Hl. unfold prune_with in *. fold (vs_of p order) in *.
  destruct (apply p (vs_of p order) (ps_changes s) (ps_tasks s) []) as [[chs tks] ab] eqn:E. simpl in *.
  apply filter_In. split; [exact (apply_untouched _ _ _ _ _ _ _ _ t E Hin Hab Hrm)|].
  destruct Hl as [->|Hl]; [reflexivity|]. apply orb_true_iff. right. apply negb_true_iff. lia.
Qed.

Theorem expired_gone : forall p order s x,
  (In x (r_warnings (prune_with p order s)) <-> In x (ps_warnings s) /\ x_last x + x_expire x >= p_now p) /\
  (In x (r_notices (prune_with p order s)) <-> In x (ps_notices s) /\ x_last x + x_expire x >= p_now p).
Proof.
  intros p order s x. unfold prune_with.
  destruct (apply p (visit p (ready_count order) order) (ps_changes s) (ps_tasks s) []) as [[chs tks] ab].
  simpl; rewrite !filter_In; unfold expired; split; split; intros [H1 H2]; split; try assumption; lia.
Qed.

Definition not_after (a b : pchange) : Prop := ready_lt b a = false.

Theorem oldest_first : forall p order, StronglySorted not_after order ->
  forall count c c' r r', In (c, RemoveReady) (visit p count order) -> In (c', Keep) (visit p count order) ->
  pc_ready c = Some r -> pc_ready c' = Some r' -> r <= r'.
Proof.
  intros p order Hs. induction Hs as [|x l Hs IH Hx]; intros count c c' r r' H1 H2 Hr Hr'; simpl in *; [contradiction|].
  destruct H1 as [H1|H1]; destruct H2 as [H2|H2].
  - congruence.
  - inversion H1; subst. apply visit_in in H2 as [H2 _]. rewrite Forall_forall in Hx. specialize (Hx c' H2).
    unfold not_after, ready_lt in Hx. rewrite Hr, Hr' in Hx. lia.
  - (* c' was kept within the count limit and the count only falls: c went for its age, whatever the order *)
    inversion H2; subst. rewrite H3 in H1. destruct (decide_is _ _ _ _ H3 r' Hr') as [K1 K2].
    apply visit_in in H1 as (_ & k & Hk & Hd). symmetry in Hd. apply decide_is in Hd as (r0 & E & Hd).
    rewrite Hr in E. injection E as <-. lia.
  - eapply IH; eassumption.
Qed.

Lemma not_after_total : forall a b, not_after a b \/ not_after b a.
Proof. intros a b. unfold not_after, ready_lt. destruct (pc_ready a), (pc_ready b); try (left; reflexivity); try (right; reflexivity). destruct (z0 <? z) eqn:E; [right | left]; lia. Qed.

Lemma not_after_trans : forall a b c, not_after a b -> not_after b c -> not_after a c.
Proof. intros a b c. unfold not_after, ready_lt. destruct (pc_ready a), (pc_ready b), (pc_ready c); intros; try reflexivity; try discriminate; lia. Qed.

Lemma insert_perm : forall c l, Permutation (insert_c c l) (c :: l).
Proof.
  intros c l. induction l as [|d l IH]; simpl; [reflexivity|].
  assert (P : Permutation (d :: insert_c c l) (c :: d :: l)) by (rewrite IH; apply perm_swap).
  destruct (ready_lt d c); [exact P|]. destruct (ready_lt c d); [reflexivity | exact P].
Qed.

Lemma sort_changes_perm : forall l, Permutation (sort_changes l) l.
Proof. induction l as [|c l IH]; simpl; [reflexivity|]. rewrite insert_perm, IH. reflexivity. Qed.

Lemma insert_sorted : forall c l, StronglySorted not_after l -> StronglySorted not_after (insert_c c l).
Proof.
  intros c l H. induction H as [|d l Hs IH Hd]; simpl; [repeat constructor|].
  assert (T : not_after d c -> StronglySorted not_after (d :: insert_c c l)).
  { intro Hdc. constructor; [exact IH|]. eapply Permutation_Forall; [symmetry; apply insert_perm|]. constructor; assumption. }
  destruct (ready_lt d c) eqn:E1; [|destruct (ready_lt c d) eqn:E2].
  - apply T. unfold not_after, ready_lt in *. destruct (pc_ready d), (pc_ready c); try reflexivity; try discriminate; lia.
  - constructor; [constructor; assumption|]. constructor; [exact E1|].
    eapply Forall_impl; [|exact Hd]. intros x Hx. exact (not_after_trans c d x E1 Hx).
  - apply T, E2.
Qed.

Theorem sort_changes_sorted : forall l, StronglySorted not_after (sort_changes l).
Proof. induction l as [|c l IH]; simpl; [constructor | apply insert_sorted; assumption]. Qed.

Theorem sort_changes_in : forall l x, In x (sort_changes l) <-> In x l.
Proof. intros l x. split; apply Permutation_in; [|symmetry]; apply sort_changes_perm. Qed.

Lemma sorted_has_id : forall l c, In c (sort_changes l) -> has_id l (pc_id c).
Proof. intros l c H. exists c. split; [apply sort_changes_in, H | reflexivity]. Qed.

Lemma sort_nodup : forall l, NoDup (map pc_id l) -> NoDup (map pc_id (sort_changes l)).
Proof.
  intros l H. eapply Permutation_NoDup; [apply Permutation_map, Permutation_sym, sort_changes_perm | exact H].
Qed.

Theorem prune_completes : forall p order s,
  map fst (vs_of p order) = order /\
  (forall c d, In (c, d) (vs_of p order) -> removes d = true -> ~ has_id (r_changes (prune_with p order s)) (pc_id c)) /\
  r_aborted (prune_with p order s) =
    map (fun cd => pc_id (fst cd)) (filter (fun cd => match snd cd with AbortIt => true | _ => false end) (vs_of p order)).
Proof.
  intros p order s. split; [apply visit_fst|]. split.
  - intros c d Hin Hr Hc. apply pruned_has_id in Hc as [_ Hc]. apply not_true_iff_false in Hc. apply Hc, removed_true. eauto.
  - apply prune_with_skeleton.
Qed.

(* the regression witness of the repaired defect (DESIGN finding 11 reached through Prune): tasks [Do; Done; Done] of an
   old unready change: aborted to [Hold; Undo; Undo], the change stays unready *)
Definition abort_witness : pstate :=
  mkPS [mkPC 1 (-1000) None [1; 2; 3]%N []] [mkPT 1 2 (-1000) 1; mkPT 2 4 (-1000) 1; mkPT 3 4 (-1000) 1] [] [].
Definition abort_params : params := mkParams 0 0 None 10 100 5 [].

Lemma decision_applied : forall p order s c, In c order -> exists count,
  match decide p count c with
  | RemoveEmpty | RemoveReady => ~ has_id (r_changes (prune_with p order s)) (pc_id c)
  | AbortIt => In (pc_id c) (r_aborted (prune_with p order s))
  | Keep => True
  end.
Proof.
  intros p order s c Hin. destruct (visit_covers p order (ready_count order) c Hin) as [k Hk]. exists k.
  destruct (prune_completes p order s) as (_ & R & A). specialize (R c _ Hk).
  destruct (decide p k c) eqn:E; auto.
  rewrite A. apply in_map_iff. exists (c, AbortIt). split; [reflexivity|]. apply filter_In. auto.
Qed.

Definition kept_ready (cd : pchange * decision) : bool :=
  is_some (pc_ready (fst cd)) && match snd cd with Keep => true | _ => false end.

(* `count` minus the finished changes still to visit is the number of finished changes kept so far; a finished change is
   kept only while count <= maxReadyChanges, so that number never passes the limit *)
Lemma kept_ready_le : forall p l count, 0 <= count - ready_count l <= p_max_ready p ->
  Z.of_nat (length (filter kept_ready (visit p count l))) + (count - ready_count l) <= p_max_ready p.
Proof.
  intros p. unfold ready_count. induction l as [|c l IH]; intros count H; simpl in *; [lia|].
  pose proof (decide_is p count c _ eq_refl) as D. unfold kept_ready at 1. simpl.
  destruct (pc_ready c) as [r|]; simpl in *.
  - destruct (decide p count c); try (destruct D; discriminate).
    + specialize (D r eq_refl). specialize (IH count). simpl length. lia.
    + specialize (IH (count - 1)). lia.
  - destruct (decide p count c); try (destruct D as (r & D & _); discriminate); apply IH; lia.
Qed.

Theorem count_bound : forall p order, 0 <= p_max_ready p ->
  Z.of_nat (length (filter kept_ready (vs_of p order))) <= p_max_ready p.
Proof. intros p order H0. pose proof (kept_ready_le p order (ready_count order)). unfold vs_of. lia. Qed.

(* what AddTask establishes (see wf), over a visiting order that covers the changes *)
Definition listing_ok (order : list pchange) (s : pstate) : Prop :=
  (forall c, In c (ps_changes s) -> In c order) /\
  (forall c id, In c order -> In id (pc_tasks c) -> exists sp, has_task (ps_tasks s) id (pc_id c) sp) /\
  (forall c d id, In c order -> In d order -> In id (pc_tasks c) -> In id (pc_tasks d) -> pc_id c = pc_id d).

Lemma kept_change_keeps_tasks_linked : forall p order s c' id, listing_ok order s ->
  In c' (r_changes (prune_with p order s)) -> In id (pc_tasks c') ->
  exists sp, has_task (r_tasks (prune_with p order s)) id (pc_id c') sp.
Proof.
  intros p order s c' id (L0 & L1 & L2) Hc Hid.
  destruct (pruned_origin _ _ _ _ Hc) as (c & Hcs & Eid & Etk).
  assert (Hco : In c order) by (apply L0; assumption). rewrite <- Etk in Hid. rewrite <- Eid.
  destruct (L1 c id Hco Hid) as [sp Ht]. exists sp.
  apply (tasks_kept_with_change p order s id (pc_id c) sp Ht).
  - (* a change removed as ready that lists the task would have c's id, and c' is still there *)
    intros x Hx. destruct (mem id (pc_tasks x)) eqn:M; [|reflexivity]. exfalso. apply mem_In in M.
    pose proof (visit_in _ _ _ _ _ Hx) as [Hxo _]. pose proof (L2 x c id Hxo Hco M Hid) as E.
    destruct (prune_completes p order s) as (_ & R & _). apply (R x RemoveReady Hx eq_refl).
    exists c'. split; [assumption | congruence].
  - left. exists c'. split; [assumption | symmetry; assumption].
Qed.

Theorem kept_change_keeps_tasks : forall p order s c' id, listing_ok order s ->
  In c' (r_changes (prune_with p order s)) -> In id (pc_tasks c') -> In id (map pt_id (r_tasks (prune_with p order s))).
Proof.
  intros p order s c' id L Hc Hid. apply in_task_ids. exists (pc_id c').
  apply kept_change_keeps_tasks_linked; assumption.
Qed.

Definition result_state (r : result) : pstate := mkPS (r_changes r) (r_tasks r) (r_warnings r) (r_notices r).

(* what AddTask establishes and every step keeps (reachable_wf) *)
Definition wf (s : pstate) : Prop :=
  NoDup (map pc_id (ps_changes s)) /\
  (forall c id, In c (ps_changes s) -> In id (pc_tasks c) -> exists t, In t (ps_tasks s) /\ pt_id t = id /\ pt_change t = pc_id c) /\
  (forall c d id, In c (ps_changes s) -> In d (ps_changes s) -> In id (pc_tasks c) -> In id (pc_tasks d) -> pc_id c = pc_id d).

Lemma wf_listing_ok : forall s, wf s -> listing_ok (sort_changes (ps_changes s)) s.
Proof.
  intros s (W1 & W2 & W3). repeat split.
  - intros c Hc. apply (proj2 (sort_changes_in _ _)). assumption.
  - intros c id Hc Hid. apply (proj1 (sort_changes_in _ _)) in Hc. destruct (W2 c id Hc Hid) as [t [Ht [E1 E2]]].
    exists (pt_spawn t), t. repeat split; assumption.
  - intros c d id Hc Hd. apply (proj1 (sort_changes_in _ _)) in Hc. apply (proj1 (sort_changes_in _ _)) in Hd. apply W3; assumption.
Qed.

Theorem prune_preserves_wf : forall p s, wf s -> wf (result_state (prune p s)).
Proof.
  intros p s W. pose proof (wf_listing_ok s W) as L. destruct W as (W1 & W2 & W3). unfold prune in *.
  set (order := sort_changes (ps_changes s)) in *. unfold wf, result_state. simpl. repeat split.
  - apply pruned_nodup, W1.
  - intros c' id Hc Hid. destruct (kept_change_keeps_tasks_linked p order s c' id L Hc Hid) as (sp & t' & Ht' & F1 & F2 & _).
    exists t'. auto.
  - intros c' d' id Hc Hd Hic Hid.
    destruct (pruned_origin _ _ _ _ Hc) as (c & Hcs & Ec & Etc). destruct (pruned_origin _ _ _ _ Hd) as (d & Hds & Ed & Etd).
    rewrite <- Etc in Hic. rewrite <- Etd in Hid. rewrite <- Ec, <- Ed. eapply W3; eassumption.
Qed.

Lemma maxl_ge : forall l x, In x l -> (x <= maxl l)%N.
Proof. induction l as [|y l IH]; intros x H; simpl in *; [contradiction|]. destruct H as [H|H]; [subst; lia | specialize (IH x H); lia]. Qed.

Lemma wf_add_change : forall chs tks ws ns c,
  wf (mkPS chs tks ws ns) -> ~ In (pc_id c) (map pc_id chs) -> pc_tasks c = [] -> wf (mkPS (chs ++ [c]) tks ws ns).
Proof.
  intros chs tks ws ns c (W1 & W2 & W3) Hf Ht. unfold wf. simpl in *. repeat split.
  - rewrite map_app. simpl. apply (NoDup_Add (Add_app _ _ [])). rewrite app_nil_r. auto.
  - intros x id Hx Hid. apply in_app_or in Hx as [Hx|[<-|[]]]; [apply W2; assumption | rewrite Ht in Hid; contradiction].
  - intros x d id Hx Hd Hix Hid. apply in_app_or in Hx as [Hx|[<-|[]]]; [|rewrite Ht in Hix; contradiction].
    apply in_app_or in Hd as [Hd|[<-|[]]]; [|rewrite Ht in Hid; contradiction]. eapply W3; eassumption.
Qed.

Lemma wf_add_task : forall chs tks ws ns t, wf (mkPS chs tks ws ns) -> wf (mkPS chs (tks ++ [t]) ws ns).
Proof.
  intros chs tks ws ns t (W1 & W2 & W3). unfold wf. simpl in *. repeat split; try assumption.
  intros c id Hc Hid. destruct (W2 c id Hc Hid) as (x & Hx & E). exists x. split; [apply in_or_app; left; exact Hx | exact E].
Qed.

(* AddTask: the task exists already and is linked to c; no change lists it yet *)
Lemma wf_list_task : forall chs tks ws ns c tid,
  wf (mkPS chs tks ws ns) -> (forall x, In x chs -> ~ In tid (pc_tasks x)) ->
  (exists t, In t tks /\ pt_id t = tid /\ pt_change t = c) ->
  wf (mkPS (map (fun x => if (pc_id x =? c)%N then mkPC (pc_id x) (pc_spawn x) (pc_ready x) (pc_tasks x ++ [tid]) (pc_attrs x) else x)
                chs) tks ws ns).
Proof.
  intros chs tks ws ns c tid (W1 & W2 & W3) Fresh Hnew. unfold wf. simpl in *.
  set (f := fun x => if (pc_id x =? c)%N then mkPC (pc_id x) (pc_spawn x) (pc_ready x) (pc_tasks x ++ [tid]) (pc_attrs x) else x).
  assert (Fid : forall x, pc_id (f x) = pc_id x) by (intros x; unfold f; destruct (pc_id x =? c)%N; reflexivity).
  assert (Flist : forall x id, In id (pc_tasks (f x)) -> In id (pc_tasks x) \/ (id = tid /\ pc_id x = c)).
  { intros x id Hin. unfold f in Hin. destruct (pc_id x =? c)%N eqn:E; [|left; assumption]. simpl in Hin.
    apply in_app_or in Hin as [Hin|[Hin|[]]]; [left; assumption | right; split; [symmetry; assumption | apply N.eqb_eq; assumption]]. }
  repeat split.
  - rewrite map_map, (map_ext _ pc_id); assumption.
  - intros c' id Hc Hid. apply in_map_iff in Hc as (x & <- & Hx). rewrite Fid.
    destruct (Flist x id Hid) as [Hold|[-> ->]]; [apply W2; assumption | exact Hnew].
  - intros c' d' id Hc Hd Hic Hid. apply in_map_iff in Hc as (x & <- & Hx). apply in_map_iff in Hd as (y & <- & Hy).
    rewrite !Fid. destruct (Flist x id Hic) as [Hx1|[Hx1 Hx2]]; destruct (Flist y id Hid) as [Hy1|[Hy1 Hy2]].
    + eapply W3; eassumption.
    + exfalso. subst id. exact (Fresh x Hx Hx1).
    + exfalso. subst id. exact (Fresh y Hy Hy1).
    + congruence.
Qed.

Lemma wf_map_changes : forall (g : pchange -> pchange) chs tks ws ns,
  (forall x, pc_id (g x) = pc_id x /\ pc_tasks (g x) = pc_tasks x) -> wf (mkPS chs tks ws ns) -> wf (mkPS (map g chs) tks ws ns).
Proof.
  intros g chs tks ws ns Hg (W1 & W2 & W3). unfold wf in *. simpl in *. repeat split.
  - rewrite map_map. rewrite (map_ext _ pc_id); [assumption | intros x; apply Hg].
  - intros c id Hc Hid. apply in_map_iff in Hc as (x & <- & Hx). destruct (Hg x) as [G1 G2].
    rewrite G2 in Hid. rewrite G1. apply W2; assumption.
  - intros c d id Hc Hd Hic Hid. apply in_map_iff in Hc as (x & <- & Hx). apply in_map_iff in Hd as (y & <- & Hy).
    destruct (Hg x) as [G1 G2]. destruct (Hg y) as [G3 G4]. rewrite G2 in Hic. rewrite G4 in Hid. rewrite G1, G3.
    eapply W3; eassumption.
Qed.

Lemma wf_map_tasks : forall (h : ptask -> ptask) chs tks ws ns,
  (forall t, pt_id (h t) = pt_id t /\ pt_change (h t) = pt_change t) -> wf (mkPS chs tks ws ns) -> wf (mkPS chs (map h tks) ws ns).
Proof.
  intros h chs tks ws ns Hh (W1 & W2 & W3). unfold wf. simpl in *. repeat split; try assumption.
  intros c id Hc Hid. destruct (W2 c id Hc Hid) as (x & Hx & E1 & E2). exists (h x). destruct (Hh x) as [-> ->].
  split; [apply in_map, Hx | auto].
Qed.

Lemma hstep_wf : forall s o, wf s -> wf (hstep s o).
Proof.
  intros [chs tks ws ns] o W. destruct o as [spawn attrs|c spawn st|t st|c r|x|x|p]; simpl.
  - apply wf_add_change; [exact W | | reflexivity]. simpl. intro Hin. apply maxl_ge in Hin. unfold next_change in Hin. simpl in Hin. lia.
  - destruct (existsb (fun x => (pc_id x =? c)%N) chs); [|apply wf_add_task, W].
    apply wf_list_task; [apply wf_add_task, W | |].
    + (* next_task is above every listed task id *)
      intros x Hx Hin. assert (Hle : (next_task (mkPS chs tks ws ns) <= maxl (concat (map pc_tasks chs)))%N).
      { apply maxl_ge, in_concat. exists (pc_tasks x). split; [apply in_map|]; assumption. }
      unfold next_task in Hle. simpl in Hle. lia.
    + eexists. split; [apply in_or_app; right; left; reflexivity | split; reflexivity].
  - apply wf_map_tasks; [|exact W]. intro x. destruct (pt_id x =? t)%N; auto.
  - apply wf_map_changes; [|exact W]. intro x. destruct (pc_id x =? c)%N; auto.
  - exact W.
  - exact W.
  - apply (prune_preserves_wf p _ W).
Qed.

Lemma wf_empty : wf (mkPS [] [] [] []).
Proof. repeat split; simpl; try constructor; intros; contradiction. Qed.

Theorem reachable_wf : forall ops, wf (hrun ops).
Proof.
  intros ops. unfold hrun. assert (G : forall l s, wf s -> wf (fold_left hstep l s)).
  { induction l as [|o l IH]; intros s W; simpl; [assumption | apply IH, hstep_wf, W]. }
  apply G, wf_empty.
Qed.
