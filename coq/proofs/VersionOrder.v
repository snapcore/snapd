(* C33 — sign flip, range and unbounded transitivity of the model of strutil.VersionCompare (models/Version.v). One round of
   compareSubversion ([pos_cmp]) is strictly transitive ([st]) on each [regime] (first position; later numeric position, a missing
   fragment counting as 0; later string position) and a zero result keeps the operands in one regime, so the loop is a
   lexicographic iteration ([cmp_sub_st]). Bytes are non-NUL ([ok]): cmpString pads with 0. *)
From Coq Require Import List NArith ZArith Bool Lia ZifyBool ZifyNat ZifyN.
Import ListNotations.
Require Import V.lib.Bytes V.proofs.BytesFacts V.gen.ChOrder V.models.Version V.proofs.VersionProofs.
Open Scope Z_scope.

Definition okb (c : N) : bool := (0 <? c)%N && (c <? 256)%N.
Definition ok (s : bytes) : bool := forallb okb s.

Definition st (x y z : Z) : Prop :=
  (x <= 0 -> y <= 0 -> z <= 0 /\ (x < 0 \/ y < 0 -> z < 0)) /\
  (x >= 0 -> y >= 0 -> z >= 0 /\ (x > 0 \/ y > 0 -> z > 0)).

Definition byte_fact (c : N) : bool :=
  if is_digit c then (ch_order c =? 0)
  else if (c =? 0)%N then (ch_order c =? -5)
  else negb (ch_order c =? 0) && negb (ch_order c =? -5).

Lemma byte_facts_all : forallb (fun n => byte_fact (N.of_nat n)) (seq 0 256) = true.
Proof. vm_compute. reflexivity. Qed.

Lemma all_bytes : forall p : N -> bool,
  forallb (fun n => p (N.of_nat n)) (seq 0 256) = true -> forall c, (c < 256)%N -> p c = true.
Proof.
  intros p H c Hc. rewrite forallb_forall in H.
  specialize (H (N.to_nat c)). rewrite N2Nat.id in H. apply H. apply in_seq. lia.
Qed.

Lemma byte_fact_ok : forall c, (c < 256)%N -> byte_fact c = true.
Proof. exact (all_bytes byte_fact byte_facts_all). Qed.

Lemma order_pad : ch_order 0 = -5.
Proof. reflexivity. Qed.

Lemma order_digit : forall c, is_digit c = true -> ch_order c = 0.
Proof.
  intros c Hd. assert (Hc : (c < 256)%N). { unfold is_digit in Hd. lia. }
  pose proof (byte_fact_ok c Hc) as H. unfold byte_fact in H. rewrite Hd in H. lia.
Qed.

Lemma order_nondigit : forall c, okb c = true -> is_digit c = false -> ch_order c <> 0 /\ ch_order c <> -5.
Proof.
  intros c Hk Hd. unfold okb in Hk.
  assert (Hc : (c < 256)%N) by lia.
  pose proof (byte_fact_ok c Hc) as H. unfold byte_fact in H. rewrite Hd in H.
  destruct (N.eqb_spec c 0); [lia|]. lia.
Qed.

Definition hd0 (l : bytes) : N := hd 0%N l.

Lemma cs_unfold : forall a b, cmp_string a b = cmp1 (hd0 a) (hd0 b) (cmp_string (tl a) (tl b)).
Proof.
  intros [|x a] [|y b]; reflexivity.
Qed.

Lemma cmp1_st : forall x y z k1 k2 k3, st k1 k2 k3 -> st (cmp1 x y k1) (cmp1 y z k2) (cmp1 x z k3).
Proof.
  intros x y z k1 k2 k3 H. unfold cmp1, st in *.
  destruct (Z.ltb_spec (ch_order x) (ch_order y)), (Z.gtb_spec (ch_order x) (ch_order y)),
           (Z.ltb_spec (ch_order y) (ch_order z)), (Z.gtb_spec (ch_order y) (ch_order z)),
           (Z.ltb_spec (ch_order x) (ch_order z)), (Z.gtb_spec (ch_order x) (ch_order z)); try lia.
Qed.

Lemma cs_st_n : forall n a b c, (length a <= n)%nat -> (length b <= n)%nat -> (length c <= n)%nat ->
  st (cmp_string a b) (cmp_string b c) (cmp_string a c).
Proof.
  induction n as [|n IH]; intros a b c Ha Hb Hc.
  - destruct a, b, c; cbn in *; try lia. unfold st; cbn; lia.
  - rewrite (cs_unfold a b), (cs_unfold b c), (cs_unfold a c).
    apply cmp1_st. apply IH; destruct a, b, c; cbn in *; lia.
Qed.

Lemma cs_st : forall a b c, st (cmp_string a b) (cmp_string b c) (cmp_string a c).
Proof.
  intros a b c. apply (cs_st_n (length a + length b + length c)); lia.
Qed.

Definition hord (l : bytes) : Z := ch_order (hd0 l).

Lemma cs_head_lt : forall a b, hord a < hord b -> cmp_string a b = -1.
Proof.
  intros a b H. rewrite cs_unfold. unfold cmp1, hord in *.
  destruct (Z.ltb_spec (ch_order (hd0 a)) (ch_order (hd0 b))); [reflexivity|lia].
Qed.

Lemma cs_head_gt : forall a b, hord a > hord b -> cmp_string a b = 1.
Proof.
  intros a b H. rewrite cs_unfold. unfold cmp1, hord in *.
  destruct (Z.ltb_spec (ch_order (hd0 a)) (ch_order (hd0 b))); [lia|].
  destruct (Z.gtb_spec (ch_order (hd0 a)) (ch_order (hd0 b))); [reflexivity|lia].
Qed.

Lemma cbn_st : forall a b c, length a = length b -> length b = length c ->
  st (cmp_bytes_num a b) (cmp_bytes_num b c) (cmp_bytes_num a c).
Proof.
  induction a as [|x a IH]; intros [|y b] [|z c] H1 H2; try discriminate.
  - unfold st; cbn; lia.
  - cbn in H1, H2. cbn [cmp_bytes_num].
    specialize (IH b c ltac:(lia) ltac:(lia)). unfold st in *.
    destruct (N.ltb_spec y x), (N.ltb_spec x y), (N.ltb_spec z y), (N.ltb_spec y z),
             (N.ltb_spec z x), (N.ltb_spec x z); try lia.
Qed.

Lemma cn_st : forall a b c, st (cmp_numeric a b) (cmp_numeric b c) (cmp_numeric a c).
Proof.
  intros a b c. unfold cmp_numeric.
  set (ta := trim_zeroes a). set (tb := trim_zeroes b). set (tc := trim_zeroes c).
  pose proof (cbn_st ta tb tc) as Hs.
  destruct (Z.gtb_spec (Z.of_nat (length ta)) (Z.of_nat (length tb))),
           (Z.ltb_spec (Z.of_nat (length ta)) (Z.of_nat (length tb))),
           (Z.gtb_spec (Z.of_nat (length tb)) (Z.of_nat (length tc))),
           (Z.ltb_spec (Z.of_nat (length tb)) (Z.of_nat (length tc))),
           (Z.gtb_spec (Z.of_nat (length ta)) (Z.of_nat (length tc))),
           (Z.ltb_spec (Z.of_nat (length ta)) (Z.of_nat (length tc))); unfold st in *; try lia.
Qed.

(* a missing fragment at a later numeric position counts as the fragment 0 *)
Definition zf (a : bytes) : bytes := match a with [] => [48%N] | _ => a end.

Lemma cn_nil_zero_l : forall b, cmp_numeric [48%N] b = cmp_numeric [] b.
Proof. reflexivity. Qed.
Lemma cn_nil_zero_r : forall a, cmp_numeric a [48%N] = cmp_numeric a [].
Proof. intros. unfold cmp_numeric. reflexivity. Qed.

Definition ph_num (s : bytes) : bool := match s with [] => true | c :: _ => is_digit c end.
Definition ph_str (s : bytes) : bool := match s with [] => true | c :: _ => negb (is_digit c) end.

Lemma ok_app : forall a b, ok (a ++ b) = true -> ok a = true /\ ok b = true.
Proof. intros a b H. unfold ok in *. rewrite forallb_app in H. apply andb_prop in H. exact H. Qed.

Lemma next_frag_spec : forall s f r n, next_frag s = (f, r, n) ->
  s = f ++ r /\ hd0 f = hd0 s /\
  match s with
  | [] => f = [] /\ n = false
  | c :: _ => f <> [] /\ n = is_digit c /\
      if is_digit c then forallb is_digit f = true /\ ph_str r = true
      else forallb (fun x => negb (is_digit x)) f = true /\ ph_num r = true
  end.
Proof.
  intros [|c s'] f r n H; [cbn in H; injection H as <- <- <-; auto|].
  unfold next_frag in H. cbn [span] in H. destruct (is_digit c) eqn:Ed; cbn [negb] in H.
  - destruct (span is_digit s') as [f0 r0] eqn:Es. injection H as <- <- <-.
    destruct (span_spec _ _ _ _ Es) as (-> & F & R). cbn. rewrite Ed.
    repeat split; try discriminate; auto. destruct r0; [reflexivity|cbn; rewrite R; reflexivity].
  - destruct (span (fun x => negb (is_digit x)) s') as [f0 r0] eqn:Es. injection H as <- <- <-.
    destruct (span_spec _ _ _ _ Es) as (-> & F & R). cbn. rewrite Ed.
    repeat split; try discriminate; auto. destruct r0; [reflexivity|cbn; apply negb_false_iff, R].
Qed.

Lemma frag_num : forall v a v' an, ok v = true -> ph_num v = true -> next_frag v = (a, v', an) ->
  v = a ++ v' /\ ok v' = true /\ ph_str v' = true /\ an = negb (is_nil a) /\ forallb is_digit a = true.
Proof.
  intros v a v' an K P F. destruct (next_frag_spec _ _ _ _ F) as (E & _ & S).
  assert (K' : ok v' = true) by (rewrite E in K; apply (ok_app _ _ K)).
  destruct v as [|c v0].
  - destruct S as [-> ->]. cbn in E. subst v'. auto.
  - cbn in P. rewrite P in S. destruct S as (N & -> & D & R). destruct a; [congruence|]. auto.
Qed.

Lemma frag_str : forall v a v' an, ok v = true -> ph_str v = true -> next_frag v = (a, v', an) ->
  v = a ++ v' /\ ok v' = true /\ ph_num v' = true /\ an = false /\
  ok a = true /\ forallb (fun x => negb (is_digit x)) a = true.
Proof.
  intros v a v' an K P F. destruct (next_frag_spec _ _ _ _ F) as (E & _ & S).
  assert (K' : ok a = true /\ ok v' = true) by (rewrite E in K; apply (ok_app _ _ K)).
  destruct v as [|c v0].
  - destruct S as [-> ->]. cbn in E. subst v'. tauto.
  - cbn in P. apply negb_true_iff in P. rewrite P in S. destruct S as (N & -> & D & R). tauto.
Qed.

(* at the first position a fragment is missing, numeric or a string *)
Inductive ftype := FE | FN | FS.

Definition ftyped (a : bytes) (an : bool) (t : ftype) : Prop :=
  match t with
  | FE => a = [] /\ an = false
  | FN => a <> [] /\ an = true /\ is_digit (hd0 a) = true
  | FS => a <> [] /\ an = false /\ is_digit (hd0 a) = false /\ okb (hd0 a) = true
  end.

Definition is_num (t : ftype) : bool := match t with FN => true | _ => false end.

Lemma ftyped_num : forall a an t, ftyped a an t -> an = is_num t.
Proof. intros a an [] H; cbn in *; tauto. Qed.

Lemma ftyped_nil : forall a an t, ftyped a an t -> is_nil a = match t with FE => true | _ => false end.
Proof. intros a an [] H; cbn in H; destruct H as [H _]; destruct a; cbn; congruence. Qed.

Definition vkind (t : ftype) (v : bytes) : Prop :=
  match t with FE => v = [] | FN => ph_num v = true /\ v <> [] | FS => ph_str v = true /\ v <> [] end.

Lemma frag_first : forall v a v' an, ok v = true -> next_frag v = (a, v', an) ->
  exists t, ftyped a an t /\ hd0 a = hd0 v /\ vkind t v.
Proof.
  intros v a v' an K F. destruct (next_frag_spec _ _ _ _ F) as (_ & H & S). destruct v as [|c v0].
  - exists FE. cbn. tauto.
  - destruct S as (N & -> & _). cbn in K, H. apply andb_prop in K. destruct K as [K _].
    destruct (is_digit c) eqn:D; [exists FN|exists FS]; cbn; rewrite H, D; repeat split; try discriminate; assumption.
Qed.

Lemma hord_typed : forall a an t, ftyped a an t ->
  match t with FE => hord a = -5 | FN => hord a = 0 | FS => hord a <> 0 /\ hord a <> -5 end.
Proof.
  intros a an [] H; cbn in H; unfold hord.
  - destruct H as [-> _]. reflexivity.
  - apply order_digit, H.
  - apply order_nondigit; apply H.
Qed.

Definition pos_cmp (first : bool) (a : bytes) (an : bool) (b : bytes) (bn : bool) : Z :=
  if an && bn then cmp_numeric a b
  else if negb first && is_nil a && bn then cmp_numeric [48%N] b
  else if negb first && is_nil b && an then cmp_numeric a [48%N]
  else cmp_string a b.

Lemma pos_first_heads : forall a an b bn ta tb, ftyped a an ta -> ftyped b bn tb ->
  (hord a < hord b -> pos_cmp true a an b bn = -1) /\
  (hord a > hord b -> pos_cmp true a an b bn = 1) /\
  (hord a = hord b -> ta = tb).
Proof.
  intros a an b bn ta tb Ta Tb. pose proof (hord_typed _ _ _ Ta) as A. pose proof (hord_typed _ _ _ Tb) as B.
  unfold pos_cmp. rewrite (ftyped_num _ _ _ Ta), (ftyped_num _ _ _ Tb).
  destruct ta, tb; cbn [is_num andb negb]; repeat split; intros H;
    try reflexivity; try (apply cs_head_lt, H); try (apply cs_head_gt, H); exfalso; lia.
Qed.

Lemma pos_first_st : forall a an b bn c cn ta tb tc, ftyped a an ta -> ftyped b bn tb -> ftyped c cn tc ->
  st (pos_cmp true a an b bn) (pos_cmp true b bn c cn) (pos_cmp true a an c cn).
Proof.
  intros a an b bn c cn ta tb tc Ta Tb Tc.
  destruct (pos_first_heads _ _ _ _ _ _ Ta Tb) as (L1 & G1 & E1), (pos_first_heads _ _ _ _ _ _ Tb Tc) as (L2 & G2 & E2),
    (pos_first_heads _ _ _ _ _ _ Ta Tc) as (L3 & G3 & _).
  destruct (Z.eq_dec (hord a) (hord b)) as [Eab|Nab], (Z.eq_dec (hord b) (hord c)) as [Ebc|Nbc];
    [|unfold st; lia..].
  (* three fragments of one kind *)
  specialize (E1 Eab). specialize (E2 Ebc). subst tb tc. unfold pos_cmp.
  rewrite (ftyped_num _ _ _ Ta), (ftyped_num _ _ _ Tb), (ftyped_num _ _ _ Tc).
  destruct (is_num ta); cbn [andb negb]; [apply cn_st|apply cs_st].
Qed.

Lemma pos_first_zero : forall a an b bn ta tb, ftyped a an ta -> ftyped b bn tb ->
  pos_cmp true a an b bn = 0 -> ta = tb.
Proof.
  intros a an b bn ta tb Ta Tb H. destruct (pos_first_heads _ _ _ _ _ _ Ta Tb) as (L & G & E).
  apply E. lia.
Qed.

Lemma pos_num_eq : forall a b, is_nil a && is_nil b = false ->
  pos_cmp false a (negb (is_nil a)) b (negb (is_nil b)) = cmp_numeric (zf a) (zf b).
Proof. intros [|x a] [|y b] H; [discriminate H|reflexivity..]. Qed.

Lemma pos_str_eq : forall first a b, pos_cmp first a false b false = cmp_string a b.
Proof. intros first a b. unfold pos_cmp. rewrite !andb_false_r. reflexivity. Qed.

Lemma cmp_sub_step : forall f first va vb,
  cmp_sub (S f) first va vb =
  let '(a, va', an) := next_frag va in
  let '(b, vb', bn) := next_frag vb in
  if is_nil a && is_nil b then Some 0
  else let res := pos_cmp first a an b bn in
       if (res =? 0) then cmp_sub f false va' vb' else Some res.
Proof. reflexivity. Qed.

Lemma cmp_sub_nil_nil : forall f first, cmp_sub (S f) first [] [] = Some 0.
Proof. reflexivity. Qed.

Lemma cmp_sub_cases : forall f first va vb a va' an b vb' bn,
  next_frag va = (a, va', an) -> next_frag vb = (b, vb', bn) ->
  (va = [] /\ vb = []) \/
  (is_nil a && is_nil b = false /\
   cmp_sub (S f) first va vb =
     if pos_cmp first a an b bn =? 0 then cmp_sub f false va' vb' else Some (pos_cmp first a an b bn)).
Proof.
  intros f first va vb a va' an b vb' bn Fa Fb. rewrite cmp_sub_step, Fa, Fb.
  destruct (is_nil a && is_nil b) eqn:N; [left|right; auto].
  apply andb_prop in N. destruct N as [Na Nb]. apply is_nil_true in Na, Nb.
  split; [apply (next_frag_nil_frag _ _ _ _ Fa Na)|apply (next_frag_nil_frag _ _ _ _ Fb Nb)].
Qed.

(* at a numeric first position a missing operand written "0" is read like the missing fragment of a later position *)
Lemma next_frag_zf : forall v a v' an, ph_num v = true -> next_frag v = (a, v', an) ->
  next_frag (zf v) = (zf a, v', true) /\ an = negb (is_nil a) /\ is_nil a = is_nil v.
Proof.
  intros [|c v] a v' an P F.
  - cbn in F. injection F as <- <- <-. repeat split; reflexivity.
  - destruct (next_frag_spec _ _ _ _ F) as (_ & _ & N & -> & _). cbn in P. destruct a; [congruence|].
    cbn [zf]. rewrite F, P. repeat split; reflexivity.
Qed.

Lemma first_num_zf : forall f va vb, ph_num va = true -> ph_num vb = true -> is_nil va && is_nil vb = false ->
  cmp_sub (S f) true (zf va) (zf vb) = cmp_sub (S f) false va vb.
Proof.
  intros f va vb Pa Pb N. rewrite !cmp_sub_step.
  destruct (next_frag va) as [[a va'] an] eqn:Fa, (next_frag vb) as [[b vb'] bn] eqn:Fb.
  destruct (next_frag_zf _ _ _ _ Pa Fa) as (-> & -> & Na), (next_frag_zf _ _ _ _ Pb Fb) as (-> & -> & Nb).
  rewrite <- Na, <- Nb in N. destruct a, b; [discriminate N|reflexivity..].
Qed.

Lemma pos_cmp_flip : forall first a an b bn, is_nil a && is_nil b = false ->
  pos_cmp first b bn a an = - pos_cmp first a an b bn.
Proof.
  intros first a an b bn N. unfold pos_cmp. rewrite (andb_comm bn an).
  destruct (an && bn); [apply cmp_numeric_flip|].
  destruct (negb first && is_nil a && bn) eqn:C1, (negb first && is_nil b && an) eqn:C2;
    [|apply cmp_numeric_flip..|apply cmp_string_flip].
  (* each operand missing and the other numeric: then both are missing *)
  destruct (is_nil a), (is_nil b); try discriminate N; rewrite ?andb_false_r in *; discriminate.
Qed.

Lemma pos_cmp_tri : forall first a an b bn, tri (pos_cmp first a an b bn).
Proof.
  intros first a an b bn. unfold pos_cmp. destruct (an && bn); [apply cmp_numeric_tri|].
  destruct (negb first && is_nil a && bn); [apply cmp_numeric_tri|].
  destruct (negb first && is_nil b && an); [apply cmp_numeric_tri|apply cmp_string_tri].
Qed.

Lemma zeqb_opp : forall r, (- r =? 0)%Z = (r =? 0)%Z.
Proof. intros. destruct (Z.eqb_spec r 0), (Z.eqb_spec (- r) 0); lia || reflexivity. Qed.

Lemma cmp_sub_flip : forall fuel first va vb r,
  cmp_sub fuel first va vb = Some r -> cmp_sub fuel first vb va = Some (- r).
Proof.
  induction fuel as [|f IH]; intros first va vb r H; [discriminate|].
  destruct (next_frag va) as [[a va'] an] eqn:Fa. destruct (next_frag vb) as [[b vb'] bn] eqn:Fb.
  destruct (cmp_sub_cases f first _ _ _ _ _ _ _ _ Fa Fb) as [[-> ->]|[N X]].
  { rewrite cmp_sub_nil_nil in *. injection H as <-. reflexivity. }
  rewrite X in H. rewrite cmp_sub_step, Fb, Fa, (andb_comm (is_nil b)), N. cbv zeta.
  rewrite (pos_cmp_flip _ _ _ _ _ N), zeqb_opp.
  destruct (pos_cmp first a an b bn =? 0); [apply IH, H|]. injection H as <-. reflexivity.
Qed.

Lemma version_compare_flip : forall a b r, version_compare a b = Res r -> version_compare b a = Res (- r)%Z.
Proof.
  intros a b r. unfold version_compare. rewrite (orb_comm (match_epoch b)).
  destruct (match_epoch a || match_epoch b); [discriminate|].
  destruct (split_rev a) as [ma ra], (split_rev b) as [mb rb].
  unfold compare_subversion, sub_fuel.
  rewrite (Nat.add_comm (length mb)), (Nat.add_comm (length rb)).
  destruct (cmp_sub _ true ma mb) as [r1|] eqn:E1; [|discriminate].
  rewrite (cmp_sub_flip _ _ _ _ _ E1).
  rewrite zeqb_opp.
  destruct (r1 =? 0)%Z; cbn [negb].
  - destruct (cmp_sub _ true ra rb) as [r2|] eqn:E2; [|discriminate].
    rewrite (cmp_sub_flip _ _ _ _ _ E2). intros H; inversion H; reflexivity.
  - intros H; inversion H; reflexivity.
Qed.

Lemma version_compare_refl : forall a, match_epoch a = false -> version_compare a a = Res 0%Z.
Proof.
  intros a He. destruct (version_compare a a) as [|r|] eqn:E.
  - apply invalid_only_epoch in E. destruct E; congruence.
  - pose proof (version_compare_flip _ _ _ E) as F. rewrite E in F. inversion F. f_equal. lia.
  - exfalso. eapply version_compare_total; eauto.
Qed.

Lemma cmp_sub_tri : forall fuel first va vb r, cmp_sub fuel first va vb = Some r -> tri r.
Proof.
  induction fuel as [|f IH]; intros first va vb r H; [discriminate|].
  destruct (next_frag va) as [[a va'] an] eqn:Fa. destruct (next_frag vb) as [[b vb'] bn] eqn:Fb.
  destruct (cmp_sub_cases f first _ _ _ _ _ _ _ _ Fa Fb) as [[-> ->]|[_ X]].
  { rewrite cmp_sub_nil_nil in H. injection H as <-. right. left. reflexivity. }
  rewrite X in H. destruct (pos_cmp first a an b bn =? 0); [apply (IH _ _ _ _ H)|].
  injection H as <-. apply pos_cmp_tri.
Qed.

Lemma version_compare_tri : forall a b r, version_compare a b = Res r -> tri r.
Proof.
  intros a b r. unfold version_compare. destruct (_ || _); [discriminate|].
  destruct (split_rev a) as [ma ra], (split_rev b) as [mb rb].
  destruct (compare_subversion ma mb) as [r1|] eqn:E1; [|discriminate].
  destruct (negb _).
  - intros H; inversion H; subst. eapply cmp_sub_tri; eauto.
  - destruct (compare_subversion ra rb) as [r2|] eqn:E2; [|discriminate].
    intros H; inversion H; subst. eapply cmp_sub_tri; eauto.
Qed.

Definition regime (first : bool) (va vb vc : bytes) : Prop :=
  first = true \/
  (first = false /\ ph_num va = true /\ ph_num vb = true /\ ph_num vc = true) \/
  (first = false /\ ph_str va = true /\ ph_str vb = true /\ ph_str vc = true).

Lemma combine_st : forall rab rbc rac (ox oy oz : option Z) x y z,
  st rab rbc rac ->
  (rab = 0 -> rbc = 0 -> rac = 0 -> forall x' y' z', ox = Some x' -> oy = Some y' -> oz = Some z' -> st x' y' z') ->
  (if rab =? 0 then ox else Some rab) = Some x ->
  (if rbc =? 0 then oy else Some rbc) = Some y ->
  (if rac =? 0 then oz else Some rac) = Some z ->
  st x y z.
Proof.
  intros rab rbc rac ox oy oz x y z S IH Hx Hy Hz.
  destruct (Z.eqb_spec rab 0) as [A|A], (Z.eqb_spec rbc 0) as [B|B], (Z.eqb_spec rac 0) as [C|C];
    try (inversion Hx; subst x); try (inversion Hy; subst y); try (inversion Hz; subst z);
    try (apply (IH A B C _ _ _ Hx Hy Hz)); unfold st in *; lia.
Qed.

Lemma st_0_l : forall y, st 0 y y.
Proof. intros. unfold st. lia. Qed.
Lemma st_0_r : forall x, st x 0 x.
Proof. intros. unfold st. lia. Qed.
Lemma st_opp : forall x, st x (- x) 0.
Proof. intros. unfold st. lia. Qed.

Lemma cmp_sub_st : forall f first va vb vc x y z,
  ok va = true -> ok vb = true -> ok vc = true -> regime first va vb vc ->
  cmp_sub f first va vb = Some x -> cmp_sub f first vb vc = Some y -> cmp_sub f first va vc = Some z ->
  st x y z.
Proof.
  induction f as [|f IH]; intros first va vb vc x y z Ka Kb Kc Hreg Hx Hy Hz; [discriminate|].
  destruct (next_frag va) as [[a va'] an] eqn:Fa.
  destruct (next_frag vb) as [[b vb'] bn] eqn:Fb.
  destruct (next_frag vc) as [[c vc'] cn] eqn:Fc.
  (* two operands used up: the loop stops at once for that pair *)
  destruct (cmp_sub_cases f first _ _ _ _ _ _ _ _ Fa Fb) as [[-> ->]|[Nab Xab]].
  { rewrite cmp_sub_nil_nil in Hx. injection Hx as <-. rewrite Hy in Hz. injection Hz as <-. apply st_0_l. }
  destruct (cmp_sub_cases f first _ _ _ _ _ _ _ _ Fb Fc) as [[-> ->]|[Nbc Xbc]].
  { rewrite cmp_sub_nil_nil in Hy. injection Hy as <-. rewrite Hx in Hz. injection Hz as <-. apply st_0_r. }
  destruct (cmp_sub_cases f first _ _ _ _ _ _ _ _ Fa Fc) as [[-> ->]|[Nac Xac]].
  { rewrite cmp_sub_nil_nil in Hz. injection Hz as <-.
    apply cmp_sub_flip in Hx. rewrite Hx in Hy. injection Hy as <-. apply st_opp. }
  rewrite Xab in Hx. rewrite Xbc in Hy. rewrite Xac in Hz. clear Xab Xbc Xac.
  destruct Hreg as [->|[(-> & Pa & Pb & Pc)|(-> & Pa & Pb & Pc)]].
  - (* first position: equal fragments are of one kind, which fixes the regime of the rests *)
    destruct (frag_first _ _ _ _ Ka Fa) as (ta & Ta & _ & Va), (frag_first _ _ _ _ Kb Fb) as (tb & Tb & _ & Vb),
      (frag_first _ _ _ _ Kc Fc) as (tc & Tc & _ & Vc).
    eapply combine_st; [apply (pos_first_st _ _ _ _ _ _ _ _ _ Ta Tb Tc)| |exact Hx|exact Hy|exact Hz].
    intros Zab Zbc _ x' y' z' Hx' Hy' Hz'.
    apply (pos_first_zero _ _ _ _ _ _ Ta Tb) in Zab. apply (pos_first_zero _ _ _ _ _ _ Tb Tc) in Zbc. subst tb tc.
    destruct ta.
    + rewrite (ftyped_nil _ _ _ Ta), (ftyped_nil _ _ _ Tb) in Nab. discriminate.
    + destruct (frag_num _ _ _ _ Ka (proj1 Va) Fa) as (_ & Ka' & Ra & _), (frag_num _ _ _ _ Kb (proj1 Vb) Fb) as (_ & Kb' & Rb & _),
        (frag_num _ _ _ _ Kc (proj1 Vc) Fc) as (_ & Kc' & Rc & _).
      apply (IH false va' vb' vc' x' y' z' Ka' Kb' Kc'); [right; right; auto|assumption..].
    + destruct (frag_str _ _ _ _ Ka (proj1 Va) Fa) as (_ & Ka' & Ra & _), (frag_str _ _ _ _ Kb (proj1 Vb) Fb) as (_ & Kb' & Rb & _),
        (frag_str _ _ _ _ Kc (proj1 Vc) Fc) as (_ & Kc' & Rc & _).
      apply (IH false va' vb' vc' x' y' z' Ka' Kb' Kc'); [right; left; auto|assumption..].
  - destruct (frag_num _ _ _ _ Ka Pa Fa) as (_ & Ka' & Ra & -> & _), (frag_num _ _ _ _ Kb Pb Fb) as (_ & Kb' & Rb & -> & _),
      (frag_num _ _ _ _ Kc Pc Fc) as (_ & Kc' & Rc & -> & _).
    rewrite (pos_num_eq _ _ Nab) in Hx. rewrite (pos_num_eq _ _ Nbc) in Hy. rewrite (pos_num_eq _ _ Nac) in Hz.
    eapply combine_st; [apply cn_st| |exact Hx|exact Hy|exact Hz].
    intros _ _ _ x' y' z' Hx' Hy' Hz'.
    apply (IH false va' vb' vc' x' y' z' Ka' Kb' Kc'); [right; right; auto|assumption..].
  - destruct (frag_str _ _ _ _ Ka Pa Fa) as (_ & Ka' & Ra & -> & _), (frag_str _ _ _ _ Kb Pb Fb) as (_ & Kb' & Rb & -> & _),
      (frag_str _ _ _ _ Kc Pc Fc) as (_ & Kc' & Rc & -> & _).
    rewrite !pos_str_eq in Hx, Hy, Hz.
    eapply combine_st; [apply cs_st| |exact Hx|exact Hy|exact Hz].
    intros _ _ _ x' y' z' Hx' Hy' Hz'.
    apply (IH false va' vb' vc' x' y' z' Ka' Kb' Kc'); [right; left; auto|assumption..].
Qed.

Lemma cmp_sub_mono : forall f first va vb r, cmp_sub f first va vb = Some r -> cmp_sub (S f) first va vb = Some r.
Proof.
  induction f as [|f IH]; intros first va vb r H; [discriminate|].
  rewrite cmp_sub_step in H. rewrite cmp_sub_step.
  destruct (next_frag va) as [[a va'] an]. destruct (next_frag vb) as [[b vb'] bn].
  destruct (is_nil a && is_nil b); [exact H|]. cbv zeta in *.
  destruct (pos_cmp first a an b bn =? 0); [apply IH; exact H|exact H].
Qed.

Lemma cmp_sub_mono_le : forall f g first va vb r, (f <= g)%nat -> cmp_sub f first va vb = Some r -> cmp_sub g first va vb = Some r.
Proof.
  intros f g first va vb r L H. induction L as [|g L IH]; [exact H|]. apply cmp_sub_mono. exact IH.
Qed.

Lemma compare_subversion_st : forall a b c x y z, ok a = true -> ok b = true -> ok c = true ->
  compare_subversion a b = Some x -> compare_subversion b c = Some y -> compare_subversion a c = Some z -> st x y z.
Proof.
  intros a b c x y z Ka Kb Kc Hx Hy Hz. unfold compare_subversion, sub_fuel in *.
  set (F := S (length a + length b + length c)).
  apply (cmp_sub_st F true a b c x y z Ka Kb Kc); [left; reflexivity| | |];
    eapply cmp_sub_mono_le; try eassumption; unfold F; lia.
Qed.

Lemma split_last_ok : forall c l m r, ok l = true -> split_last c l = Some (m, r) -> ok m = true /\ ok r = true.
Proof.
  induction l as [|x l IH]; intros m r K H; [discriminate|].
  cbn in H. cbn in K. apply andb_prop in K. destruct K as [Kx Kl].
  destruct (split_last c l) as [[m' r']|] eqn:E.
  - inversion H; subst. destruct (IH m' r Kl eq_refl) as [A B]. split; [cbn; rewrite Kx; exact A|exact B].
  - destruct (x =? c)%N; [|discriminate]. inversion H; subst. split; [reflexivity|exact Kl].
Qed.

Lemma split_rev_ok : forall v m r, ok v = true -> split_rev v = (m, r) -> ok m = true /\ ok r = true.
Proof.
  intros v m r K H. unfold split_rev in H. destruct (split_last 45 v) as [[m' r']|] eqn:E.
  - inversion H; subst. eapply split_last_ok; eauto.
  - inversion H; subst. split; [exact K|reflexivity].
Qed.

Lemma res_no_epoch : forall a b r, version_compare a b = Res r -> match_epoch a = false /\ match_epoch b = false.
Proof.
  intros a b r H. unfold version_compare in H.
  destruct (match_epoch a), (match_epoch b); cbn in H; try discriminate. auto.
Qed.

Theorem version_compare_trans : forall a b c x y,
  ok a = true -> ok b = true -> ok c = true ->
  version_compare a b = Res x -> version_compare b c = Res y ->
  exists z, version_compare a c = Res z /\ st x y z.
Proof.
  intros a b c x y Ka Kb Kc Hx Hy.
  destruct (res_no_epoch _ _ _ Hx) as [Ea Eb]. destruct (res_no_epoch _ _ _ Hy) as [_ Ec].
  destruct (version_compare a c) as [|z|] eqn:Hz.
  - apply invalid_only_epoch in Hz. destruct Hz; congruence.
  - exists z. split; [reflexivity|].
    unfold version_compare in Hx, Hy, Hz. rewrite Ea, Eb in Hx. rewrite Eb, Ec in Hy. rewrite Ea, Ec in Hz.
    cbn [orb] in Hx, Hy, Hz.
    destruct (split_rev a) as [ma ra] eqn:Sa. destruct (split_rev b) as [mb rb] eqn:Sb. destruct (split_rev c) as [mc rc] eqn:Sc.
    destruct (split_rev_ok _ _ _ Ka Sa) as [Kma Kra]. destruct (split_rev_ok _ _ _ Kb Sb) as [Kmb Krb].
    destruct (split_rev_ok _ _ _ Kc Sc) as [Kmc Krc].
    destruct (compare_subversion ma mb) as [x1|] eqn:X1; [|discriminate].
    destruct (compare_subversion mb mc) as [y1|] eqn:Y1; [|discriminate].
    destruct (compare_subversion ma mc) as [z1|] eqn:Z1; [|discriminate].
    pose proof (compare_subversion_st _ _ _ _ _ _ Kma Kmb Kmc X1 Y1 Z1) as S1.
    assert (S2 : forall x2 y2 z2, compare_subversion ra rb = Some x2 -> compare_subversion rb rc = Some y2 ->
                                  compare_subversion ra rc = Some z2 -> st x2 y2 z2).
    { intros. eapply (compare_subversion_st ra rb rc); eauto. }
    destruct (compare_subversion ra rb) as [x2|] eqn:X2; [|exfalso; eapply compare_subversion_total; eauto].
    destruct (compare_subversion rb rc) as [y2|] eqn:Y2; [|exfalso; eapply compare_subversion_total; eauto].
    destruct (compare_subversion ra rc) as [z2|] eqn:Z2; [|exfalso; eapply compare_subversion_total; eauto].
    specialize (S2 _ _ _ eq_refl eq_refl eq_refl).
    clear - S1 S2 Hx Hy Hz.
    destruct (Z.eqb_spec x1 0), (Z.eqb_spec y1 0), (Z.eqb_spec z1 0); cbn [negb] in *;
      inversion Hx; inversion Hy; inversion Hz; subst; unfold st in *; lia.
  - exfalso. eapply version_compare_total; eauto.
Qed.

Corollary version_le_trans : forall a b c x y,
  ok a = true -> ok b = true -> ok c = true ->
  version_compare a b = Res x -> version_compare b c = Res y -> x <= 0 -> y <= 0 ->
  exists z, version_compare a c = Res z /\ z <= 0 /\ (x < 0 \/ y < 0 -> z < 0).
Proof.
  intros a b c x y Ka Kb Kc Hx Hy Lx Ly.
  destruct (version_compare_trans a b c x y Ka Kb Kc Hx Hy) as (z & Hz & [S _]).
  exists z. split; [exact Hz|]. apply S; assumption.
Qed.

Corollary version_eq_congruence : forall a b c y,
  ok a = true -> ok b = true -> ok c = true ->
  version_compare a b = Res 0 -> version_compare b c = Res y -> version_compare a c = Res y.
Proof.
  intros a b c y Ka Kb Kc Hx Hy.
  destruct (version_compare_trans a b c 0 y Ka Kb Kc Hx Hy) as (z & Hz & [S1 S2]).
  rewrite Hz. f_equal.
  pose proof (version_compare_tri _ _ _ Hy) as Ty. pose proof (version_compare_tri _ _ _ Hz) as Tz.
  unfold tri in *. lia.
Qed.

Lemma trans_ok_all : forall a b c, ok a = true -> ok b = true -> ok c = true -> trans_ok a b c = true.
Proof.
  intros a b c Ka Kb Kc. unfold trans_ok.
  destruct (version_compare a b) as [|x|] eqn:Hx; try reflexivity.
  destruct (version_compare b c) as [|y|] eqn:Hy; cbn [le_res andb negb orb]; rewrite ?andb_false_r; try reflexivity.
  destruct (version_compare_trans a b c x y Ka Kb Kc Hx Hy) as (z & -> & S).
  unfold st in S. cbn [le_res lt_res]. lia.
Qed.
