(* C16 — calendar facts for the termination proof (proofs/TimerFuelProofs.v), by arithmetic over coq/lib/Civil.v. civil_from_days
   is read in three stages ([civil_stages]: day of the 400-year era, day of the year that starts on 1 March, month and day of month);
   each maps a counter that advances by one or wraps ([follows]) to one of the same kind. That gives [civil_succ] on consecutive
   days; the facts about months ([month_next_spec]) follow from it by induction over consecutive days. *)
From Coq Require Import ZArith Lia ZifyBool.
Require Import V.lib.Civil V.models.Timer.
Open Scope Z_scope.

Definition doe_of (X : Z) : Z := let z := X + 719468 in z - z / 146097 * 146097.
Definition yoe_of (doe : Z) : Z := (doe - doe / 1460 + doe / 36524 - doe / 146096) / 365.
Definition year_start (yoe : Z) : Z := 365 * yoe + yoe / 4 - yoe / 100.
Definition doy_of (doe : Z) : Z := doe - year_start (yoe_of doe).
Definition mp_of (doy : Z) : Z := (5 * doy + 2) / 153.
Definition doy_month (doy : Z) : Z := if mp_of doy <? 10 then mp_of doy + 3 else mp_of doy - 9.
Definition doy_dom (doy : Z) : Z := doy - (153 * mp_of doy + 2) / 5 + 1.

Lemma civil_stages : forall X,
  month_of X = doy_month (doy_of (doe_of X)) /\ dom_of X = doy_dom (doy_of (doe_of X)).
Proof.
  (* both sides are unfolded to the same text: left to conversion alone the comparison takes seconds *)
  intros X. unfold month_of, dom_of, civil_from_days, doy_month, doy_dom, mp_of, doy_of, year_start, yoe_of, doe_of.
  cbv zeta; cbn [fst snd]. split; reflexivity.
Qed.

(* b is the successor of a in a counter over 0 .. hi that may wrap to 0 once it has reached lo *)
Definition follows (lo hi a b : Z) : Prop := 0 <= a <= hi /\ 0 <= b <= hi /\ (b = a + 1 \/ b = 0 /\ lo <= a).

Lemma doe_succ : forall X, follows 146096 146096 (doe_of X) (doe_of (X + 1)).
Proof. intros X. unfold follows, doe_of; cbv zeta. Z.div_mod_to_equations; lia. Qed.

(* yoe_of finds the year of the era a day lies in. The two halves are separate lemmas because lia takes three times as
   long for their conjunction. For the era's last year the bound year_start 400 = 146096 would leave out the last day, the
   29 February that a year divisible by 400 has and year_start does not count. *)
Lemma yoe_spec : forall doe, 0 <= doe <= 146096 ->
  let y := yoe_of doe in 0 <= y <= 399 /\ year_start y <= doe <= year_start y + 365.
Proof. intros doe H. unfold yoe_of, year_start; cbv zeta. Z.div_mod_to_equations; lia. Qed.

Lemma yoe_before_next : forall doe, 0 <= doe <= 146096 ->
  let y := yoe_of doe in y < 399 -> doe < year_start (y + 1).
Proof. intros doe H. unfold yoe_of, year_start; cbv zeta. Z.div_mod_to_equations; lia. Qed.

Lemma year_start_mono : forall y y', y <= y' -> year_start y + 365 * (y' - y) <= year_start y'.
Proof. intros y y' H. unfold year_start. Z.div_mod_to_equations; lia. Qed.

Lemma doy_succ : forall a b, follows 146096 146096 a b -> follows 364 365 (doy_of a) (doy_of b).
Proof.
  intros a b (Ha & Hb & [-> | [-> Ea]]).
  - pose proof (yoe_spec a Ha) as A. pose proof (yoe_spec (a + 1) Hb) as B.
    pose proof (yoe_before_next a Ha) as A'. pose proof (yoe_before_next (a + 1) Hb) as B'. cbv zeta in A, B, A', B'.
    set (y := yoe_of a) in *. set (y' := yoe_of (a + 1)) in *.
    (* y' < y and y + 1 < y' are impossible; y' = y + 1 only if a + 1 is the first day of year y' *)
    pose proof (year_start_mono y y'). pose proof (year_start_mono y' y).
    pose proof (year_start_mono (y + 1) y'). pose proof (year_start_mono (y' + 1) y).
    unfold follows, doy_of. fold y y'. lia.
  - replace a with 146096 by lia. change (follows 364 365 365 0). unfold follows. lia.
Qed.

Lemma doy_month_dom_succ : forall a b, follows 364 365 a b ->
  1 <= doy_dom a <= 31 /\
  (doy_month b = doy_month a /\ doy_dom b = doy_dom a + 1 \/
   doy_dom b = 1 /\ doy_month b <> doy_month a /\ 28 <= doy_dom a).
Proof.
  intros a b. unfold follows, doy_month, doy_dom, mp_of.
  destruct ((5 * a + 2) / 153 <? 10) eqn:Ea, ((5 * b + 2) / 153 <? 10) eqn:Eb; Z.div_mod_to_equations; lia.
Qed.

Lemma civil_succ : forall X,
  1 <= dom_of X <= 31 /\
  (month_of (X + 1) = month_of X /\ dom_of (X + 1) = dom_of X + 1 \/
   dom_of (X + 1) = 1 /\ month_of (X + 1) <> month_of X /\ 28 <= dom_of X).
Proof.
  intros X. destruct (civil_stages X) as [-> ->]. destruct (civil_stages (X + 1)) as [-> ->].
  apply doy_month_dom_succ, doy_succ, doe_succ.
Qed.

Lemma dom_pos : forall X, 1 <= dom_of X <= 31.
Proof. intros X. apply civil_succ. Qed.

(* one statement for walking forwards (first disjunct) and backwards (second, see month_back) inside a month *)
Lemma month_run : forall n Y, 0 <= n -> dom_of Y + n <= 28 \/ n < dom_of (Y + n) ->
  dom_of (Y + n) = dom_of Y + n /\ month_of (Y + n) = month_of Y.
Proof.
  intros n Y Hn. pattern n. apply natlike_ind; [| |exact Hn].
  - intros _. rewrite Z.add_0_r. lia.
  - intros k Hk IH H. replace (Y + Z.succ k) with (Y + k + 1) in * by lia.
    destruct (civil_succ (Y + k)) as [_ [[M D] | (D & _ & L)]]; [rewrite M, D in * |]; lia.
Qed.

Lemma month_back : forall n X, 0 <= n < dom_of X ->
  dom_of (X - n) = dom_of X - n /\ month_of (X - n) = month_of X.
Proof. intros n X H. pose proof (month_run n (X - n)) as R. rewrite Z.sub_add in R. lia. Qed.

Definition month_start (D : Z) : Z := D - dom_of D + 1.

Lemma dom_first : forall X, dom_of (month_start X) = 1.
Proof.
  intros X. pose proof (dom_pos X). pose proof (month_back (dom_of X - 1) X).
  unfold month_start. replace (X - dom_of X + 1) with (X - (dom_of X - 1)) by lia. lia.
Qed.

Lemma last_day : forall X, exists L,
  X <= L /\ dom_of L = dom_of X + (L - X) /\ month_of L = month_of X /\
  28 <= dom_of L /\ dom_of (L + 1) = 1 /\ month_of (L + 1) <> month_of X.
Proof.
  (* induction on the number of days the month can still have after X *)
  intros X. remember (Z.to_nat (31 - dom_of X)) as n eqn:En. revert X En.
  induction n as [|n IH]; intros X En; (destruct (civil_succ X) as [_ [[M D] | (D & M & L)]]; [|exists X; lia]).
  - pose proof (dom_pos X). pose proof (dom_pos (X + 1)). lia.
  - destruct (IH (X + 1)) as (L & H); [lia|]. exists L. rewrite M, D in H. lia.
Qed.

Lemma month_next_loop_stops : forall fuel n m e, n <= e < n + Z.of_nat fuel ->
  (forall k, n <= k < e -> month_of k = m) -> month_of e <> m -> month_next_loop fuel n m = e.
Proof.
  induction fuel as [|f IH]; intros n m e He Same Stop; [lia|]. cbn [month_next_loop].
  destruct (Z.eq_dec e n) as [->|Hne].
  - destruct (Z.eqb_spec (month_of n) m); [contradiction | reflexivity].
  - rewrite (Same n) by lia. rewrite Z.eqb_refl. apply IH; [lia | | exact Stop]. intros k Hk. apply Same. lia.
Qed.

Theorem month_next_spec : forall D,
  let F := month_start D in let N := month_next D in
  dom_of N = 1 /\ F + 28 <= N <= F + 31 /\
  forall Y, F <= Y < N -> month_start Y = F /\ month_next Y = N.
Proof.
  intros D. destruct (last_day D) as (L & HL & DL & ML & L28 & DN & MN).
  pose proof (dom_pos L) as L31. pose proof (dom_pos D) as PD. unfold month_start at 1. cbv zeta.
  set (F := D - dom_of D + 1) in *.
  (* the days F .. L are the month of D, counted from 1 *)
  assert (In : forall Y, F <= Y <= L -> dom_of Y = Y - F + 1 /\ month_of Y = month_of D).
  { intros Y HY. pose proof (month_back (L - Y) L) as R. replace (L - (L - Y)) with Y in R by lia. lia. }
  (* the days after L are the next month, at least up to its day 28 *)
  assert (Out : forall k, 0 <= k <= 27 -> dom_of (L + 1 + k) = 1 + k /\ month_of (L + 1 + k) <> month_of D).
  { intros k Hk. destruct (month_run k (L + 1)) as [E M]; [lia | lia | rewrite E, M; lia]. }
  assert (Next : forall Y, F <= Y <= L -> month_next Y = L + 1).
  { intros Y HY. destruct (In Y HY) as [DY MY]. unfold month_next. rewrite MY.
    (* the loop stops at e, the later of Y + 28 and L + 1, after at most 3 steps; e is day e - L of the next month *)
    remember (Z.max (Y + 28) (L + 1)) as e eqn:Ee.
    destruct (Out (e - (L + 1))) as [DO MO]; [lia|]. replace (L + 1 + (e - (L + 1))) with e in * by lia.
    rewrite (month_next_loop_stops 5 (Y + 28) (month_of D) e); [| lia | intros k Hk; apply In; lia | exact MO].
    destruct (dom_of e =? 1) eqn:E; lia. }
  rewrite (Next D) by lia. split; [exact DN | split; [lia|]].
  intros Y HY. split; [|apply Next; lia]. unfold month_start. destruct (In Y) as [E _]; lia.
Qed.
