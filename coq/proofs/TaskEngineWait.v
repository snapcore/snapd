(* Proofs about models/TaskEngine.v (C03): the Wait branch of Change.Status. The memoised, early-exit isTaskWaiting /
   isChangeWaiting equal the memo-free waiting_spec / change_waiting_spec when the wait and halt edges are acyclic and no
   Do task waits for an Undo task (NM1, NM2), which holds in every reachable state of a tame history. *)
From Coq Require Import List Bool Arith Lia.
Import ListNotations.
Require Import V.models.TaskEngine V.proofs.TaskEngineProofs V.proofs.TaskEngineStatus V.proofs.TaskEngineReady
               V.proofs.TaskEngineFuel V.proofs.TaskEngineDoing V.proofs.TaskEngineLive V.proofs.ListFacts.

Section WaitBranch.
  Variable g : list tdesc.
  Variable l : list task.
  Variables rk rk2 : nat -> nat.
  Hypothesis HL : length l = length g.
  Hypothesis HW : forall t, t_waits (nth t l dummy) = waits_g g t.
  Hypothesis HH : forall t, t_halts (nth t l dummy) = halts_of g t.
  Hypothesis HR1 : forall t w, In w (waits_g g t) -> rk w < rk t.
  Hypothesis HR2 : forall t h, In h (halts_of g t) -> rk2 h < rk2 t.
  Hypothesis NM1 : forall t d, stl l t = Do -> In d (waits_g g t) -> stl l d <> Undo.
  Hypothesis NM2 : forall t d, stl l t = Undo -> In d (halts_of g t) -> stl l d <> Do.

  Let n := length g.
  Let sts := map t_st l.

  Lemma sts_nth : forall d, nth d sts Hold = stl l d.
  Proof. intros; unfold sts; symmetry; apply stl_map. Qed.

  Definition pend (x : status) : bool := seqb x Do || seqb x Undo.

  Definition cnt (r : nat -> nat) (t : nat) : nat := length (filter (fun x => r x <? r t) (seq 0 n)).
  Definition ms (t : nat) : nat := match stl l t with Do => cnt rk t | Undo => cnt rk2 t | _ => 0 end.

  Lemma cnt_lt : forall r d t, d < n -> r d < r t -> cnt r d < cnt r t.
  Proof.
    intros r d t Hd Hr. unfold cnt. apply filter_length_lt with d.
    - intros y Hy. apply Nat.ltb_lt in Hy. apply Nat.ltb_lt. lia.
    - apply in_seq. lia.
    - apply Nat.ltb_lt. assumption.
    - apply Nat.ltb_ge. lia.
  Qed.

  Lemma cnt_le : forall r t, cnt r t <= length g.
  Proof. intros r t. unfold cnt, n. rewrite <- (seq_length (length g) 0) at 2. apply filter_length_le. Qed.

  Lemma ms_le : forall t, ms t <= length g.
  Proof. intros t. unfold ms. pose proof (cnt_le rk t). pose proof (cnt_le rk2 t). destruct (stl l t); lia. Qed.

  Definition deps_of (t : nat) : list nat := if seqb (stl l t) Do then waits_g g t else halts_of g t.

  Lemma in_range_l : forall d, stl l d <> Hold -> d < n.
  Proof.
    intros d H. unfold n. rewrite <- HL. destruct (Nat.lt_ge_cases d (length l)); [assumption|].
    exfalso. apply H. apply stl_out. assumption.
  Qed.

  Lemma dep_measure : forall t d, pend (stl l t) = true -> In d (deps_of t) -> pend (stl l d) = true -> ms d < ms t.
  Proof.
    intros t d Ht Hd Hp. unfold deps_of in Hd. unfold ms.
    assert (Ld : d < n) by (apply in_range_l; intros E; rewrite E in Hp; discriminate).
    destruct (stl l t) eqn:Et; try discriminate Ht; simpl in Hd.
    - (* t in Do: d in waits, d cannot be Undo *)
      pose proof (NM1 t d Et Hd) as N. destruct (stl l d) eqn:Ed; try discriminate Hp; [|congruence].
      apply cnt_lt; auto.
    - pose proof (NM2 t d Et Hd) as N. destruct (stl l d) eqn:Ed; try discriminate Hp; [congruence|].
      apply cnt_lt; auto.
  Qed.

  Definition waitish_with (f : nat) (d : nat) : bool :=
    let sd := nth d sts Hold in
    if seqb sd Wait then true else if seqb sd Do || seqb sd Undo then waiting_spec f g sts d else false.

  (* one step of the statement, with any function that agrees with waitish on the prerequisites *)
  Lemma waiting_spec_S : forall f t (h : nat -> bool),
    (forall d, In d (deps_of t) -> waitish_with f d = h d) ->
    waiting_spec (S f) g sts t =
    (if forallb (fun d => ready (stl l d) || h d) (deps_of t) then existsb h (deps_of t) else false).
  Proof.
    intros f t h E.
    rewrite <- (existsb_ext_in _ h _ E).
    rewrite <- (forallb_ext_in (fun d => if ready (nth d sts Hold) then true else waitish_with f d) _ (deps_of t)).
    - unfold deps_of. rewrite <- sts_nth. reflexivity.
    - intros d Hd. rewrite sts_nth, (E d Hd). reflexivity.
  Qed.

  Definition W (t : nat) : bool := waiting_spec (S (ms t)) g sts t.
  Definition waitishW (d : nat) : bool :=
    seqb (stl l d) Wait || (pend (stl l d) && W d).
  Definition okW (d : nat) : bool := ready (stl l d) || waitishW d.

  (* with any fuel above the measure the memo-free statement is one step over W of the prerequisites, so it does not
     depend on that fuel *)
  Lemma waiting_spec_W : forall k t f, ms t < k -> pend (stl l t) = true -> ms t < f ->
    waiting_spec f g sts t = (if forallb okW (deps_of t) then existsb waitishW (deps_of t) else false).
  Proof.
    induction k; intros t f Hk Hp Hf; [lia|].
    destruct f as [|f]; [lia|]. apply waiting_spec_S.
    intros d Hd. unfold waitish_with, waitishW, pend. rewrite sts_nth.
    destruct (seqb (stl l d) Wait); [reflexivity|].
    destruct (seqb (stl l d) Do || seqb (stl l d) Undo) eqn:Ep; [|reflexivity].
    pose proof (dep_measure t d Hp Hd Ep) as M. simpl. unfold W.
    rewrite (IHk d f), (IHk d (S (ms d))) by (assumption || lia). reflexivity.
  Qed.

  Lemma W_unfold : forall t, pend (stl l t) = true ->
    W t = (if forallb okW (deps_of t) then existsb waitishW (deps_of t) else false).
  Proof. intros t Hp. apply (waiting_spec_W (S (ms t))); auto. Qed.

  Lemma spec_indep : forall t f, pend (stl l t) = true -> ms t < f -> waiting_spec f g sts t = W t.
  Proof. intros t f Hp Hf. rewrite (W_unfold t Hp). apply (waiting_spec_W (S (ms t))); auto. Qed.

  Definition msound (v : list (nat * nat)) : Prop :=
    forall x, (vget v x = 3 -> W x = true) /\ (vget v x = 2 -> W x = false).

  Lemma vget_cons : forall k c v x, vget ((k, c) :: v) x = if Nat.eqb k x then c else vget v x.
  Proof. reflexivity. Qed.

  Lemma msound_cons : forall d c v, (c = 3 -> W d = true) -> (c = 2 -> W d = false) -> msound v -> msound ((d, c) :: v).
  Proof.
    intros d c v H3 H2 Hs x. rewrite vget_cons. destruct (Nat.eqb_spec d x) as [<-|_]; [split; assumption | apply Hs].
  Qed.

  Definition loop_val (ds : list nat) (w0 : bool) : bool :=
    if forallb okW ds then w0 || existsb waitishW ds else false.

  (* the value of the loop by the status of the first prerequisite, in the order of the cases of tw_loop *)
  Lemma loop_val_cons : forall d r w0,
    loop_val (d :: r) w0 =
    if seqb (stl l d) Wait then loop_val r true
    else if ready (stl l d) then loop_val r w0
    else if pend (stl l d) then (if W d then loop_val r true else false)
    else false.
  Proof.
    intros d r w0. unfold loop_val. cbn [forallb existsb]. rewrite orb_assoc. unfold okW at 1, waitishW at 1 2.
    destruct (stl l d); cbn [seqb ready pend orb andb]; rewrite ?orb_false_r, ?orb_true_r; try reflexivity.
    all: destruct (W d); rewrite ?orb_true_r; reflexivity.
  Qed.

  (* the recursive call behaves: value W, memo stays sound, no new visible computing marks *)
  Definition rec_ok (rec : list (nat * nat) -> nat -> list nat -> bool * list (nat * nat)) (bound : nat) : Prop :=
    forall v d, pend (stl l d) = true -> ms d < bound -> msound v -> (forall x, vget v x = 1 -> ms d < ms x) ->
      fst (rec v d (deps_of d)) = W d /\ msound (snd (rec v d (deps_of d))) /\
      (forall x, vget (snd (rec v d (deps_of d))) x = 1 -> vget v x = 1).

  Lemma deps_of_task : forall d,
    deps_of d = if seqb (stl l d) Do then t_waits (nth d l dummy) else t_halts (nth d l dummy).
  Proof. intros d. unfold deps_of. rewrite HW, HH. reflexivity. Qed.

  Lemma tw_loop_cons : forall rec d r w v,
    tw_loop rec l (d :: r) w v =
    if seqb (stl l d) Wait then tw_loop rec l r true v
    else if ready (stl l d) then tw_loop rec l r w v
    else if pend (stl l d)
         then let '(w', v') := rec v d (deps_of d) in if w' then tw_loop rec l r true v' else (false, v')
         else (false, v).
  Proof.
    intros rec d r w v. cbn [tw_loop]. cbv zeta. change (t_st (nth d l dummy)) with (stl l d).
    rewrite deps_of_task. destruct (stl l d); reflexivity.
  Qed.

  Lemma tw_loop_ok : forall rec bound t (ones : nat -> Prop),
    rec_ok rec bound -> pend (stl l t) = true -> ms t <= bound -> (forall x, ones x -> ms t <= ms x) ->
    forall ds w0 v,
      (forall d, In d ds -> In d (deps_of t)) -> msound v -> (forall x, vget v x = 1 -> ones x) ->
      fst (tw_loop rec l ds w0 v) = loop_val ds w0 /\ msound (snd (tw_loop rec l ds w0 v)) /\
      (forall x, vget (snd (tw_loop rec l ds w0 v)) x = 1 -> ones x).
  Proof.
    intros rec bound t ones Hrec Hp Hb Hones.
    induction ds as [|d r IH]; intros w0 v Hin Hs Ho.
    - simpl. unfold loop_val. simpl. rewrite orb_false_r. auto.
    - assert (Hin' : forall d0, In d0 r -> In d0 (deps_of t)) by (intros; apply Hin; right; assumption).
      rewrite tw_loop_cons, loop_val_cons.
      destruct (seqb (stl l d) Wait); [apply IH; assumption|].
      destruct (ready (stl l d)); [apply IH; assumption|].
      destruct (pend (stl l d)) eqn:Ep; [|auto].
      assert (Md : ms d < ms t) by (apply dep_measure; auto; apply Hin; left; reflexivity).
      destruct (Hrec v d Ep) as (R1 & R2 & R3); [lia | assumption | |].
      { intros x Hx. specialize (Hones x (Ho x Hx)). lia. }
      destruct (rec v d (deps_of d)) as [w' v']; simpl in R1, R2, R3. subst w'.
      assert (Ho' : forall x, vget v' x = 1 -> ones x) by (intros x Hx; apply Ho, R3, Hx).
      destruct (W d); [apply IH; assumption | auto].
  Qed.

  (* the branch of task_waiting that runs the loop and stores its result *)
  Lemma tw_store_ok : forall rec f v d,
    rec_ok rec f -> pend (stl l d) = true -> ms d <= f -> msound v -> (forall x, vget v x = 1 -> ms d < ms x) ->
    forall w v2, tw_loop rec l (deps_of d) false ((d, 1) :: v) = (w, v2) ->
    w = W d /\ msound ((d, if w then 3 else 2) :: v2) /\
    (forall x, vget ((d, if w then 3 else 2) :: v2) x = 1 -> vget v x = 1).
  Proof.
    intros rec f v d Hrec Hp Hm Hs Hc w v2 E.
    (* while the loop runs, the computing marks are d and those of v *)
    destruct (tw_loop_ok rec f d (fun x => x = d \/ vget v x = 1) Hrec Hp Hm) with (ds := deps_of d) (w0 := false)
      (v := (d, 1) :: v) as (L1 & L2 & L3).
    - intros x [->|Hx]; [lia | specialize (Hc x Hx); lia].
    - auto.
    - apply msound_cons; [discriminate | discriminate | assumption].
    - intros x. rewrite vget_cons. destruct (Nat.eqb_spec d x); auto.
    - rewrite E in L1, L2, L3. simpl in L1, L2, L3.
      assert (Ew : w = W d) by (rewrite L1; symmetry; apply (W_unfold d Hp)).
      clear L1. subst w. split; [reflexivity|]. split.
      + apply msound_cons; [destruct (W d); easy | destruct (W d); easy | assumption].
      + intros x. rewrite vget_cons. destruct (Nat.eqb_spec d x) as [_|N].
        * destruct (W d); discriminate.
        * intros Hx. destruct (L3 x Hx) as [->|H]; [contradiction N; reflexivity | assumption].
  Qed.

  Lemma task_waiting_ok : forall f, rec_ok (task_waiting f l) f.
  Proof.
    induction f; intros v d Hp Hm Hs Hc; [lia|].
    simpl task_waiting.
    destruct (Hs d) as [S3 S2].
    assert (Hm' : ms d <= f) by lia.
    destruct (vget v d) as [|[|[|[|k]]]] eqn:Ev.
    - destruct (tw_loop _ l (deps_of d) false ((d, 1) :: v)) as [w v2] eqn:E.
      exact (tw_store_ok _ f v d IHf Hp Hm' Hs Hc w v2 E).
    - exfalso. specialize (Hc d Ev). lia.
    - simpl. rewrite (S2 eq_refl). auto.
    - simpl. rewrite (S3 eq_refl). auto.
    - (* a value that is never stored: treated as not computed *)
      destruct (tw_loop _ l (deps_of d) false ((d, 1) :: v)) as [w v2] eqn:E.
      exact (tw_store_ok _ f v d IHf Hp Hm' Hs Hc w v2 E).
  Qed.

  Definition cw_fun (t : nat) : bool :=
    let x := nth t sts Hold in
    if ready x || seqb x Wait then true
    else if seqb x Do || seqb x Undo then waiting_spec (S (length g)) g sts t else false.

  Lemma cw_fun_val : forall t,
    cw_fun t = (ready (stl l t) || seqb (stl l t) Wait) || (pend (stl l t) && W t).
  Proof.
    intros t. unfold cw_fun. cbv zeta. rewrite sts_nth.
    destruct (ready (stl l t) || seqb (stl l t) Wait); [reflexivity|]. simpl orb.
    fold (pend (stl l t)). destruct (pend (stl l t)) eqn:Ep; [|reflexivity]. simpl andb.
    apply spec_indep; [assumption|]. pose proof (ms_le t). lia.
  Qed.

  Lemma change_waiting_loop_cons : forall t r v,
    change_waiting_loop l (t :: r) v =
    if ready (stl l t) || seqb (stl l t) Wait then change_waiting_loop l r v
    else if pend (stl l t)
         then let '(w, v') := task_waiting (S (length l)) l v t (deps_of t) in
              if w then change_waiting_loop l r v' else false
         else false.
  Proof.
    intros t r v. cbn [change_waiting_loop]. cbv zeta. change (t_st (nth t l dummy)) with (stl l t).
    rewrite deps_of_task. destruct (stl l t); reflexivity.
  Qed.

  Lemma change_waiting_loop_ok : forall ids v,
    msound v -> (forall x, vget v x <> 1) ->
    change_waiting_loop l ids v = forallb cw_fun ids.
  Proof.
    induction ids as [|t r IH]; intros v Hs Hn; [reflexivity|].
    rewrite change_waiting_loop_cons. cbn [forallb]. rewrite cw_fun_val.
    destruct (ready (stl l t) || seqb (stl l t) Wait); [apply IH; assumption|].
    destruct (pend (stl l t)) eqn:Ep; [|reflexivity]. cbn [orb andb].
    destruct (task_waiting_ok (S (length l)) v t Ep) as (R1 & R2 & R3); [pose proof (ms_le t); lia | assumption | |].
    { intros x Hx. destruct (Hn x Hx). }
    destruct (task_waiting (S (length l)) l v t (deps_of t)) as [w v']; cbn [fst snd] in R1, R2, R3. subst w.
    destruct (W t); [|reflexivity]. apply IH; [assumption|]. intros x Hx. apply (Hn x), R3, Hx.
  Qed.

  Lemma is_change_waiting_spec : has_status l Wait && is_change_waiting l = change_waiting_spec g sts.
  Proof.
    destruct (has_status l Wait) eqn:Hw; [|symmetry; apply change_waiting_spec_nowait; assumption].
    unfold is_change_waiting, change_waiting_spec.
    change (existsb (fun x => seqb x Wait) sts) with (occurs sts Wait). unfold sts at 1. rewrite occurs_has, Hw, HL.
    apply change_waiting_loop_ok.
    - intros x. split; intros F; discriminate F.
    - intros x F. discriminate F.
  Qed.

  (* C03: Change.Status equals the documented aggregate, Wait branch included *)
  Theorem change_status_is_aggregate : change_status l = agg_spec g (map t_st l).
  Proof. apply change_status_agg, is_change_waiting_spec. Qed.
End WaitBranch.

(* C03: in every reachable state of a tame history on a closed acyclic graph, Change.Status equals the documented
   aggregate (Wait branch included) *)
Theorem status_is_aggregate_reachable : forall (g : list tdesc) (rk : nat -> nat) (es : list event),
  g <> [] -> closed g -> (forall t w, In w (waits_g g t) -> rk w < rk t) ->
  tame (init_state g) es ->
  let s := run_events (init_state g) es in
  change_status (tasks s) = agg_spec g (map t_st (tasks s)).
Proof.
  intros g rk es Hg Hc Hrk Ht s.
  destruct (tame_reach g es Hg Hc Ht) as (_ & _ & Rs & [K _] & Len & Wt & Hh). fold s in Rs, K, Len, Wt, Hh.
  set (B := list_max (map rk (seq 0 (length g)))).
  assert (HB : forall h, h < length g -> rk h <= B).
  { intros h Hlt. assert (F : Forall (fun k => k <= B) (map rk (seq 0 (length g)))) by (apply list_max_le; unfold B; lia).
    rewrite Forall_forall in F. apply F. apply in_map. apply in_seq. lia. }
  apply (change_status_is_aggregate g (tasks s) rk (fun x => B - rk x)); auto.
  - intros t h Hin. unfold halts_of in Hin. apply filter_In in Hin. destruct Hin as [Hs Hm].
    apply in_seq in Hs. apply memn_In in Hm. pose proof (Hrk h t Hm). pose proof (HB h ltac:(lia)). lia.
  - (* a Do task never waits for an Undo task *)
    intros t d Et Hd Ed. change (stl (tasks s) t) with (st s t) in Et. change (stl (tasks s) d) with (st s d) in Ed.
    assert (Hw : In d (wts s t)) by (rewrite Wt; exact Hd).
    pose proof (K t d Et Hw) as Lv. rewrite lv_st, Ed in Lv by (rewrite Ed; discriminate). discriminate Lv.
  - (* an Undo task is never waited for by a Do task *)
    intros t d Et Hd Ed. change (stl (tasks s) t) with (st s t) in Et. change (stl (tasks s) d) with (st s d) in Ed.
    assert (Hh' : In d (hts s t)) by (rewrite Hh; exact Hd).
    pose proof (K d t Ed (Rs t d Hh')) as Lv. rewrite lv_st, Et in Lv by (rewrite Et; discriminate). discriminate Lv.
Qed.
