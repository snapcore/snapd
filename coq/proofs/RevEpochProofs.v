(* C35 — models/RevEpoch.v: revisions read back from their printed forms (atoi inverts dec within int64: atoi_dec), what
   ParseRevision accepts, CanRead as intersection of sets (intersect_iff), and the short printed forms of an epoch read back
   through fromString. The structured (JSON object) forms are in EpochJsonProofs.v. *)
From Coq Require Import List NArith ZArith Bool Lia.
Import ListNotations.
Require Import V.lib.Bytes V.proofs.BytesFacts V.lib.Dec V.proofs.DecProofs V.models.RevEpoch.
Open Scope N_scope.

Lemma is_digit_range : forall c, is_digit c = true -> 48 <= c <= 57.
Proof. intros c H. unfold is_digit in H. apply andb_prop in H. destruct H as [A B]. apply N.leb_le in A, B. lia. Qed.

Lemma neqb_of_digit : forall c k, is_digit c = true -> (k < 48 \/ 57 < k) -> (c =? k) = false.
Proof. intros c k H K. apply is_digit_range in H. apply N.eqb_neq. lia. Qed.

Lemma atoi_dec : forall v, (Z.of_N v <= max64)%Z -> atoi (dec v) = Some (Z.of_N v).
Proof.
  intros v Hv. destruct (dec_hd_digit v) as (c & r & E & D). unfold atoi. rewrite E.
  rewrite (neqb_of_digit c 43 D), (neqb_of_digit c 45 D) by lia.
  rewrite <- E, undec_dec.
  destruct (Z.leb_spec min64 (Z.of_N v)); [|unfold min64 in *; lia].
  destruct (Z.leb_spec (Z.of_N v) max64); [reflexivity|lia].
Qed.

Lemma parse_revision_store : forall n, (0 < n <= max64)%Z -> parse_revision (dec (Z.to_N n)) = Some n.
Proof.
  intros n Hn. unfold parse_revision.
  assert (A : atoi (dec (Z.to_N n)) = Some n) by (rewrite atoi_dec; rewrite Z2N.id; try lia; reflexivity).
  destruct (dec_hd_digit (Z.to_N n)) as (c & r & E & D). rewrite E in *.
  unfold unset_b. cbn [beq]. rewrite (neqb_of_digit c 117 D), (neqb_of_digit c 120 D) by lia. cbn [andb].
  rewrite A. unfold positive_only. destruct (Z.ltb_spec 0 n); [reflexivity|lia].
Qed.

Lemma parse_revision_local : forall m, (0 < m <= max64)%Z -> parse_revision (120 :: dec (Z.to_N m)) = Some (- m)%Z.
Proof.
  intros m Hm. unfold parse_revision, unset_b. cbn [beq]. change (120 =? 117) with false. cbn [andb].
  change (120 =? 120) with true. cbv iota.
  rewrite atoi_dec; rewrite Z2N.id; try lia.
  unfold positive_only. destruct (Z.ltb_spec 0 m); [reflexivity|lia].
Qed.

Lemma wrap64_id : forall z, (min64 <= z <= max64)%Z -> wrap64 z = z.
Proof. intros z H. unfold wrap64, min64, max64 in *. rewrite Z.mod_small; lia. Qed.

Lemma parse_rev_string : forall n, (min64 < n <= max64)%Z -> parse_revision (rev_string n) = Some n.
Proof.
  intros n Hn. unfold rev_string.
  destruct (Z.eqb_spec n 0) as [->|N0]; [reflexivity|].
  destruct (Z.ltb_spec n 0) as [Neg|Pos].
  - rewrite wrap64_id by (unfold min64, max64 in *; lia). unfold fmt_int.
    destruct (Z.ltb_spec (- n) 0); [lia|].
    rewrite parse_revision_local by (unfold min64, max64 in *; lia). f_equal. lia.
  - unfold fmt_int. destruct (Z.ltb_spec n 0); [lia|]. apply parse_revision_store. lia.
Qed.

Lemma unquote_quoted : forall s, unquote (34 :: s ++ [34]) = Some s.
Proof. intros s. unfold unquote. change (34 =? 34) with true. cbv iota. rewrite rev_app_distr. cbn [rev app]. change (34 =? 34) with true. cbv iota. rewrite rev_involutive. reflexivity. Qed.

Lemma yaml_is_parse : forall s, rev_unmarshal_yaml s = parse_revision s.
Proof. intros s. unfold rev_unmarshal_yaml, rev_unmarshal_json. rewrite unquote_quoted. reflexivity. Qed.

Lemma revision_roundtrip : forall n, (min64 < n <= max64)%Z ->
  parse_revision (rev_string n) = Some n /\
  rev_unmarshal_json (rev_marshal_json n) = Some n /\
  rev_unmarshal_yaml (rev_string n) = Some n.
Proof.
  intros n Hn. split; [apply parse_rev_string; exact Hn|]. split.
  - unfold rev_marshal_json, rev_unmarshal_json. rewrite unquote_quoted. apply parse_rev_string; exact Hn.
  - rewrite yaml_is_parse. apply parse_rev_string; exact Hn.
Qed.

Lemma bytes_uint_digits : forall b u, bytes_uint b = Some u -> forallb is_digit b = true.
Proof.
  induction b as [|c r IH]; intros u H; [reflexivity|]. cbn [bytes_uint] in H.
  destruct (bytes_uint r) as [u'|]; [|discriminate]. cbn [forallb]. rewrite (IH _ eq_refl), andb_true_r.
  unfold is_digit.
  repeat match type of H with (if ?c =? ?k then _ else _) = _ =>
    destruct (N.eqb_spec c k); [subst; reflexivity|] end.
  discriminate.
Qed.

Lemma undec_all_digits : forall b v, undec b = Some v -> all_digits b = true.
Proof.
  intros b v H. unfold undec in H. destruct b as [|c r]; [discriminate|].
  destruct (bytes_uint (c :: r)) eqn:E; [|discriminate]. unfold all_digits. cbn [is_nil_b negb andb].
  eapply bytes_uint_digits; eauto.
Qed.

Lemma atoi_shape : forall s z, atoi s = Some z -> signed_digits s = true /\ (min64 <= z <= max64)%Z.
Proof.
  intros s z H. unfold atoi in H. unfold signed_digits. destruct s as [|c r].
  - cbn in H. discriminate.
  - destruct (c =? 43) eqn:P; [|destruct (c =? 45) eqn:M]; cbn [orb];
    match type of H with match undec ?d with _ => _ end = _ => destruct (undec d) as [v|] eqn:U; [|discriminate] end;
    apply undec_all_digits in U; (split; [exact U|]);
    match type of H with (if ?a && ?b then _ else _) = _ => destruct a eqn:A; destruct b eqn:B; try discriminate end;
    inversion H; subst; apply Z.leb_le in A, B; lia.
Qed.

Lemma positive_only_some : forall o i, positive_only o = Some i -> o = Some i /\ (0 < i)%Z.
Proof. intros [x|] i H; cbn in H; [|discriminate]. destruct (Z.ltb_spec 0 x); inversion H; subst; auto. Qed.

Lemma positive_atoi : forall s i, positive_only (atoi s) = Some i -> signed_digits s = true /\ (0 < i <= max64)%Z.
Proof.
  intros s i H. apply positive_only_some in H. destruct H as [P Hi]. apply atoi_shape in P. destruct P as [S R].
  split; [exact S|lia].
Qed.

(* closes `true = true /\ (n = 0 <-> s = unset_b) /\ min64 < n <= max64` from s <> unset_b and the bounds on n in the context *)
Ltac fin := split; [reflexivity|]; split; [split; intros; [lia|congruence]|unfold min64, max64 in *; lia].

Lemma parse_revision_accepts : forall s n, parse_revision s = Some n ->
  rev_shape s = true /\ (n = 0%Z <-> s = unset_b) /\ (min64 < n <= max64)%Z.
Proof.
  intros s n H. unfold parse_revision in H. unfold rev_shape.
  destruct (beq s unset_b) eqn:U.
  - inversion H; subst. apply beq_eq in U. cbn [orb]. repeat split; auto; unfold min64, max64; lia.
  - assert (NU : s <> unset_b) by (intros ->; rewrite beq_refl in U; discriminate).
    cbn [orb].
    destruct s as [|c t]; [cbn in H; discriminate|].
    destruct (c =? 120) eqn:X.
    + destruct (positive_only (atoi t)) as [i|] eqn:P; cbn [option_map] in H.
      * inversion H; subst. destruct (positive_atoi _ _ P) as [S R]. rewrite S. cbn [andb]. rewrite orb_true_r. fin.
      * destruct (positive_atoi _ _ H) as [S R]. rewrite S. cbn [orb]. fin.
    + cbn [andb]. destruct (positive_atoi _ _ H) as [S R]. rewrite S. cbn [orb]. fin.
Qed.

Lemma intersect_iff : forall rs ws, intersect rs ws = true <-> exists x, In x rs /\ In x ws.
Proof.
  intros rs ws. unfold intersect. rewrite existsb_exists. split.
  - intros (r & Hr & H). rewrite existsb_exists in H. destruct H as (w & Hw & E). apply N.eqb_eq in E. subst. eauto.
  - intros (x & Hr & Hw). exists x. split; [exact Hr|]. rewrite existsb_exists. exists x. split; [exact Hw|apply N.eqb_refl].
Qed.

Definition read_set (e : epoch) : list N := norm0 (lst (e_read e)).
Definition write_set (e : epoch) : list N := norm0 (lst (e_write e)).

Lemma can_read_iff : forall e o, can_read e o = true <-> exists x, In x (read_set e) /\ In x (write_set o).
Proof. intros. unfold can_read. apply intersect_iff. Qed.

Lemma filter_mem_intersect : forall rs ws,
  negb (is_nil_b (filter (fun x => mem x ws) rs)) = intersect rs ws.
Proof.
  induction rs as [|r rs IH]; intros ws; [reflexivity|].
  cbn [filter intersect existsb]. change (mem r ws) with (existsb (fun w => r =? w) ws).
  destruct (existsb (fun w => r =? w) ws); [reflexivity|]. cbn [orb]. apply IH.
Qed.

Lemma reads_spec_is_can_read : forall e o, reads_spec e o = can_read e o.
Proof. intros e o. apply filter_mem_intersect. Qed.

Lemma is_zero_list_norm : forall l, is_zero_list l = true -> norm0 l = [0].
Proof.
  intros [|x [|y l]] H; cbn in *; try reflexivity; try discriminate. apply N.eqb_eq in H. subst. reflexivity.
Qed.

Lemma intersect_nonempty : forall rs ws, intersect rs ws = true -> norm0 rs = rs /\ norm0 ws = ws.
Proof.
  intros rs ws H. apply intersect_iff in H. destruct H as (x & Hr & Hw).
  destruct rs; [destruct Hr|]. destruct ws; [destruct Hw|]. split; reflexivity.
Qed.

Lemma validate_ok : forall e, validate e = 0 ->
  explicit_empty (e_read e) = false /\ explicit_empty (e_write e) = false /\
  (is_zero e = true \/
   ((length (lst (e_read e)) <= 10)%nat /\ (length (lst (e_write e)) <= 10)%nat /\
    is_increasing (lst (e_read e)) = true /\ is_increasing (lst (e_write e)) = true /\
    intersect (lst (e_read e)) (lst (e_write e)) = true)).
Proof.
  intros e H. unfold validate in H.
  destruct (explicit_empty (e_read e)); [discriminate|]. destruct (explicit_empty (e_write e)); [discriminate|].
  split; [reflexivity|]. split; [reflexivity|]. cbn [orb] in H.
  destruct (is_zero e); [left; reflexivity|right].
  destruct (Nat.ltb_spec 10 (length (lst (e_read e)))); [discriminate|].
  destruct (Nat.ltb_spec 10 (length (lst (e_write e)))); [discriminate|]. cbn [orb] in H.
  destruct (is_increasing (lst (e_read e))); [|discriminate].
  destruct (is_increasing (lst (e_write e))); [|discriminate]. cbn [negb orb] in H.
  destruct (intersect _ _); [|discriminate]. repeat split; auto.
Qed.

Lemma valid_reads_self : forall e, validate e = 0 -> can_read e e = true.
Proof.
  intros e H. unfold can_read. destruct (validate_ok e H) as (_ & _ & [Z|(_ & _ & _ & _ & I)]).
  - unfold is_zero in Z. apply andb_prop in Z. destruct Z as [Zr Zw].
    rewrite (is_zero_list_norm _ Zr), (is_zero_list_norm _ Zw). reflexivity.
  - destruct (intersect_nonempty _ _ I) as [A B]. rewrite A, B. exact I.
Qed.

Lemma dec_inj : forall a b, dec a = dec b -> a = b.
Proof. intros a b H. pose proof (undec_dec a) as A. rewrite H, undec_dec in A. congruence. Qed.

Lemma strip_star_dec : forall n, strip_star (dec n) = (false, dec n).
Proof.
  intros n. unfold strip_star. destruct (rev (dec n)) as [|c m] eqn:E; [reflexivity|].
  assert (D : is_digit c = true).
  { pose proof (dec_digits n) as D. rewrite forallb_forall in D. apply D, in_rev. rewrite E. left. reflexivity. }
  rewrite (neqb_of_digit c 42 D) by lia. reflexivity.
Qed.

Lemma strip_star_dec_star : forall n, strip_star (dec n ++ [42]) = (true, dec n).
Proof.
  intros n. unfold strip_star. rewrite rev_app_distr. cbn [rev app]. change (42 =? 42) with true. cbv iota.
  rewrite rev_involutive. reflexivity.
Qed.

Lemma parse_u32_dec : forall n, n < two32 -> parse_u32 (dec n) = Some n.
Proof.
  intros n Hn. unfold parse_u32.
  assert (U : match undec (dec n) with Some v => if v <? two32 then Some v else None | None => None end = Some n).
  { rewrite undec_dec. destruct (N.ltb_spec n two32); [reflexivity|lia]. }
  destruct (dec n) as [|c [|d r]] eqn:E; try exact U.
  destruct (N.eqb_spec c 48) as [->|Hc]; [|exact U].
  exfalso. eapply dec_leading_zero; eauto.
Qed.

Lemma beq_dec_star_zero : forall n, beq (dec n ++ [42]) [48] = false.
Proof.
  intros n. destruct (dec_hd_digit n) as (c & r & E & _). rewrite E. cbn [app beq].
  destruct r; cbn [app beq]; rewrite andb_false_r; reflexivity.
Qed.

Lemma is_nil_b_dec : forall n, is_nil_b (dec n) = false.
Proof. intros n. pose proof (dec_nonempty n). destruct (dec n); [congruence|reflexivity]. Qed.

Lemma list_eqb_refl : forall l, list_eqb l l = true.
Proof. induction l as [|x l IH]; cbn; [reflexivity|]. rewrite N.eqb_refl, IH. reflexivity. Qed.

Lemma epoch_equal_refl : forall e, epoch_equal e e = true.
Proof.
  intros e. unfold epoch_equal. destruct (is_zero e); [reflexivity|]. rewrite !list_eqb_refl. reflexivity.
Qed.

Definition wf32 (e : epoch) : Prop := Forall (fun x => x < two32) (lst (e_read e)) /\ Forall (fun x => x < two32) (lst (e_write e)).

Lemma from_string_dec : forall n, n < two32 -> n <> 0 -> from_string (dec n) = Some (mkEpoch (Some [n]) (Some [n])).
Proof.
  intros n Hn N0. unfold from_string. rewrite is_nil_b_dec. cbn [orb].
  destruct (beq (dec n) [48]) eqn:B.
  - exfalso. apply beq_eq in B. change [48] with (dec 0) in B. apply dec_inj in B. congruence.
  - rewrite strip_star_dec, parse_u32_dec by exact Hn. reflexivity.
Qed.

Lemma from_string_dec_star : forall n, n < two32 -> n <> 0 ->
  from_string (dec n ++ [42]) = Some (mkEpoch (Some [n - 1; n]) (Some [n])).
Proof.
  intros n Hn N0. unfold from_string.
  assert (Nn : is_nil_b (dec n ++ [42]) = false) by (destruct (dec n); reflexivity).
  rewrite Nn, beq_dec_star_zero. cbn [orb]. rewrite strip_star_dec_star, parse_u32_dec by exact Hn.
  destruct (N.eqb_spec n 0); [congruence|reflexivity].
Qed.

Lemma is_short_struct : forall r w, is_short (json_struct r w) = false.
Proof. reflexivity. Qed.

(* simplify: what String prints for an epoch other than the zero epoch is N, N* or the structured form *)
Lemma epoch_string_cases : forall e, is_zero e = false ->
  (exists n, lst (e_read e) = [n] /\ lst (e_write e) = [n] /\ epoch_string e = dec n) \/
  (exists m n, lst (e_read e) = [m; n] /\ lst (e_write e) = [n] /\ (m + 1) mod two32 = n /\
               epoch_string e = dec n ++ [42]) \/
  epoch_string e = json_struct (e_read e) (e_write e).
Proof.
  intros e Z. unfold epoch_string. rewrite Z.
  destruct (lst (e_read e)) as [|r0 [|r1 [|r2 rr]]]; try (right; right; reflexivity);
    destruct (lst (e_write e)) as [|w0 [|w1 ww]]; try (right; right; reflexivity).
  - destruct (N.eqb_spec r0 w0) as [<-|]; [left; eauto|right; right; reflexivity].
  - destruct (N.eqb_spec ((r0 + 1) mod two32) r1); [|right; right; reflexivity].
    destruct (N.eqb_spec r1 w0) as [<-|]; [right; left; exists r0, r1; auto|right; right; reflexivity].
Qed.

(* every valid epoch whose printed form is a short form (N or N* or 0) reads back Equal from it *)
Lemma epoch_short_roundtrip : forall e, validate e = 0 -> wf32 e -> is_short (epoch_string e) = true ->
  exists e', from_string (epoch_string e) = Some e' /\ epoch_equal e e' = true.
Proof.
  intros e V [Wr Ww] S. unfold epoch_equal. destruct (is_zero e) eqn:Z.
  - exists (mkEpoch (Some [0]) (Some [0])). unfold epoch_string. rewrite Z. split; reflexivity.
  - destruct (validate_ok e V) as (_ & _ & [Z1|(_ & _ & Ir & _ & _)]); [congruence|].
    destruct (epoch_string_cases e Z) as [(n & R & W & ->)|[(m & n & R & W & M & ->)|E]].
    + assert (N0 : n <> 0).
      { intros ->. unfold is_zero in Z. rewrite R, W in Z. discriminate. }
      rewrite R, W in *. eexists. split; [apply from_string_dec; [exact (Forall_inv Wr)|exact N0]|].
      cbn [lst e_read e_write]. rewrite !list_eqb_refl. reflexivity.
    + rewrite R, W in *. cbn [is_increasing] in Ir. rewrite andb_true_r in Ir. apply N.ltb_lt in Ir.
      pose proof (Forall_inv Wr) as H0. pose proof (Forall_inv (Forall_inv_tail Wr)) as H1. cbn beta in H0, H1.
      (* the uint32 addition did not wrap, since m < n *)
      assert (Hn : n = m + 1).
      { unfold two32 in *. destruct (N.eq_dec (m + 1) 4294967296) as [E|E].
        - rewrite E, N.mod_same in M by lia. lia.
        - rewrite N.mod_small in M by lia. lia. }
      eexists. split; [apply from_string_dec_star; [assumption|lia]|].
      cbn [lst e_read e_write]. replace (n - 1) with m by lia. rewrite !list_eqb_refl. reflexivity.
    + rewrite E, is_short_struct in S. discriminate.
Qed.

Example epoch_short_roundtrip_nonvacuous :
  let e := mkEpoch (Some [4; 5]) (Some [5]) in
  validate e = 0 /\ is_short (epoch_string e) = true /\ epoch_string e = [53; 42].
Proof. vm_compute. repeat split; reflexivity. Qed.
