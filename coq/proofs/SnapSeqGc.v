(* C12 — which revisions gc_revs (doInstall's garbage collection, models/SnapSeq.v) picks. On a sequence without repetition,
   split at the current revision, it is one closed form ([gc_revs_split]): the loop that drops the target from the candidates is
   `rem` on the part before the current revision ([drop_target_rem]). [gc_keeps] and the forms by position of the target are read off it. *)
From Coq Require Import List NArith ZArith Bool Arith Lia.
Import ListNotations.
Require Import V.models.SnapSeq V.proofs.ListFacts V.proofs.SnapSeqProofs.
Open Scope N_scope.

Lemma drop_target_nohit : forall fuel i target l ci,
  (forall k, (i <= k < ci)%nat -> nth k l 0 <> target) -> drop_target fuel i target l ci = (l, ci).
Proof.
  induction fuel as [|f IH]; intros i target l ci H; simpl; [reflexivity|].
  destruct (i <? ci)%nat eqn:L; [|reflexivity]. apply Nat.ltb_lt in L.
  destruct (nth i l 0 =? target) eqn:Q.
  - apply N.eqb_eq in Q. exfalso. apply (H i); [lia|exact Q].
  - apply IH. intros k Hk. apply H. lia.
Qed.

(* the loop is at index |p|, the current revision at |p| + |a|.  After a hit the loop skips the element that moved into
   the freed place: harmless, the target occurs once *)
Lemma drop_target_rem : forall t fuel p a q, NoDup (a ++ q) -> (length a <= fuel)%nat ->
  drop_target fuel (length p) t (p ++ a ++ q) (length p + length a) = (p ++ rem t a ++ q, (length p + length (rem t a))%nat).
Proof.
  induction fuel as [|f IH]; intros p [|x a] q ND L; simpl in L; try lia; cbn [drop_target];
    rewrite ?Nat.add_0_r, ?Nat.ltb_irrefl; try reflexivity.
  assert (Lt : (length p <? length p + length (x :: a))%nat = true) by (apply Nat.ltb_lt; simpl; lia).
  rewrite Lt. change ((x :: a) ++ q) with (x :: a ++ q). rewrite nth_middle.
  inversion ND as [|? ? Nx ND']; subst. unfold rem. cbn [filter]. fold (rem t a).
  destruct (x =? t) eqn:Q; cbn [negb].
  - apply N.eqb_eq in Q. subst x. assert (Nt : ~ In t a) by (intros I; apply Nx, in_or_app; auto).
    rewrite remove_at_app, (rem_notin t a Nt). replace (pred (length p + length (t :: a))) with (length p + length a)%nat by (simpl; lia).
    apply drop_target_nohit. intros k Hk E. apply Nt. rewrite <- E, app_nth2, app_nth1 by lia. apply nth_In. lia.
  - specialize (IH (p ++ [x]) a q ND'). rewrite app_length, <- app_assoc in IH. simpl in IH.
    replace (S (length p)) with (length p + 1)%nat by lia.
    replace (length p + length (x :: a))%nat with (length p + 1 + length a)%nat by (simpl; lia).
    rewrite IH by lia. rewrite <- app_assoc. simpl. f_equal. lia.
Qed.

(* every refresh: what was kept after the current revision (left over from reverts) except the target, then the oldest
   (candidates before current + 1 - retain) revisions of the candidates that are not in use for booting, one slot of
   retain being reserved for a target that is not kept yet *)
Theorem gc_revs_split : forall s t retain inuse a b,
  NoDup (seq s) -> seq s = a ++ cur s :: b ->
  gc_revs s t retain inuse
  = rem t b ++ filter (fun r => negb (inuse r))
      (firstn (Z.to_nat (Z.of_nat (length (rem t a)) - (if mem t (seq s) then retain else retain - 1) + 1))
              (rem t a ++ cur s :: b)).
Proof.
  intros s t retain inuse a b ND SQ. unfold gc_revs. rewrite SQ in ND.
  assert (Nb : ~ In (cur s) b) by (intros I; apply (NoDup_remove_2 _ _ _ ND), in_or_app; auto).
  rewrite SQ, (last_index_mid _ _ _ Nb), skipn_after.
  rewrite (drop_target_rem t _ [] a (cur s :: b) ND) by (rewrite app_length; lia). reflexivity.
Qed.

Lemma In_firstn_app : forall (x y : list N) n c, (n <= length x)%nat -> In c (firstn n (x ++ y)) -> In c x.
Proof.
  intros x y n c L I. rewrite firstn_app in I. replace (n - length x)%nat with O in I by lia.
  rewrite app_nil_r in I. eapply In_firstn, I.
Qed.

(* with a slot left for the target (retain' >= 1) the candidates stop before the current revision *)
Lemma gc_revs_in : forall s t retain inuse a b x,
  NoDup (seq s) -> seq s = a ++ cur s :: b -> (1 <= (if mem t (seq s) then retain else retain - 1))%Z ->
  In x (gc_revs s t retain inuse) -> x <> t /\ In x (a ++ b).
Proof.
  intros s t retain inuse a b x ND SQ R. rewrite (gc_revs_split s t retain inuse a b ND SQ), !in_app_iff, filter_In.
  intros [H|[H _]].
  - apply In_rem in H. tauto.
  - apply In_firstn_app in H; [apply In_rem in H; tauto|lia].
Qed.

(* neither the target nor the current revision is ever garbage-collected (retain >= 2: one slot is reserved for a target
   that is not kept yet) *)
Theorem gc_keeps : forall s o retain inuse,
  wf s -> okind o = ORefresh -> accepts o s = true -> (2 <= retain)%Z ->
  ~ In (orev o) (gc_revs s (orev o) retain inuse) /\ ~ In (cur s) (gc_revs s (orev o) retain inuse).
Proof.
  intros s o retain inuse W K AC R. destruct (accepts_refresh o s K AC) as (NE & _ & _).
  destruct (in_split _ _ (wf_cur s W NE)) as (a & b & SQ). pose proof (wf_nodup s W) as ND.
  assert (R' : (1 <= (if mem (orev o) (seq s) then retain else retain - 1))%Z) by (destruct (mem (orev o) (seq s)); lia).
  split; intros H; destruct (gc_revs_in s (orev o) retain inuse a b _ ND SQ R' H) as [NT I]; [exact (NT eq_refl)|].
  rewrite SQ in ND. exact (NoDup_remove_2 _ _ _ ND I).
Qed.

Lemma gc_of_keeps : forall s o retain inuse,
  wf s -> c10_op o -> accepts o s = true -> (2 <= retain)%Z ->
  gc_of o s retain inuse = [] \/
  (seq s <> [] /\ ~ In (orev o) (gc_of o s retain inuse) /\ ~ In (cur s) (gc_of o s retain inuse)).
Proof.
  intros s o retain inuse W OP AC R. unfold gc_of.
  destruct (installed s) eqn:I; [|left; reflexivity]. unfold is_revert.
  destruct OP as [K|[K|K]]; rewrite K; cbn [negb andb]; [|right|left; reflexivity].
  - unfold accepts in AC. rewrite K, I in AC. discriminate.
  - split; [apply installed_iff, I|apply gc_keeps; assumption].
Qed.

Theorem after_current_discarded : forall s t retain inuse ci x,
  NoDup (seq s) -> last_index (cur s) (seq s) = Some ci ->
  In x (skipn (S ci) (seq s)) -> x <> t -> In x (gc_revs s t retain inuse).
Proof.
  intros s t retain inuse ci x ND LI Hx NT.
  destruct (last_index_split _ _ _ ND LI) as (a & b & SQ & LA & _ & _).
  rewrite (gc_revs_split s t retain inuse a b ND SQ). rewrite SQ, <- LA, skipn_after in Hx.
  apply in_or_app. left. apply In_rem. auto.
Qed.

(* The closed form by position of the target.  Not kept yet (here the sequence may even repeat revisions): *)
Theorem gc_new_revision : forall s target retain inuse ci,
  ~ In target (seq s) -> last_index (cur s) (seq s) = Some ci ->
  gc_revs s target retain inuse
  = skipn (S ci) (seq s) ++ filter (fun r => negb (inuse r)) (firstn (Z.to_nat (Z.of_nat ci + 2 - retain)) (seq s)).
Proof.
  intros s target retain inuse ci NI LI. unfold gc_revs. rewrite LI.
  assert (M : mem target (seq s) = false) by (apply mem_false; exact NI). rewrite M.
  rewrite drop_target_nohit by (intros k Hk Q; apply NI; rewrite <- Q; apply nth_In; apply last_index_lt in LI; lia).
  f_equal.
  - apply filter_all. intros x Hx. apply negb_true_iff, N.eqb_neq. intros ->. apply NI.
    eapply (In_skipn _ (S ci)). exact Hx.
  - do 3 f_equal. lia.
Qed.

Lemma app_split_later : forall (a a' : list N) t c b b',
  a ++ t :: b = a' ++ c :: b' -> (length a < length a')%nat ->
  exists b1, a' = a ++ t :: b1 /\ b = b1 ++ c :: b'.
Proof.
  induction a as [|x a IH]; intros a' t c b b' E L.
  - destruct a' as [|y a']; [simpl in L; lia|]. simpl in E. injection E as <- E. exists a'. split; [reflexivity|exact E].
  - destruct a' as [|y a']; [simpl in L; lia|]. simpl in E. injection E as <- E.
    destruct (IH a' t c b b' E) as (b1 & -> & ->); [simpl in L; lia|]. exists b1. split; reflexivity.
Qed.

Lemma rem_middle : forall t a b, ~ In t (a ++ b) -> rem t (a ++ t :: b) = a ++ b.
Proof.
  intros t a b H. unfold rem. rewrite filter_app. cbn [filter]. rewrite N.eqb_refl. cbn [negb]. fold (rem t a) (rem t b).
  rewrite !rem_notin; auto; intros I; apply H, in_or_app; auto.
Qed.

(* kept, before the current revision: it leaves the candidates ... *)
Theorem gc_kept_target_before : forall s t retain inuse a b ci,
  NoDup (seq s) -> seq s = a ++ t :: b -> last_index (cur s) (seq s) = Some ci -> (length a < ci)%nat ->
  gc_revs s t retain inuse
  = skipn (S ci) (seq s) ++ filter (fun r => negb (inuse r)) (firstn (Z.to_nat (Z.of_nat ci - retain)) (a ++ b)).
Proof.
  intros s t retain inuse a b ci ND SQ LI L.
  destruct (last_index_split _ _ _ ND LI) as (a' & b' & SQ' & LA' & _ & _).
  rewrite (gc_revs_split s t retain inuse a' b' ND SQ'), SQ', <- LA', skipn_after. rewrite <- SQ', SQ.
  assert (M : mem t (a ++ t :: b) = true) by (apply mem_In, in_or_app; right; left; reflexivity). rewrite M.
  rewrite SQ in SQ', ND. apply NoDup_remove_2 in ND. rewrite <- LA' in L.
  destruct (app_split_later a a' t (cur s) b b' SQ' L) as (b1 & -> & ->).
  rewrite (rem_notin t b'), rem_middle, <- app_assoc.
  - do 3 f_equal. rewrite !app_length. simpl. lia.
  - intros I. apply ND. rewrite app_assoc. apply in_or_app. auto.
  - intros I. apply ND. apply in_or_app. right. apply in_or_app. right. right. exact I.
Qed.

(* ... after it (left over from a revert): the candidates are as they were *)
Theorem gc_kept_target_after : forall s t retain inuse a b ci,
  NoDup (seq s) -> seq s = a ++ t :: b -> last_index (cur s) (seq s) = Some ci -> (ci < length a)%nat ->
  gc_revs s t retain inuse
  = filter (fun r => negb (r =? t)) (skipn (S ci) (seq s))
    ++ filter (fun r => negb (inuse r)) (firstn (Z.to_nat (Z.of_nat ci - retain + 1)) (seq s)).
Proof.
  intros s t retain inuse a b ci ND SQ LI L.
  destruct (last_index_split _ _ _ ND LI) as (a' & b' & SQ' & LA' & _ & _).
  rewrite (gc_revs_split s t retain inuse a' b' ND SQ'), SQ', <- LA', skipn_after. rewrite <- SQ', SQ.
  assert (M : mem t (a ++ t :: b) = true) by (apply mem_In, in_or_app; right; left; reflexivity). rewrite M.
  rewrite SQ in SQ', ND. apply NoDup_remove_2 in ND. rewrite <- LA' in L.
  destruct (app_split_later a' a (cur s) t b' b (eq_sym SQ') L) as (b1 & E & _).
  rewrite (rem_notin t a'); [rewrite SQ'; reflexivity|].
  intros I. apply ND. rewrite E, <- app_assoc. apply in_or_app. auto.
Qed.
