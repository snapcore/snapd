(* C16 — the chain from the user's timer string (parse_schedule) to the window guarantee (window_guarantee): string_to_window *)
From Coq Require Import List NArith ZArith Bool String.
Import ListNotations.
Require Import V.lib.Bytes V.lib.Civil V.models.Timer V.models.TimerText.
Require Import V.proofs.TimerProofs V.proofs.TimerTextProofs V.proofs.TimerFuelProofs.
Open Scope Z_scope.

Definition window_guarantee (s : schedule) (last now : Z) : Prop :=
  exists w k cs, sched_next (next_fuel last now) s last now = Some w /\
    0 <= k < Z.of_nat (next_fuel last now) /\ In cs (flattened s) /\
    let D := last / 86400 + k in
    w = window_of cs D /\ week_ok s D = true /\ now <= w_end w /\ (last < w_start w \/ w_end w < last) /\
    (forall cs', In cs' (flattened s) -> now <= w_end (window_of cs' D) ->
                 (last < w_start (window_of cs' D) \/ w_end (window_of cs' D) < last) ->
                 w_start w <= w_start (window_of cs' D)) /\
    (* and Includes accepts the window on its own day, unless the span starts at 24:00 *)
    (clock_in_day (cs_start cs) ->
     forall t, w_start w <= t -> (t < w_end w \/ (w_end w = w_start w /\ t < w_start w + 60)) -> t / 86400 = D ->
               sched_includes s t = true).

Lemma wf_window_guarantee : forall s last now, sched_wf s = true -> window_guarantee s last now.
Proof.
  intros s last now W. destruct (next_fuel_suffices s last now W) as (w & Hw).
  destruct (next_in_window _ s last now w Hw) as (k & cs & Hk & Hin & H). cbv zeta in H. destruct H as (E & WK & N & L & M).
  exists w, k, cs. cbv zeta. repeat (split; [assumption|]).
  intros C t H1 H2 H3. subst w. apply (window_included s cs _ t Hin WK C H1 H2 H3).
Qed.

(* from the string: every timer text the parser accepts yields schedules that are well formed, for which the day
   search terminates and the returned window is a window of the schedule, for every last and now *)
Theorem string_to_window : forall (text : bytes) (l : list schedule),
  parse_schedule text = Some l ->
  l <> [] /\ Forall (fun s => sched_wf s = true /\ forall last now, window_guarantee s last now) l.
Proof.
  intros text l H. destruct (parse_accepts_only_wf text l H) as [N F]. split; [exact N|].
  eapply Forall_impl; [|exact F]. intros s Hs. pose proof (sched_ok_wf s Hs) as W.
  split; [exact W|]. intros last now. apply wf_window_guarantee; exact W.
Qed.
