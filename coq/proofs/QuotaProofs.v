(* C36 - proofs about models/Quota.v. Built around two things: `frame` (section Frame), the framing lemma for replacing
   the group at a path, of which the memory/thread and the cpu statements are instances; and `accepts`, the three ways
   a request is accepted, from which every preservation proof starts. *)
From Coq Require Import List ZArith NArith Bool Lia.
Import ListNotations.
Require Import V.proofs.ListFacts V.models.Quota.
Open Scope Z_scope.

Section GroupInd.
  Variable P : group -> Prop.
  Hypothesis H : forall i l ss, Forall P ss -> P (G i l ss).
  Fixpoint group_ind' (g : group) : P g :=
    match g with
    | G i l ss => H i l ss ((fix go (cs : list group) : Forall P cs :=
                              match cs with
                              | [] => Forall_nil P
                              | c :: r => Forall_cons c (group_ind' c) (go r)
                              end) ss)
    end.
End GroupInd.

Lemma forallb_nth : forall (p : group -> bool) ss i c, forallb p ss = true -> nth_error ss i = Some c -> p c = true.
Proof.
  intros p ss i c H E. rewrite forallb_forall in H. exact (H c (nth_error_In ss i E)).
Qed.

Lemma forallb_replace : forall (p : group -> bool) ss i c', forallb p ss = true -> p c' = true ->
  forallb p (replace_nth ss i c') = true.
Proof.
  intros p ss. induction ss as [|x r IH]; intros i c' H Hc; [reflexivity|].
  simpl in H. apply andb_true_iff in H. destruct H as [Hx Hr].
  destruct i as [|i]; simpl; [rewrite Hc, Hr|rewrite Hx, (IH _ _ Hr Hc)]; reflexivity.
Qed.

Definition sumz (h : group -> Z) (ss : list group) : Z := fold_right (fun c acc => h c + acc) 0 ss.

Lemma sumz_app : forall h a b, sumz h (a ++ b) = sumz h a + sumz h b.
Proof. intros h a b. induction a as [|x r IH]; simpl; [reflexivity|]. rewrite IH. lia. Qed.

Lemma sumz_replace : forall h ss i c c', nth_error ss i = Some c ->
  sumz h (replace_nth ss i c') = sumz h ss + h c' - h c.
Proof.
  intros h ss. induction ss as [|x r IH]; intros i c c' H.
  - destruct i; discriminate.
  - destruct i as [|i]; simpl in *.
    + inversion H; subst. lia.
    + rewrite (IH _ _ c' H). lia.
Qed.

Lemma sumz_nonneg : forall h ss, Forall (fun c => 0 <= h c) ss -> 0 <= sumz h ss.
Proof. intros h ss H. induction H; simpl; lia. Qed.

Lemma sumz_ext : forall h h' ss, Forall (fun c => h c = h' c) ss -> sumz h ss = sumz h' ss.
Proof. intros h h' ss H. induction H as [|c r E _ IH]; simpl; [reflexivity|]. rewrite E, IH. reflexivity. Qed.

Fixpoint get (g : group) (p : list nat) : option group :=
  match p with
  | [] => Some g
  | i :: p' => match nth_error (subs g) i with None => None | Some c => get c p' end
  end.

Lemma walk_get : forall p inh g acc inh' t chain,
  walk inh g p acc = Some (inh', t, chain) -> get g p = Some t.
Proof.
  induction p as [|i p IH]; intros inh g acc inh' t chain H; simpl in *.
  - inversion H; subst. reflexivity.
  - destruct (nth_error (subs g) i) as [c|]; [|discriminate]. exact (IH _ _ _ _ _ _ H).
Qed.

Lemma modify_const : forall p g t tf, get g p = Some t -> modify g p tf = modify g p (fun _ => tf t).
Proof.
  induction p as [|i p IH]; intros g t tf H; cbn [get modify] in *.
  - inversion H; subst. reflexivity.
  - destruct (nth_error (subs g) i) as [c|]; [|reflexivity]. rewrite (IH c t tf H). reflexivity.
Qed.

Fixpoint inh_at (inh : list Z) (g : group) (p : list nat) : list Z :=
  match p with
  | [] => inh
  | i :: p' => match nth_error (subs g) i with
               | None => inh
               | Some c => inh_at (eff_set inh (lim g)) c p'
               end
  end.

Section Hereditary.
  Variable F : list Z -> group -> bool.
  Hypothesis F_subs : forall inh i l ss, F inh (G i l ss) = true -> forallb (F (eff_set inh l)) ss = true.
  Definition holds (a : anc) : Prop := F (fst a) (snd a) = true.

  Lemma walk_hered : forall p inh g acc inh' t chain, F inh g = true -> Forall holds acc ->
    walk inh g p acc = Some (inh', t, chain) -> F inh' t = true /\ Forall holds chain.
  Proof.
    induction p as [|j p IH]; intros inh g acc inh' t chain Hg Ha W; cbn [walk] in W.
    - inversion W; subst. auto.
    - destruct g as [gi gl gss]. cbn [subs lim] in W. destruct (nth_error gss j) as [c|] eqn:E; [|discriminate].
      apply (IH _ _ _ _ _ _ (forallb_nth _ _ _ _ (F_subs _ _ _ _ Hg) E)) in W; [exact W|].
      constructor; [exact Hg|exact Ha].
  Qed.
End Hereditary.

Section Local.
  Variable F : list Z -> group -> bool.
  Variable L : list Z -> limits -> bool.
  Hypothesis F_eq : forall inh i l ss, F inh (G i l ss) = L inh l && forallb (F (eff_set inh l)) ss.

  Lemma local_subs : forall inh i l ss, F inh (G i l ss) = true -> forallb (F (eff_set inh l)) ss = true.
  Proof. intros inh i l ss H. rewrite F_eq in H. apply andb_true_iff in H. apply H. Qed.

  Lemma modify_local : forall t' p inh g acc inh_t t chain,
    F inh g = true -> walk inh g p acc = Some (inh_t, t, chain) -> F inh_t t' = true ->
    F inh (modify g p (fun _ => t')) = true.
  Proof.
    intros t'. induction p as [|j p IH]; intros inh g acc inh_t t chain H W Ht; cbn [walk modify] in *.
    - inversion W; subst. exact Ht.
    - destruct g as [gi l ss]. cbn [subs lim gid] in *. destruct (nth_error ss j) as [c|] eqn:E; [|discriminate].
      rewrite F_eq in *. apply andb_true_iff in H. destruct H as [Ho Hs]. rewrite Ho. cbn [andb].
      apply forallb_replace; [exact Hs|]. exact (IH _ _ _ _ _ _ (forallb_nth _ _ _ _ Hs E) W Ht).
  Qed.

  Lemma forest_local : forall st i root p inh t chain t',
    forallb (F []) st = true -> nth_error st i = Some root -> walk [] root p [] = Some (inh, t, chain) ->
    (F inh t = true -> F inh t' = true) ->
    forallb (F []) (replace_nth st i (modify root p (fun _ => t'))) = true.
  Proof.
    intros st i root p inh t chain t' H E W Ht. pose proof (forallb_nth _ _ _ _ H E) as Hr.
    apply forallb_replace; [exact H|]. apply (modify_local _ _ _ _ _ _ _ _ Hr W). apply Ht.
    exact (proj1 (walk_hered F local_subs _ _ _ _ _ _ _ Hr (Forall_nil _) W)).
  Qed.
End Local.

(* What memory, threads and cpu have in common: a group reserves `own` for itself (for cpu that depends on the cpu set
   it inherits), its sub-groups together reserve `below` = the sum of their contributions max(own, below), and the tree
   fits when every group with own <> 0 has below <= own. `nonneg` is a test on the limits of every group that makes
   `own` non-negative. *)
Section Frame.
  Variable own : list Z -> limits -> Z.
  Variable below : list Z -> group -> Z.
  Variable fit : list Z -> group -> bool.
  Variable nonneg : group -> bool.
  Variable nonneg_lim : limits -> bool.
  Definition gcontrib (inh : list Z) (g : group) : Z := Z.max (own inh (lim g)) (below inh g).
  Hypothesis below_eq : forall inh i l ss, below inh (G i l ss) = sumz (gcontrib (eff_set inh l)) ss.
  Hypothesis fit_eq : forall inh i l ss, fit inh (G i l ss) =
    ((own inh l =? 0) || (below inh (G i l ss) <=? own inh l)) && forallb (fit (eff_set inh l)) ss.
  Hypothesis nonneg_eq : forall i l ss, nonneg (G i l ss) = nonneg_lim l && forallb nonneg ss.
  Hypothesis own_nonneg : forall inh l, nonneg_lim l = true -> 0 <= own inh l.

  (* the nearest group on the path from g (included) to the target (excluded) with own <> 0, and what it inherits *)
  Fixpoint gnla (inh : list Z) (g : group) (p : list nat) : option anc :=
    match p with
    | [] => None
    | i :: p' => match nth_error (subs g) i with
                 | None => None
                 | Some c => match gnla (eff_set inh (lim g)) c p' with
                             | Some a => Some a
                             | None => if negb (own inh (lim g) =? 0) then Some (inh, g) else None
                             end
                 end
    end.

  Lemma gsum_nonneg : forall e ss, forallb nonneg ss = true -> 0 <= sumz (gcontrib e) ss.
  Proof.
    intros e ss H. apply sumz_nonneg. apply Forall_forall. intros [i l cs] Hc.
    rewrite forallb_forall in H. specialize (H _ Hc). rewrite nonneg_eq in H. apply andb_true_iff in H.
    pose proof (own_nonneg e l (proj1 H)). unfold gcontrib. cbn [lim]. lia.
  Qed.

  (* Replace the group at path p (which keeps inheriting the same cpu set, since no limit on the path changes) by t'
     whose contribution differs by d. If the nearest ancestor with own <> 0 has room for d the tree still fits: the
     change is absorbed there (such a group contributes `own`), or passes through the groups with own = 0 to the root. *)
  Lemma frame : forall t' d p inh g t,
    fit inh g = true -> nonneg g = true -> get g p = Some t ->
    fit (inh_at inh g p) t' = true -> nonneg t' = true ->
    gcontrib (inh_at inh g p) t' = gcontrib (inh_at inh g p) t + d ->
    (forall ai a, gnla inh g p = Some (ai, a) -> below ai a + d <= own ai (lim a)) ->
    let g' := modify g p (fun _ => t') in
    fit inh g' = true /\ nonneg g' = true /\
    gcontrib inh g' = gcontrib inh g + (match gnla inh g p with Some _ => 0 | None => d end).
  Proof.
    intros t' d. induction p as [|i p IH]; intros inh g t Hf Hn Hg Hft Hnt Hc Hroom;
      cbn [get gnla modify inh_at] in *.
    - inversion Hg; subst. repeat split; solve [assumption | lia].
    - destruct g as [gi l ss]. cbn [subs lim gid] in *.
      destruct (nth_error ss i) as [c|] eqn:E; [|discriminate].
      rewrite fit_eq, below_eq in Hf. apply andb_true_iff in Hf. destruct Hf as [Hl Hs].
      rewrite nonneg_eq in Hn. apply andb_true_iff in Hn. destruct Hn as [Hl0 Hns].
      set (e := eff_set inh l) in *.
      destruct (IH e c t (forallb_nth _ _ _ _ Hs E) (forallb_nth _ _ _ _ Hns E) Hg Hft Hnt Hc) as [Hfc' [Hnc' Hcc']].
      { intros ai a Ha. apply Hroom. rewrite Ha. reflexivity. }
      set (c' := modify c p (fun _ => t')) in *.
      pose proof (forallb_replace _ _ i _ Hns Hnc') as Hns'.
      pose proof (gsum_nonneg e _ Hns) as Hpos. pose proof (gsum_nonneg e _ Hns') as Hpos'.
      cbv zeta. rewrite fit_eq, nonneg_eq, Hl0, Hns', (forallb_replace _ _ _ _ Hs Hfc').
      unfold gcontrib at 1 2. cbn [lim]. rewrite !below_eq. fold e.
      rewrite (sumz_replace _ _ _ _ c' E), Hcc' in *.
      destruct (gnla e c p) as [a|].
      + (* a group with own <> 0 further down: nothing changes here *)
        replace (sumz (gcontrib e) ss + (gcontrib e c + 0) - gcontrib e c) with (sumz (gcontrib e) ss) in * by lia.
        rewrite Hl. repeat split; lia.
      + destruct (own inh l =? 0) eqn:Z0; cbn [negb orb andb] in *.
        * (* own = 0: the change passes through *)
          apply Z.eqb_eq in Z0. repeat split; lia.
        * (* this group is the nearest one with own <> 0 *)
          specialize (Hroom inh (G gi l ss) eq_refl). rewrite below_eq in Hroom. cbn [lim] in Hroom. fold e in Hroom.
          apply Z.leb_le in Hl. repeat split; [|lia]. apply andb_true_iff. split; [apply Z.leb_le; lia|reflexivity].
  Qed.
End Frame.

Definition contrib (f : limits -> Z) (g : group) : Z := Z.max (f (lim g)) (resv f g).

Lemma resv_eq : forall f i l ss, resv f (G i l ss) = sumz (contrib f) ss.
Proof. reflexivity. Qed.

Lemma fits_eq : forall f i l ss,
  fits f (G i l ss) = ((f l =? 0) || (resv f (G i l ss) <=? f l)) && forallb (fits f) ss.
Proof. reflexivity. Qed.

Fixpoint nn (f : limits -> Z) (g : group) : bool :=
  match g with G _ l ss => (0 <=? f l) && forallb (nn f) ss end.

Lemma resv_nonneg : forall f g, nn f g = true -> 0 <= resv f g.
Proof.
  intros f [i l ss] H. apply andb_true_iff in H. rewrite resv_eq.
  apply (gsum_nonneg (fun _ => f) (fun _ => resv f) (nn f) (fun l => 0 <=? f l)) with (e := []); [reflexivity| |apply H].
  intros _ l0. apply Z.leb_le.
Qed.

Lemma fits_subs : forall f i l ss, fits f (G i l ss) = true -> forallb (fits f) ss = true.
Proof. intros f i l ss H. rewrite fits_eq in H. apply andb_true_iff in H. apply H. Qed.

Lemma nn_subs : forall f i l ss, nn f (G i l ss) = true -> forallb (nn f) ss = true.
Proof. intros f i l ss H. apply andb_true_iff in H. apply H. Qed.

Lemma fits_node : forall f i l ss, fits f (G i l ss) = true <->
  (f l = 0 \/ sumz (contrib f) ss <= f l) /\ forallb (fits f) ss = true.
Proof.
  intros f i l ss. rewrite fits_eq, resv_eq, andb_true_iff, orb_true_iff, Z.eqb_eq, Z.leb_le. reflexivity.
Qed.

Lemma nn_node : forall f i l ss, nn f (G i l ss) = true <-> 0 <= f l /\ forallb (nn f) ss = true.
Proof. intros f i l ss. cbn [nn]. rewrite andb_true_iff, Z.leb_le. reflexivity. Qed.

Lemma contrib_node : forall f i l ss, contrib f (G i l ss) = Z.max (f l) (sumz (contrib f) ss).
Proof. reflexivity. Qed.

Lemma leaf_node : forall f id l, 0 <= f l ->
  fits f (G id l []) = true /\ nn f (G id l []) = true /\ contrib f (G id l []) = f l.
Proof.
  intros f id l H. split; [apply fits_node|split; [apply nn_node|rewrite contrib_node]]; cbn; auto. lia.
Qed.

Fixpoint nla (f : limits -> Z) (g : group) (p : list nat) : option group :=
  match p with
  | [] => None
  | i :: p' => match nth_error (subs g) i with
               | None => None
               | Some c => match nla f c p' with
                           | Some a => Some a
                           | None => if negb (f (lim g) =? 0) then Some g else None
                           end
               end
  end.

Lemma nla_gnla : forall f p inh g, nla f g p = option_map snd (gnla (fun _ => f) inh g p).
Proof.
  intros f. induction p as [|i p IH]; intros inh g; cbn [nla gnla]; [reflexivity|].
  destruct (nth_error (subs g) i) as [c|]; [|reflexivity]. rewrite (IH (eff_set inh (lim g)) c).
  destruct (gnla (fun _ => f) _ c p); [reflexivity|]. destruct (negb (f (lim g) =? 0)); reflexivity.
Qed.

Lemma modify_fits : forall f t' d p g t,
  fits f g = true -> nn f g = true -> get g p = Some t ->
  fits f t' = true -> nn f t' = true -> contrib f t' = contrib f t + d ->
  (forall a, nla f g p = Some a -> resv f a + d <= f (lim a)) ->
  let g' := modify g p (fun _ => t') in
  fits f g' = true /\ nn f g' = true /\
  contrib f g' = contrib f g + (match nla f g p with Some _ => 0 | None => d end).
Proof.
  intros f t' d p g t Hf Hn Hg Hft Hnt Hc Hroom. rewrite (nla_gnla f p [] g) in *.
  destruct (frame (fun _ => f) (fun _ => resv f) (fun _ => fits f) (nn f) (fun l => 0 <=? f l)
              (fun _ => resv_eq f) (fun _ => fits_eq f) (fun _ _ _ => eq_refl) (fun _ l => proj1 (Z.leb_le 0 (f l)))
              t' d p [] g t Hf Hn Hg Hft Hnt Hc) as [H1 [H2 H3]].
  { intros ai a Ha. apply Hroom. rewrite Ha. reflexivity. }
  destruct (gnla _ [] g p); repeat split; assumption.
Qed.

Definition limited (f : limits -> Z) (a : anc) : bool := negb (f (lim (snd a)) =? 0).

(* the validators find the nearest limited ancestor in the chain that `walk` collects *)
Lemma walk_find : forall f p inh g acc inh' t chain,
  walk inh g p acc = Some (inh', t, chain) ->
  option_map snd (find (limited f) chain) =
  match nla f g p with Some a => Some a | None => option_map snd (find (limited f) acc) end.
Proof.
  intros f. induction p as [|i p IH]; intros inh g acc inh' t chain H; simpl in *.
  - inversion H; subst. reflexivity.
  - destruct (nth_error (subs g) i) as [c|]; [|discriminate].
    rewrite (IH _ _ _ _ _ _ H). destruct (nla f c p); [reflexivity|].
    simpl. unfold limited at 1. simpl. destruct (negb (f (lim g) =? 0)); reflexivity.
Qed.

Lemma nla_fits : forall f p g a, fits f g = true -> nla f g p = Some a -> resv f a <= f (lim a).
Proof.
  intros f. induction p as [|i p IH]; intros g a Hf H; simpl in H; [discriminate|].
  destruct g as [gi l ss]. simpl in H.
  destruct (nth_error ss i) as [c|] eqn:E; [|discriminate].
  rewrite fits_eq in Hf. apply andb_true_iff in Hf. destruct Hf as [Hl Hs].
  destruct (nla f c p) as [a'|] eqn:En.
  - inversion H; subst. exact (IH _ _ (forallb_nth _ _ _ _ Hs E) En).
  - destruct (f l =? 0); simpl in H; [discriminate|]. inversion H; subst. apply Z.leb_le. exact Hl.
Qed.

Lemma parent_check : forall f chain v reserved,
  match find (fun a : anc => negb (f (lim (snd a)) =? 0)) chain with
  | None => true
  | Some a => negb (v >? f (lim (snd a)) - (resv f (snd a) - reserved))
  end = true ->
  forall x a, find (limited f) chain = Some (x, a) -> resv f a + v - reserved <= f (lim a).
Proof.
  intros f chain v reserved H x a Hfind. change (fun a0 : anc => negb (f (lim (snd a0)) =? 0)) with (limited f) in H.
  rewrite Hfind in H. cbn [snd] in H. apply negb_true_iff in H. rewrite Z.gtb_ltb in H. apply Z.ltb_ge in H. lia.
Qed.

Lemma vs_known : forall f g chain v, validate_scalar f true g chain v = true ->
  resv f g <= v /\
  (v < f (lim g) \/
   forall x a, find (limited f) chain = Some (x, a) -> resv f a + v - Z.max (f (lim g)) (resv f g) <= f (lim a)).
Proof.
  intros f g chain v H. unfold validate_scalar in H. cbn [andb] in H.
  destruct (resv f g >? v) eqn:E1; [discriminate|]. rewrite Z.gtb_ltb in E1. apply Z.ltb_ge in E1.
  split; [exact E1|].
  destruct (v <? f (lim g)) eqn:E2; [left; apply Z.ltb_lt; exact E2|right; exact (parent_check _ _ _ _ H)].
Qed.

Lemma vs_new : forall f g chain v, validate_scalar f false g chain v = true ->
  forall x a, find (limited f) chain = Some (x, a) -> resv f a + v - f (lim g) <= f (lim a).
Proof. intros f g chain v H. exact (parent_check _ _ _ _ H). Qed.

Definition req_res (q : req) : res := match q with RNew _ r => r | RSub _ _ r => r | RUpd _ r => r end.

(* The three ways through `step` that end in acceptance, each with the checks that were passed and the forest that
   results: a new root, a new leaf under the group at a path, new limits for the group at a path. *)
Inductive accepts (ncpu : Z) (st : forest) : req -> forest -> Prop :=
  | acc_new : forall id r,
      validate_change no_limits r = true -> validate_fit ncpu true [] (G id no_limits []) [] r = true ->
      validate_limits (apply_res no_limits r) = true ->
      accepts ncpu st (RNew id r) (st ++ [G id (apply_res no_limits r) []])
  | acc_sub : forall i p id r root pinh pi pl pss chain,
      nth_error st i = Some root -> walk [] root p [] = Some (pinh, G pi pl pss, chain) ->
      validate_change no_limits r = true ->
      validate_fit ncpu false (eff_set pinh pl) (G id no_limits []) ((pinh, G pi pl pss) :: chain) r = true ->
      validate_limits (apply_res no_limits r) = true ->
      accepts ncpu st (RSub (i :: p) id r)
        (replace_nth st i (modify root p (fun _ => G pi pl (pss ++ [G id (apply_res no_limits r) []]))))
  | acc_upd : forall i p r root inh ti tl tss chain,
      nth_error st i = Some root -> walk [] root p [] = Some (inh, G ti tl tss, chain) ->
      validate_change tl r = true -> validate_fit ncpu true inh (G ti tl tss) chain r = true ->
      accepts ncpu st (RUpd (i :: p) r) (replace_nth st i (modify root p (fun _ => G ti (apply_res tl r) tss))).

Lemma update_limits_inv : forall ncpu known inh g chain r l',
  update_limits ncpu known inh g chain r = Some l' ->
  l' = apply_res (lim g) r /\ validate_change (lim g) r = true /\ validate_fit ncpu known inh g chain r = true.
Proof.
  intros ncpu known inh g chain r l' H. unfold update_limits in H.
  destruct (validate_change (lim g) r) eqn:E1; [|discriminate].
  destruct (validate_fit ncpu known inh g chain r) eqn:E2; [|discriminate].
  inversion H; subst. auto.
Qed.

Lemma step_accepts : forall ncpu st q st', step ncpu st q = Some st' -> accepts ncpu st q st'.
Proof.
  intros ncpu st q st' H. destruct q as [id r | p id r | p r]; cbn [step] in H.
  - destruct (update_limits _ _ _ _ _ r) as [l'|] eqn:U; [|discriminate].
    destruct (validate_limits l') eqn:V; [|discriminate]. inversion H; subst st'.
    apply update_limits_inv in U. destruct U as [-> [Hvc Hvf]]. constructor; assumption.
  - destruct p as [|i p]; [discriminate|].
    destruct (nth_error st i) as [root|] eqn:Er; [|discriminate].
    destruct (walk [] root p []) as [[[pinh [pi pl pss]] chain]|] eqn:W; [|discriminate].
    destruct (update_limits _ _ _ _ _ r) as [l'|] eqn:U; [|discriminate].
    destruct (negb (N.eqb id (gid (G pi pl pss))) && validate_limits l') eqn:V; [|discriminate].
    inversion H; subst st'. apply andb_true_iff in V. destruct V as [_ V].
    apply update_limits_inv in U. destruct U as [-> [Hvc Hvf]].
    rewrite (modify_const _ _ _ _ (walk_get _ _ _ _ _ _ _ W)). econstructor; eassumption.
  - destruct p as [|i p]; [discriminate|].
    destruct (nth_error st i) as [root|] eqn:Er; [|discriminate].
    destruct (walk [] root p []) as [[[inh [ti tl tss]] chain]|] eqn:W; [|discriminate].
    destruct (update_limits _ _ _ _ _ r) as [l'|] eqn:U; [|discriminate].
    inversion H; subst st'. apply update_limits_inv in U. destruct U as [-> [Hvc Hvf]].
    rewrite (modify_const _ _ _ _ (walk_get _ _ _ _ _ _ _ W)). econstructor; eassumption.
Qed.

Lemma run_inv : forall ncpu (I : forest -> Prop) (Q : req -> Prop),
  (forall st q st', I st -> Q q -> step ncpu st q = Some st' -> I st') ->
  forall qs st, Forall Q qs -> I st -> I (run ncpu st qs).
Proof.
  intros ncpu I Q HS. induction qs as [|q qs IH]; intros st Hqs HI; cbn [run]; [exact HI|].
  inversion Hqs; subst. apply IH; [assumption|].
  destruct (step ncpu st q) as [st'|] eqn:E; [exact (HS _ _ _ HI H1 E)|exact HI].
Qed.

Definition Inv (f : limits -> Z) (st : forest) : Prop := forallb (fits f) st = true /\ forallb (nn f) st = true.

Definition may_replace (f : limits -> Z) (chain : list anc) (t t' : group) : Prop :=
  exists d, fits f t' = true /\ nn f t' = true /\ contrib f t' = contrib f t + d /\
    (d <= 0 \/ forall x a, find (limited f) chain = Some (x, a) -> resv f a + d <= f (lim a)).

Lemma forest_frame : forall f st i root p inh t chain t',
  Inv f st -> nth_error st i = Some root -> walk [] root p [] = Some (inh, t, chain) ->
  may_replace f chain t t' ->
  Inv f (replace_nth st i (modify root p (fun _ => t'))).
Proof.
  intros f st i root p inh t chain t' [H1 H2] E W [d [Hf [Hn [Hc Hroom]]]].
  pose proof (forallb_nth _ _ _ _ H1 E) as Hfr. pose proof (forallb_nth _ _ _ _ H2 E) as Hnr.
  destruct (modify_fits f t' d p root t Hfr Hnr (walk_get _ _ _ _ _ _ _ W) Hf Hn Hc) as [Hf' [Hn' _]].
  { intros a Ha. pose proof (nla_fits _ _ _ _ Hfr Ha). destruct Hroom as [Hd|Hroom]; [lia|].
    pose proof (walk_find f _ _ _ _ _ _ _ W) as Hfind. rewrite Ha in Hfind.
    destruct (find (limited f) chain) as [[x b]|]; [|discriminate]. inversion Hfind; subst b. exact (Hroom x a eq_refl). }
  split; apply forallb_replace; assumption.
Qed.

(* NewSubGroup at one node: the group gains a leaf with limit f l', for which the validator found room in the nearest
   limited group, this one included. If that is this group nothing changes above it; an unlimited group passes f l' on
   to its own contribution. *)
Lemma add_leaf : forall f inh i l ss chain id l', fits f (G i l ss) = true -> nn f (G i l ss) = true -> 0 <= f l' ->
  (f l' = 0 \/
   forall x a, find (limited f) ((inh, G i l ss) :: chain) = Some (x, a) -> resv f a + f l' <= f (lim a)) ->
  may_replace f chain (G i l ss) (G i l (ss ++ [G id l' []])).
Proof.
  intros f inh i l ss chain id l' Hf Hn Hv Hroom. pose proof (resv_nonneg f _ Hn) as Hpos. rewrite resv_eq in Hpos.
  apply fits_node in Hf. destruct Hf as [Hl Hs]. apply nn_node in Hn. destruct Hn as [H0 Hns].
  destruct (leaf_node f id l' Hv) as [Hfn [Hnn Hcn]].
  assert (Hsum : sumz (contrib f) (ss ++ [G id l' []]) = sumz (contrib f) ss + f l').
  { rewrite sumz_app. cbn [sumz fold_right]. rewrite Hcn. lia. }
  cbn [find] in Hroom. unfold limited at 1 in Hroom. cbn [snd lim] in Hroom.
  destruct (f l =? 0) eqn:Z0; cbn [negb] in Hroom; [apply Z.eqb_eq in Z0; exists (f l')|apply Z.eqb_neq in Z0; exists 0];
    rewrite fits_node, nn_node, !contrib_node, !forallb_app, Hs, Hns, Hsum; cbn [forallb]; rewrite Hfn, Hnn.
  - repeat split; auto; try lia. destruct Hroom as [Hz|Hr]; [left; lia|right; exact Hr].
  - assert (Hr : f l' = 0 \/ sumz (contrib f) ss + f l' <= f l).
    { destruct Hroom as [Hz|Hr]; [left; exact Hz|right]. specialize (Hr _ _ eq_refl). rewrite resv_eq in Hr. exact Hr. }
    repeat split; auto; lia.
Qed.

(* UpdateQuotaLimits at one node: the validator saw that the limit covers what the sub-groups reserve, and that it
   shrinks or has room above *)
Lemma set_limit : forall f i l l' ss chain, fits f (G i l ss) = true -> nn f (G i l ss) = true ->
  validate_scalar f true (G i l ss) chain (f l') = true ->
  may_replace f chain (G i l ss) (G i l' ss).
Proof.
  intros f i l l' ss chain Hf Hn Hs. apply vs_known in Hs. destruct Hs as [Hrv Hpar]. cbn [lim] in Hpar.
  pose proof (resv_nonneg f _ Hn) as Hpos. rewrite resv_eq in *.
  apply fits_node in Hf. apply nn_node in Hn. exists (f l' - contrib f (G i l ss)).
  rewrite fits_node, nn_node, !contrib_node. repeat split; try tauto; try lia.
  destruct Hpar as [Hlt|Hpar]; [left; lia|right]. intros x a Hx. specialize (Hpar x a Hx). lia.
Qed.

(* The section is generic in the limit f. okr restricts the requests considered and okg is a hereditary side condition
   on the groups (both trivial for memory and threads; used for the cpu quota, see below). *)
Section Scalar.
  Variable f : limits -> Z.
  Variable sel : res -> option Z.
  Variable okr : res -> Prop.
  Variable okg : group -> bool.
  Hypothesis okg_sub : forall i l ss, okg (G i l ss) = true -> forallb okg ss = true.
  Hypothesis okg_fresh : forall id, okg (G id no_limits []) = true.
  Hypothesis okg_step : forall ncpu st q st', okr (req_res q) -> forallb okg st = true ->
    step ncpu st q = Some st' -> forallb okg st' = true.
  Hypothesis f_apply : forall l r, f (apply_res l r) = match sel r with Some v => v | None => f l end.
  Hypothesis f_zero : f no_limits = 0.
  Hypothesis fit_sel : forall ncpu known inh g chain r, okr r -> okg g = true ->
    Forall (fun a : anc => okg (snd a) = true) chain ->
    (known = false -> lim g = no_limits) ->
    validate_fit ncpu known inh g chain r = true ->
    match sel r with Some v => validate_scalar f known g chain v = true | None => True end.
  Hypothesis sub_nonneg : forall r, okr r -> validate_change no_limits r = true ->
    validate_limits (apply_res no_limits r) = true -> 0 <= f (apply_res no_limits r).

  Lemma walk_target : forall st i root p inh t chain, Inv f st -> forallb okg st = true ->
    nth_error st i = Some root -> walk [] root p [] = Some (inh, t, chain) ->
    fits f t = true /\ nn f t = true /\ okg t = true /\ Forall (fun a : anc => okg (snd a) = true) chain.
  Proof.
    intros st i root p inh t chain [H1 H2] Hg E W.
    destruct (walk_hered (fun _ => okg) (fun _ => okg_sub) _ _ _ _ _ _ _ (forallb_nth _ _ _ _ Hg E) (Forall_nil _) W).
    pose proof (walk_hered (fun _ => fits f) (fun _ => fits_subs f) _ _ _ _ _ _ _ (forallb_nth _ _ _ _ H1 E) (Forall_nil _) W).
    pose proof (walk_hered (fun _ => nn f) (fun _ => nn_subs f) _ _ _ _ _ _ _ (forallb_nth _ _ _ _ H2 E) (Forall_nil _) W).
    tauto.
  Qed.

  Lemma limit_kept_or_validated : forall ncpu known inh g chain r, okr r -> okg g = true ->
    Forall (fun a : anc => okg (snd a) = true) chain -> (known = false -> lim g = no_limits) ->
    validate_fit ncpu known inh g chain r = true ->
    f (apply_res (lim g) r) = f (lim g) \/ validate_scalar f known g chain (f (apply_res (lim g) r)) = true.
  Proof.
    intros ncpu known inh g chain r Hok Hg Hc Hkn Hvf. rewrite f_apply.
    pose proof (fit_sel _ _ _ _ _ _ Hok Hg Hc Hkn Hvf) as Hs. destruct (sel r); [right; exact Hs|left; reflexivity].
  Qed.

  Lemma step_preserves : forall ncpu st q st', Inv f st -> okr (req_res q) -> forallb okg st = true ->
    step ncpu st q = Some st' -> Inv f st'.
  Proof.
    intros ncpu st q st' HI Hok Hokg H. apply step_accepts in H.
    destruct H as [id r Hvc Hvf Hvl | i p id r root pinh pi pl pss chain Er W Hvc Hvf Hvl
                  | i p r root inh ti tl tss chain Er W Hvc Hvf]; cbn [req_res] in Hok.
    - (* NewGroup: a root without sub-groups, its limit is at least the (empty) reservation *)
      assert (Hv : 0 <= f (apply_res no_limits r)).
      { destruct (limit_kept_or_validated _ _ _ _ _ _ Hok (okg_fresh id) (Forall_nil _) (fun _ => eq_refl) Hvf) as [E|Hs];
          [cbn [lim] in E; rewrite E, f_zero; lia|exact (proj1 (vs_known _ _ _ _ Hs))]. }
      destruct (leaf_node f id _ Hv) as [Hf [Hn _]].
      destruct HI as [H1 H2]. split; rewrite forallb_app; cbn [forallb]; [rewrite H1, Hf|rewrite H2, Hn]; reflexivity.
    - (* NewSubGroup: the validator saw the new limit unless the request leaves it at 0 *)
      destruct (walk_target _ _ _ _ _ _ _ HI Hokg Er W) as [HfP [HnP [HokP Hokc]]].
      apply (forest_frame f _ _ _ _ _ _ _ _ HI Er W).
      apply (add_leaf f pinh); [exact HfP|exact HnP|exact (sub_nonneg _ Hok Hvc Hvl)|].
      destruct (limit_kept_or_validated _ _ _ _ _ _ Hok (okg_fresh id) (Forall_cons (pinh, G pi pl pss) HokP Hokc)
                  (fun _ => eq_refl) Hvf) as [E|Hs]; [left; exact (eq_trans E f_zero)|right].
      intros x a Hx. pose proof (vs_new _ _ _ _ Hs x a Hx) as Hr. cbn [lim] in Hr. rewrite f_zero in Hr. lia.
    - (* UpdateQuotaLimits *)
      destruct (walk_target _ _ _ _ _ _ _ HI Hokg Er W) as [Hft [Hnt [Hokt Hokc]]].
      apply (forest_frame f _ _ _ _ _ _ _ _ HI Er W).
      destruct (limit_kept_or_validated _ _ _ _ _ _ Hok Hokt Hokc (fun X : true = false => ltac:(discriminate X)) Hvf) as [E|Hs];
        cbn [lim] in *; [|exact (set_limit f ti tl _ tss chain Hft Hnt Hs)].
      (* the limit stays *)
      exists 0. apply fits_node in Hft. apply nn_node in Hnt. rewrite fits_node, nn_node, !contrib_node, E.
      repeat split; try tauto; lia.
  Qed.

  Lemma run_preserves : forall ncpu qs st, Forall (fun q => okr (req_res q)) qs ->
    Inv f st -> forallb okg st = true -> Inv f (run ncpu st qs) /\ forallb okg (run ncpu st qs) = true.
  Proof.
    intros ncpu qs st Hqs HI Hg.
    apply (run_inv ncpu (fun st => Inv f st /\ forallb okg st = true) (fun q => okr (req_res q))); [|exact Hqs|exact (conj HI Hg)].
    intros st0 q st' [HI0 Hg0] Hq E. split; [exact (step_preserves _ _ _ _ HI0 Hq Hg0 E)|exact (okg_step _ _ _ _ Hq Hg0 E)].
  Qed.
End Scalar.

Lemma apply_mem : forall l r, l_mem (apply_res l r) = match r_mem r with Some v => v | None => l_mem l end.
Proof. intros l r. unfold apply_res. destruct (r_cpu r) as [[c p]|]; reflexivity. Qed.
Lemma apply_thr : forall l r, l_thr (apply_res l r) = match r_thr r with Some v => v | None => l_thr l end.
Proof. intros l r. unfold apply_res. destruct (r_cpu r) as [[c p]|]; reflexivity. Qed.

Lemma validate_fit_parts : forall ncpu known inh g chain r, validate_fit ncpu known inh g chain r = true ->
  (forall m, r_mem r = Some m -> validate_scalar l_mem known g chain m = true) /\
  (forall c p, r_cpu r = Some (c, p) -> p <> 0 -> validate_cpu ncpu known inh g chain c p = true) /\
  (forall s, r_set r = Some s -> nilb s = false -> validate_set known g chain s = true) /\
  (forall t, r_thr r = Some t -> validate_scalar l_thr known g chain t = true).
Proof.
  intros ncpu known inh g chain r H. unfold validate_fit in H.
  repeat (apply andb_true_iff in H; destruct H as [H ?]). repeat split.
  - intros m E. rewrite E in H. exact H.
  - intros c p E Hp. apply Z.eqb_neq in Hp. rewrite E, Hp in *. assumption.
  - intros s E Hs. rewrite E, Hs in *. assumption.
  - intros t E. rewrite E in *. assumption.
Qed.

Lemma sub_nonneg_mem : forall r, validate_change no_limits r = true ->
  validate_limits (apply_res no_limits r) = true -> 0 <= l_mem (apply_res no_limits r).
Proof.
  (* ValidateChange refuses a memory limit of at most memory_limit_min *)
  intros r H _. rewrite apply_mem. destruct (r_mem r) as [m|] eqn:E; [|simpl; lia].
  unfold validate_change in H. rewrite E in H. destruct (m <=? memory_limit_min) eqn:L.
  - rewrite andb_false_r in H. discriminate H.
  - apply Z.leb_gt in L. unfold memory_limit_min in L. lia.
Qed.

Lemma sub_nonneg_thr : forall r, validate_change no_limits r = true ->
  validate_limits (apply_res no_limits r) = true -> 0 <= l_thr (apply_res no_limits r).
Proof.
  intros r _ H. unfold validate_limits in H. apply andb_true_iff in H. destruct H as [_ H].
  destruct (l_thr (apply_res no_limits r) =? 0) eqn:E; [apply Z.eqb_eq in E; lia|].
  apply negb_true_iff in H. apply Z.leb_gt in H. lia.
Qed.

Lemma all_true : forall (l : list group), forallb (fun _ => true) l = true.
Proof. induction l; simpl; auto. Qed.

Lemma scalar_unguarded : forall f sel,
  (forall l r, f (apply_res l r) = match sel r with Some v => v | None => f l end) -> f no_limits = 0 ->
  (forall ncpu known inh g chain r, validate_fit ncpu known inh g chain r = true ->
     forall v, sel r = Some v -> validate_scalar f known g chain v = true) ->
  (forall r, validate_change no_limits r = true -> validate_limits (apply_res no_limits r) = true ->
     0 <= f (apply_res no_limits r)) ->
  forall ncpu qs, forallb (fits f) (run ncpu [] qs) = true.
Proof.
  intros f sel Happ Hz Hfit Hnn ncpu qs.
  apply (run_preserves f sel (fun _ => True) (fun _ => true)); try reflexivity; auto using all_true.
  - intros ncpu0 known inh g chain r _ _ _ _ H. specialize (Hfit _ _ _ _ _ _ H). destruct (sel r); auto.
  - apply Forall_forall. auto.
  - split; reflexivity.
Qed.

Theorem fit_invariant_mem_threads : forall ncpu qs,
  inv_mem (run ncpu [] qs) = true /\ inv_thr (run ncpu [] qs) = true.
Proof.
  intros ncpu qs. split.
  - apply (scalar_unguarded l_mem r_mem apply_mem eq_refl); [|exact sub_nonneg_mem].
    intros. eapply validate_fit_parts; eassumption.
  - apply (scalar_unguarded l_thr r_thr apply_thr eq_refl); [|exact sub_nonneg_thr].
    intros. eapply validate_fit_parts; eassumption.
Qed.

Inductive in_tree (x : group) : group -> Prop :=
  | in_here : in_tree x x
  | in_sub : forall i l ss c, In c ss -> in_tree x c -> in_tree x (G i l ss).

Lemma fits_spec : forall f g, fits f g = true ->
  forall x, in_tree x g -> f (lim x) <> 0 -> resv f x <= f (lim x).
Proof.
  intros f g. induction g as [i l ss IH] using group_ind'. intros Hf x Hin Hx.
  apply fits_node in Hf. destruct Hf as [Hl Hs].
  inversion Hin as [|i' l' ss' c Hc Hxc]; subst.
  - rewrite resv_eq. cbn [lim] in *. tauto.
  - rewrite Forall_forall in IH. rewrite forallb_forall in Hs. exact (IH c Hc (Hs c Hc) x Hxc Hx).
Qed.

(* the cpu part of the property is false: witnesses 1 and 3 are accepted histories after which a group does not fit.
   The last request of witness 2 is refused since the repair of validateCPUResourceFit in /repo commit 731c638; the
   history is kept as a regression case (props/C36.v, C36_ex_set_only_ancestor_now_refused). *)

Definition cpu_witness_1 : list req :=
  [ RNew 1 (mkRes None (Some (2, 100)) (Some [0; 1]) None);
    RSub [0%nat] 2 (mkRes None (Some (0, 50)) None None);
    RUpd [0%nat] (mkRes None None (Some [0; 1; 2; 3; 4; 5; 6; 7]) None) ].

Definition cpu_witness_2 : list req :=
  [ RNew 1 (mkRes None (Some (2, 25)) None None);
    RSub [0%nat] 2 (mkRes None None (Some [0; 2; 4; 5]) None);
    RSub [0%nat; 0%nat] 3 (mkRes None (Some (4, 100)) None None) ].

Definition all_accepted (ncpu : Z) (qs : list req) : bool :=
  (fix go st qs := match qs with
                   | [] => true
                   | q :: r => match step ncpu st q with Some st' => go st' r | None => false end
                   end) [] qs.

Definition is_creation (q : req) : bool := match q with RUpd _ _ => false | _ => true end.

(* witness 3: the effective cpu set of no group changes, yet the fit breaks: a percentage-only request is sized by
   len(set) while the reservation it ends up with is capped at NumCPU *)
Definition s12 : list Z := [0; 1; 2; 3; 4; 5; 6; 7; 8; 9; 10; 11].
Definition cpu_witness_3 : list req :=
  [ RNew 1 (mkRes None (Some (12, 100)) (Some s12) None);
    RSub [0%nat] 2 (mkRes None (Some (4, 100)) None None);
    RSub [0%nat] 3 (mkRes None (Some (4, 100)) None None);
    RSub [0%nat] 4 (mkRes None (Some (2, 100)) None None);
    RUpd [0%nat] (mkRes None (Some (0, 100)) (Some s12) None) ].

Lemma sets_eq : forall inh i l ss,
  sets_nested inh (G i l ss) = (nilb inh || is_superset inh (l_set l)) && forallb (sets_nested (eff_set inh l)) ss.
Proof. reflexivity. Qed.

Definition own_or_resv (c : group) : list Z := if nilb (l_set (lim c)) then set_resv c else l_set (lim c).

Lemma set_resv_eq : forall i l ss, set_resv (G i l ss) = flat_map own_or_resv ss.
Proof. reflexivity. Qed.

Lemma contains_in : forall s e, contains s e = true <-> In e s.
Proof.
  intros s e. unfold contains. rewrite existsb_exists. split.
  - intros [x [Hx He]]. apply Z.eqb_eq in He. subst. exact Hx.
  - intro H. exists e. split; [exact H|apply Z.eqb_refl].
Qed.

Lemma superset_spec : forall a b, is_superset a b = true <-> (forall e, In e b -> In e a).
Proof.
  intros a b. unfold is_superset. rewrite forallb_forall. split; intros H e He; apply contains_in; exact (H e He).
Qed.

Lemma superset_trans : forall a b c, is_superset a b = true -> is_superset b c = true -> is_superset a c = true.
Proof. intros a b c H1 H2. rewrite superset_spec in *. auto. Qed.

Lemma superset_app : forall a x y, is_superset a (x ++ y) = is_superset a x && is_superset a y.
Proof. intros. unfold is_superset. apply forallb_app. Qed.

Lemma superset_nil : forall a, is_superset a [] = true. Proof. reflexivity. Qed.

Lemma superset_flat_map : forall B (h : group -> list Z) ss,
  is_superset B (flat_map h ss) = forallb (fun c => is_superset B (h c)) ss.
Proof.
  intros B h ss. induction ss as [|c r IH]; [reflexivity|]. cbn [flat_map forallb]. rewrite superset_app, IH. reflexivity.
Qed.

Lemma nilb_true : forall (l : list Z), nilb l = true -> l = [].
Proof. destruct l; [reflexivity|discriminate]. Qed.

(* how sets_nested depends on the inherited set: only through the sets it must contain *)
Lemma nested_split : forall c B,
  sets_nested B c = (nilb B || is_superset B (own_or_resv c)) && sets_nested [] c.
Proof.
  induction c as [i l ss IH] using group_ind'. intro B. rewrite !sets_eq. unfold own_or_resv, eff_set.
  cbn [lim nilb orb andb]. destruct (nilb (l_set l)) eqn:Nl; [|reflexivity].
  apply nilb_true in Nl. rewrite Nl, superset_nil, orb_true_r, set_resv_eq. cbn [andb].
  induction IH as [|c r Hc _ IHr]; cbn [forallb flat_map]; [rewrite orb_true_r; reflexivity|].
  rewrite (Hc B), IHr, superset_app.
  destruct (nilb B), (is_superset B (own_or_resv c)), (is_superset B (flat_map own_or_resv r)), (sets_nested [] c);
    reflexivity.
Qed.

Lemma nested_mono : forall c A B, sets_nested A c = true -> nilb A = false ->
  nilb B || is_superset B A = true -> sets_nested B c = true.
Proof.
  intros c A B H HA HB. rewrite nested_split in *. rewrite HA in H. apply andb_true_iff in H. destruct H as [Ho Hn].
  rewrite Hn, andb_true_r. destruct (nilb B); [reflexivity|]. exact (superset_trans _ _ _ HB Ho).
Qed.

Lemma children_from_resv : forall i l ss A B, forallb (sets_nested A) ss = true ->
  is_superset B (set_resv (G i l ss)) = true -> forallb (sets_nested B) ss = true.
Proof.
  intros i l ss A B H HB. rewrite set_resv_eq, superset_flat_map in HB. rewrite forallb_forall in *. intros x Hx.
  specialize (H x Hx). rewrite nested_split in *. rewrite (HB x Hx), orb_true_r. apply andb_true_iff in H. apply H.
Qed.

Definition hasset (a : anc) : bool := negb (nilb (l_set (lim (snd a)))).
Definition rel (inh : list Z) (acc : list anc) : Prop :=
  inh = match find hasset acc with Some a => l_set (lim (snd a)) | None => [] end.

Lemma rel_cons : forall inh g acc, rel inh acc -> rel (eff_set inh (lim g)) ((inh, g) :: acc).
Proof.
  intros inh g acc R. unfold rel in *. cbn [find]. unfold hasset at 1. cbn [snd]. unfold eff_set.
  destruct (nilb (l_set (lim g))); cbn [negb]; [exact R|reflexivity].
Qed.

Lemma walk_rel : forall p inh g acc inh' t chain, rel inh acc ->
  walk inh g p acc = Some (inh', t, chain) -> rel inh' chain.
Proof.
  induction p as [|j p IH]; intros inh g acc inh' t chain R H; cbn [walk] in H.
  - inversion H; subst. exact R.
  - destruct (nth_error (subs g) j) as [c|]; [|discriminate]. exact (IH _ _ _ _ _ _ (rel_cons _ _ _ R) H).
Qed.

Lemma modify_sets : forall t' p inh g acc inh_t t chain,
  sets_nested inh g = true -> walk inh g p acc = Some (inh_t, t, chain) -> sets_nested inh_t t' = true ->
  sets_nested inh (modify g p (fun _ => t')) = true.
Proof. exact (modify_local sets_nested _ sets_eq). Qed.

Lemma apply_set : forall l r, l_set (apply_res l r) =
  match r_set r with Some s => s | None => match r_cpu r with Some _ => [] | None => l_set l end end.
Proof. intros l r. unfold apply_res. destruct (r_cpu r) as [[c p]|]; destruct (r_set r); reflexivity. Qed.

(* the ancestor test of validateCPUsAllowedResourceFit, read through `rel`: the request lies within what is inherited *)
Lemma set_parent_check : forall inh chain s, rel inh chain ->
  match find (fun a : anc => negb (nilb (l_set (lim (snd a))))) chain with
  | None => true
  | Some a => is_superset (l_set (lim (snd a))) s
  end = true -> nilb inh || is_superset inh s = true.
Proof.
  intros inh chain s R H. change (fun a : anc => negb (nilb (l_set (lim (snd a))))) with hasset in H.
  unfold rel in R. destruct (find hasset chain); subst inh; [rewrite H; apply orb_true_r|reflexivity].
Qed.

Lemma vset_known : forall inh g chain s, rel inh chain -> validate_set true g chain s = true ->
  is_superset s (set_resv g) = true /\
  (is_superset (l_set (lim g)) s = true \/ nilb inh || is_superset inh s = true).
Proof.
  intros inh g chain s R H. unfold validate_set in H. cbn [andb] in H.
  destruct (is_superset s (set_resv g)); [|discriminate]. split; [reflexivity|].
  destruct (is_superset (l_set (lim g)) s); [left; reflexivity|right]. exact (set_parent_check _ _ _ R H).
Qed.

Lemma vset_new : forall inh g chain s, rel inh chain -> validate_set false g chain s = true ->
  nilb inh || is_superset inh s = true.
Proof. intros inh g chain s R H. exact (set_parent_check _ _ _ R H). Qed.

Definition InvS (st : forest) : Prop := forallb (sets_nested []) st = true.

Lemma step_preserves_sets : forall ncpu st q st', InvS st -> step ncpu st q = Some st' -> InvS st'.
Proof.
  intros ncpu st q st' HI H. unfold InvS in *. apply step_accepts in H.
  destruct H as [id r Hvc Hvf Hvl | i p id r root pinh pi pl pss chain Er W Hvc Hvf Hvl
                | i p r root inh ti tl tss chain Er W Hvc Hvf].
  - rewrite forallb_app, HI. reflexivity.
  - (* the new leaf's own set against what it inherits *)
    apply (forest_local sets_nested _ sets_eq _ _ _ _ _ _ _ _ HI Er W). rewrite !sets_eq.
    intro HP. apply andb_true_iff in HP. destruct HP as [Ho Hs].
    rewrite Ho, forallb_app, Hs. cbn [forallb andb]. rewrite sets_eq, !andb_true_r.
    rewrite apply_set. destruct (r_set r) as [s|] eqn:Es; [|destruct (r_cpu r); apply orb_true_r].
    destruct (nilb s) eqn:Ns; [apply nilb_true in Ns; subst s; apply orb_true_r|].
    apply (vset_new _ (G id no_limits []) ((pinh, G pi pl pss) :: chain)).
    + exact (rel_cons _ (G pi pl pss) _ (walk_rel _ _ _ _ _ _ _ (eq_refl : rel [] []) W)).
    + eapply validate_fit_parts; eassumption.
  - apply (forest_local sets_nested _ sets_eq _ _ _ _ _ _ _ _ HI Er W). rewrite !sets_eq.
    intro HT. apply andb_true_iff in HT. destruct HT as [Ho Hs].
    pose proof (walk_rel _ _ _ _ _ _ _ (eq_refl : rel [] []) W) as R.
    assert (Hcases : l_set (apply_res tl r) = l_set tl \/ l_set (apply_res tl r) = [] \/
              (nilb (l_set (apply_res tl r)) = false /\
               validate_set true (G ti tl tss) chain (l_set (apply_res tl r)) = true)).
    { rewrite apply_set. destruct (r_set r) as [s|] eqn:Es.
      - destruct (nilb s) eqn:Ns; [right; left; apply nilb_true; exact Ns|right; right].
        split; [reflexivity|eapply validate_fit_parts; eassumption].
      - destruct (r_cpu r); [right; left; reflexivity|left; reflexivity]. }
    unfold eff_set in *. destruct Hcases as [Hsame|[Hnil|[Hne Hv]]].
    + rewrite Hsame, Ho, Hs. reflexivity.
    + (* the sub-groups now inherit what the group inherits *)
      rewrite Hnil, superset_nil, orb_true_r. cbn [nilb andb].
      destruct (nilb (l_set tl)) eqn:Nt; [exact Hs|].
      rewrite forallb_forall in *. intros x Hx. exact (nested_mono x (l_set tl) inh (Hs x Hx) Nt Ho).
    + rewrite Hne. destruct (vset_known _ _ _ _ R Hv) as [Hres Hown]. apply andb_true_iff. split.
      * destruct Hown as [Hshrink|Hown]; [|exact Hown].
        destruct (nilb inh); [reflexivity|exact (superset_trans _ _ _ Ho Hshrink)].
      * exact (children_from_resv ti tl tss _ _ Hs Hres).
Qed.

Definition ccontrib (ncpu : Z) (inh : list Z) (g : group) : Z :=
  Z.max (cpu_alloc ncpu inh (lim g)) (cpu_resv ncpu inh g).

Lemma cresv_eq : forall ncpu inh i l ss,
  cpu_resv ncpu inh (G i l ss) = sumz (ccontrib ncpu (eff_set inh l)) ss.
Proof. reflexivity. Qed.

Lemma cfits_eq : forall ncpu inh i l ss, cpu_fits_tree ncpu inh (G i l ss) =
  ((cpu_alloc ncpu inh l =? 0) || (cpu_resv ncpu inh (G i l ss) <=? cpu_alloc ncpu inh l)) &&
  forallb (cpu_fits_tree ncpu (eff_set inh l)) ss.
Proof. reflexivity. Qed.

Definition fcpu (l : limits) : Z := l_cnt l * l_pct l.
Definition selcpu (r : res) : option Z := match r_cpu r with Some (c, p) => Some (c * p) | None => None end.
Definition okr_cpu (r : res) : Prop := match r_cpu r with Some (c, p) => 0 < c /\ 0 < p | None => True end.
Definition nc0 (l : limits) : bool :=
  ((0 <? l_cnt l) && (0 <? l_pct l)) || ((l_cnt l =? 0) && (l_pct l =? 0)).
Fixpoint okg_cpu (g : group) : bool := match g with G _ l ss => nc0 l && forallb okg_cpu ss end.

Lemma okg_cpu_node : forall i l ss, okg_cpu (G i l ss) = true -> nc0 l = true /\ forallb okg_cpu ss = true.
Proof. intros i l ss H. apply andb_true_iff. exact H. Qed.

(* with nc0 the own reservation does not depend on the inherited cpu set: this is what reduces the cpu fit to section
   Scalar with f = fcpu *)
Lemma alloc_nc0 : forall ncpu inh l, nc0 l = true -> cpu_alloc ncpu inh l = fcpu l.
Proof.
  intros ncpu inh l H. unfold cpu_alloc, fcpu. unfold nc0 in H. apply orb_true_iff in H.
  destruct H as [H|H]; apply andb_true_iff in H; destruct H as [A B].
  - apply Z.ltb_lt in A. apply Z.ltb_lt in B.
    assert (E1 : (l_pct l =? 0) = false) by (apply Z.eqb_neq; lia).
    assert (E2 : (l_cnt l =? 0) = false) by (apply Z.eqb_neq; lia). rewrite E1, E2. reflexivity.
  - rewrite B. apply Z.eqb_eq in A. apply Z.eqb_eq in B. lia.
Qed.

Lemma resv_nc0 : forall ncpu g, okg_cpu g = true -> forall inh, cpu_resv ncpu inh g = resv fcpu g.
Proof.
  intros ncpu. induction g as [i l ss IH] using group_ind'. intros H inh.
  apply okg_cpu_node in H. destruct H as [_ Hs]. rewrite forallb_forall in Hs.
  rewrite resv_eq, cresv_eq. apply sumz_ext. rewrite Forall_forall in *. intros [ci cl css] Hc.
  unfold ccontrib, contrib. rewrite (IH _ Hc (Hs _ Hc)). cbn [lim].
  rewrite (alloc_nc0 _ _ _ (proj1 (okg_cpu_node _ _ _ (Hs _ Hc)))). reflexivity.
Qed.

Lemma fits_nc0 : forall ncpu g, okg_cpu g = true -> forall inh, cpu_fits_tree ncpu inh g = fits fcpu g.
Proof.
  intros ncpu. induction g as [i l ss IH] using group_ind'. intros H inh.
  rewrite fits_eq, cfits_eq, (resv_nc0 ncpu _ H inh). apply okg_cpu_node in H. destruct H as [Hn Hs].
  rewrite (alloc_nc0 _ _ _ Hn). f_equal.
  apply forallb_ext_in. rewrite forallb_forall in Hs. rewrite Forall_forall in IH. intros c Hc. exact (IH c Hc (Hs c Hc) _).
Qed.

Lemma nc0_apply : forall l r, okr_cpu r -> nc0 l = true -> nc0 (apply_res l r) = true.
Proof.
  intros l r Hr Hl. unfold okr_cpu in Hr. unfold apply_res, nc0 in *.
  destruct (r_cpu r) as [[c p]|]; destruct (r_set r); cbn [l_cnt l_pct]; try exact Hl;
    destruct Hr as [A B]; apply Z.ltb_lt in A; apply Z.ltb_lt in B; rewrite A, B; reflexivity.
Qed.

Lemma okg_cpu_step : forall ncpu st q st', okr_cpu (req_res q) -> forallb okg_cpu st = true ->
  step ncpu st q = Some st' -> forallb okg_cpu st' = true.
Proof.
  intros ncpu st q st' Hok Hg H. apply step_accepts in H.
  pose proof (fun r H => nc0_apply no_limits r H eq_refl) as Hfresh.
  destruct H as [id r Hvc Hvf Hvl | i p id r root pinh pi pl pss chain Er W Hvc Hvf Hvl
                | i p r root inh ti tl tss chain Er W Hvc Hvf]; cbn [req_res] in Hok.
  - rewrite forallb_app, Hg. cbn [forallb okg_cpu]. rewrite (Hfresh r Hok). reflexivity.
  - apply (forest_local (fun _ => okg_cpu) (fun _ => nc0) (fun _ _ _ _ => eq_refl) _ _ _ _ _ _ _ _ Hg Er W).
    intro HP. apply okg_cpu_node in HP. destruct HP as [Hn Hs].
    cbn [okg_cpu]. rewrite Hn, forallb_app, Hs. cbn [forallb okg_cpu]. rewrite (Hfresh r Hok). reflexivity.
  - apply (forest_local (fun _ => okg_cpu) (fun _ => nc0) (fun _ _ _ _ => eq_refl) _ _ _ _ _ _ _ _ Hg Er W).
    intro HT. apply okg_cpu_node in HT. destruct HT as [Hn Hs].
    cbn [okg_cpu]. rewrite (nc0_apply _ _ Hok Hn), Hs. reflexivity.
Qed.

Lemma fcpu_apply : forall l r, fcpu (apply_res l r) = match selcpu r with Some v => v | None => fcpu l end.
Proof.
  intros l r. unfold fcpu, selcpu, apply_res. destruct (r_cpu r) as [[c p]|]; destruct (r_set r); reflexivity.
Qed.

Lemma parents_scalar : forall ncpu chain req ex, Forall (fun a : anc => okg_cpu (snd a) = true) chain ->
  cpu_parents ncpu chain req ex = true ->
  match find (limited fcpu) chain with
  | None => True
  | Some a => req <= fcpu (lim (snd a)) - (resv fcpu (snd a) - ex)
  end.
Proof.
  intros ncpu chain req ex F. induction F as [|[ainh a] rest Ha Hrest IH]; intro H; cbn [find cpu_parents] in *; [exact I|].
  cbn [snd] in Ha. unfold limited at 1. cbn [snd].
  rewrite (resv_nc0 ncpu _ Ha ainh) in H. destruct a as [ai al ass]. cbn [lim] in *.
  rewrite (alloc_nc0 _ _ _ (proj1 (okg_cpu_node _ _ _ Ha))) in H.
  destruct (fcpu al =? 0); cbn [negb] in *.
  - destruct (negb (nilb (l_set al)) && (req >? zlen (l_set al) * 100)); [discriminate|]. exact (IH H).
  - apply negb_true_iff in H. rewrite Z.gtb_ltb in H. apply Z.ltb_ge in H. exact H.
Qed.

Lemma fit_cpu : forall ncpu known inh g chain r, okr_cpu r -> okg_cpu g = true ->
  Forall (fun a : anc => okg_cpu (snd a) = true) chain -> (known = false -> lim g = no_limits) ->
  validate_fit ncpu known inh g chain r = true ->
  match selcpu r with Some v => validate_scalar fcpu known g chain v = true | None => True end.
Proof.
  intros ncpu known inh g chain r Hok Hg Hc Hkn H. unfold selcpu. unfold okr_cpu in Hok.
  apply validate_fit_parts in H. destruct H as [_ [V _]].
  destruct (r_cpu r) as [[c p]|]; [|exact I]. destruct Hok as [Hc0 Hp0].
  assert (Hp : p <> 0) by lia. specialize (V c p eq_refl Hp). unfold validate_cpu in V.
  assert (Ec : (c =? 0) = false) by (apply Z.eqb_neq; lia). rewrite Ec in V.
  rewrite (resv_nc0 ncpu _ Hg inh) in V. destruct g as [gi gl gss]. cbn [lim] in *.
  rewrite (alloc_nc0 _ _ _ (proj1 (okg_cpu_node _ _ _ Hg))) in V.
  unfold validate_scalar. cbn [lim].
  destruct (known && (resv fcpu (G gi gl gss) >? c * p)); [discriminate|].
  destruct (known && (c * p <? fcpu gl)); [reflexivity|].
  pose proof (parents_scalar _ _ _ _ Hc V) as P.
  change (fun a : anc => negb (fcpu (lim (snd a)) =? 0)) with (limited fcpu).
  destruct (find (limited fcpu) chain) as [a|]; [|reflexivity].
  apply negb_true_iff. rewrite Z.gtb_ltb. apply Z.ltb_ge.
  destruct known; [exact P|]. rewrite (Hkn eq_refl). unfold fcpu at 3. cbn [no_limits l_cnt l_pct]. lia.
Qed.

Lemma sub_nonneg_cpu : forall r, okr_cpu r -> validate_change no_limits r = true ->
  validate_limits (apply_res no_limits r) = true -> 0 <= fcpu (apply_res no_limits r).
Proof.
  intros r Hok _ _. rewrite fcpu_apply. unfold selcpu, okr_cpu in *.
  destruct (r_cpu r) as [[c p]|]; [nia|reflexivity].
Qed.

Theorem cpu_fit_without_percentage_only : forall ncpu qs,
  Forall (fun q => okr_cpu (req_res q)) qs -> inv_cpu ncpu (run ncpu [] qs) = true.
Proof.
  intros ncpu qs Hqs.
  assert (H : Inv fcpu (run ncpu [] qs) /\ forallb okg_cpu (run ncpu [] qs) = true).
  { apply (run_preserves fcpu selcpu okr_cpu okg_cpu); try assumption; try reflexivity.
    - intros i l ss H. exact (proj2 (okg_cpu_node _ _ _ H)).
    - exact okg_cpu_step.
    - exact fcpu_apply.
    - exact fit_cpu.
    - exact sub_nonneg_cpu.
    - split; reflexivity. }
  destruct H as [[Hf _] Hg]. unfold inv_cpu. rewrite forallb_forall in *. intros g Hin.
  rewrite (fits_nc0 ncpu g (Hg g Hin) []). exact (Hf g Hin).
Qed.

Fixpoint cnn (g : group) : bool :=
  match g with G _ l ss => (0 <=? l_cnt l) && (0 <=? l_pct l) && forallb cnn ss end.

Lemma alloc_nonneg : forall ncpu inh l, 0 <= ncpu -> 0 <= l_cnt l -> 0 <= l_pct l -> 0 <= cpu_alloc ncpu inh l.
Proof.
  intros ncpu inh l Hn Hc Hp. unfold cpu_alloc. destruct (l_pct l =? 0); [lia|].
  destruct (negb (l_cnt l =? 0)); [nia|].
  assert (0 <= zlen (eff_set inh l)) by (unfold zlen; lia).
  destruct (negb (zlen (eff_set inh l) =? 0) && (zlen (eff_set inh l) <? ncpu)); nia.
Qed.

Fixpoint cnla (ncpu : Z) (inh : list Z) (g : group) (p : list nat) : option anc :=
  match p with
  | [] => None
  | i :: p' => match nth_error (subs g) i with
               | None => None
               | Some c => match cnla ncpu (eff_set inh (lim g)) c p' with
                           | Some a => Some a
                           | None => if negb (cpu_alloc ncpu inh (lim g) =? 0) then Some (inh, g) else None
                           end
               end
  end.

Lemma cnla_gnla : forall ncpu p inh g, cnla ncpu inh g p = gnla (cpu_alloc ncpu) inh g p.
Proof.
  intros ncpu. induction p as [|i p IH]; intros inh g; cbn [cnla gnla]; [reflexivity|].
  destruct (nth_error (subs g) i) as [c|]; [|reflexivity]. rewrite IH. reflexivity.
Qed.

Lemma modify_cpu_fits : forall ncpu t' d, 0 <= ncpu -> forall p inh g t,
  cpu_fits_tree ncpu inh g = true -> cnn g = true -> get g p = Some t ->
  cpu_fits_tree ncpu (inh_at inh g p) t' = true -> cnn t' = true ->
  ccontrib ncpu (inh_at inh g p) t' = ccontrib ncpu (inh_at inh g p) t + d ->
  (forall ai a, cnla ncpu inh g p = Some (ai, a) -> cpu_resv ncpu ai a + d <= cpu_alloc ncpu ai (lim a)) ->
  let g' := modify g p (fun _ => t') in
  cpu_fits_tree ncpu inh g' = true /\ cnn g' = true /\
  ccontrib ncpu inh g' = ccontrib ncpu inh g + (match cnla ncpu inh g p with Some _ => 0 | None => d end).
Proof.
  intros ncpu t' d Hncpu p inh g t. rewrite cnla_gnla.
  apply (frame (cpu_alloc ncpu) (cpu_resv ncpu) (cpu_fits_tree ncpu) cnn (fun l => (0 <=? l_cnt l) && (0 <=? l_pct l))
           (cresv_eq ncpu) (cfits_eq ncpu) (fun _ _ _ => eq_refl)).
  intros inh0 l H. apply andb_true_iff in H. destruct H as [Hc Hp].
  apply alloc_nonneg; [exact Hncpu|apply Z.leb_le; exact Hc|apply Z.leb_le; exact Hp].
Qed.

Lemma same_effset_below : forall ncpu inh i l l' ss, eff_set inh l' = eff_set inh l ->
  cpu_resv ncpu inh (G i l' ss) = cpu_resv ncpu inh (G i l ss) /\
  forallb (cpu_fits_tree ncpu (eff_set inh l')) ss = forallb (cpu_fits_tree ncpu (eff_set inh l)) ss.
Proof. intros ncpu inh i l l' ss H. rewrite !cresv_eq, H. split; reflexivity. Qed.
