(* Proofs about models/TaskEngine.v: the bare status write [put], and the shape of an event: an Ensure pass is a sequence
   of [move]s, every other event at most one ([step_move]), so an invariant of the engine is proved by showing that each
   move keeps it ([step_ind]). Then the start log ([start_log_ok]: C02 / C01 undo order) and the schedule gate. *)
From Coq Require Import List ZArith Bool Lia.
Import ListNotations.
Require Import V.models.TaskEngine.

Ltac des_if := match goal with |- context [if ?c then _ else _] => destruct c eqn:? end.

Lemma seqb_eq : forall a b, seqb a b = true <-> a = b.
Proof. destruct a, b; simpl; split; intro H; try reflexivity; try discriminate. Qed.

Lemma seqb_refl : forall a, seqb a a = true.
Proof. destruct a; reflexivity. Qed.

Lemma seqb_neq : forall a b, seqb a b = false <-> a <> b.
Proof.
  intros a b; split.
  - intros H E; subst; rewrite seqb_refl in H; discriminate.
  - intros H; destruct (seqb a b) eqn:E; [apply seqb_eq in E; contradiction | reflexivity].
Qed.

Lemma memn_In : forall x l, memn x l = true <-> In x l.
Proof.
  intros x l; unfold memn; rewrite existsb_exists; split.
  - intros [y [Hy E]]; apply Nat.eqb_eq in E; subst; assumption.
  - intros H; exists x; split; [assumption | apply Nat.eqb_refl].
Qed.

Lemma memn_false : forall x l, memn x l = false <-> ~ In x l.
Proof. intros x l. rewrite <- memn_In. destruct (memn x l); split; congruence. Qed.

Lemma upd_length : forall l t f, length (upd l t f) = length l.
Proof. induction l; destruct t; simpl; intros; auto. Qed.

Lemma nth_upd_same : forall l t f d, t < length l -> nth t (upd l t f) d = f (nth t l d).
Proof. induction l; destruct t; simpl; intros; try lia; auto. apply IHl; lia. Qed.

Lemma nth_upd_other : forall l t u f d, t <> u -> nth u (upd l t f) d = nth u l d.
Proof. induction l; destruct t, u; simpl; intros; auto; try congruence. Qed.

Lemma upd_out : forall l t f, length l <= t -> upd l t f = l.
Proof. induction l; destruct t; simpl; intros; auto; try lia. f_equal; apply IHl; lia. Qed.

Lemma nth_upd_cases : forall l t f u d,
  nth u (upd l t f) d = nth u l d \/ (u = t /\ nth u (upd l t f) d = f (nth u l d)).
Proof.
  intros l t f u d. destruct (Nat.eq_dec t u) as [->|N]; [|left; apply nth_upd_other; assumption].
  destruct (Nat.lt_ge_cases u (length l)); [right; split; [reflexivity | apply nth_upd_same; assumption]|].
  left. rewrite upd_out by assumption. reflexivity.
Qed.

Lemma nth_upd_proj : forall (A : Type) (p : task -> A) l t f u,
  (forall tk, p (f tk) = p tk) -> p (nth u (upd l t f) dummy) = p (nth u l dummy).
Proof. intros A p l t f u H. destruct (nth_upd_cases l t f u dummy) as [E|[_ E]]; rewrite E; auto. Qed.

Lemma map_upd_proj : forall (A : Type) (p : task -> A) l t f, (forall tk, p (f tk) = p tk) -> map p (upd l t f) = map p l.
Proof. induction l as [|a l IH]; intros [|t] f H; simpl; auto; rewrite ?H, ?IH; auto. Qed.

Lemma st_out : forall s t, length (tasks s) <= t -> st s t = Hold.
Proof. intros; unfold st, get; rewrite nth_overflow by assumption; reflexivity. Qed.

Lemma in_range_st : forall s t, st s t <> Hold -> t < length (tasks s).
Proof. intros s t H. destruct (Nat.lt_ge_cases t (length (tasks s))); [assumption|]. rewrite st_out in H by assumption. congruence. Qed.

Lemma st_irrel : forall s t f u, (forall tk, t_st (f tk) = t_st tk) -> st (with_tasks s (upd (tasks s) t f)) u = st s u.
Proof. intros. unfold st, get; cbn [tasks with_tasks]. apply nth_upd_proj. assumption. Qed.

(* the bare status write: every status write of the engine is [put] or nothing on the task list *)
Definition put (s : state) (t : nat) (nw : status) : state :=
  with_tasks s (upd (tasks s) t (fun tk => set_st tk nw)).

Lemma st_put_same : forall s t nw, t < length (tasks s) -> st (put s t nw) t = nw.
Proof. intros. unfold st, get, put; cbn [tasks with_tasks]. rewrite nth_upd_same by assumption. reflexivity. Qed.

Lemma st_put_other : forall s t nw u, u <> t -> st (put s t nw) u = st s u.
Proof. intros. unfold st, get, put; cbn [tasks with_tasks]. rewrite nth_upd_other by congruence. reflexivity. Qed.

Lemma st_put : forall s t nw u, st (put s t nw) u = st s u \/ (u = t /\ st (put s t nw) u = nw).
Proof.
  intros. unfold st, get, put; cbn [tasks with_tasks].
  destruct (nth_upd_cases (tasks s) t (fun tk => set_st tk nw) u dummy) as [E|[-> E]]; rewrite E; auto.
Qed.

Lemma get_put : forall (A : Type) (p : task -> A) s t nw u,
  (forall tk x, p (set_st tk x) = p tk) -> p (get (put s t nw) u) = p (get s u).
Proof. intros. unfold get, put; cbn [tasks with_tasks]. apply nth_upd_proj. intros; apply H. Qed.

(* Task.changeStatus: the task list afterwards; the flags cready / panicked are the only other fields it may touch *)
Lemma tasks_change_st : forall s t nw,
  tasks (change_st s t nw) = if seqb (st s t) nw then tasks s else tasks (put s t nw).
Proof. intros; unfold change_st, put, with_panicked, with_cready, with_tasks; repeat des_if; reflexivity. Qed.

Lemma tasks_change_st_cases : forall s t nw,
  tasks (change_st s t nw) = tasks s \/ tasks (change_st s t nw) = tasks (put s t nw).
Proof. intros. rewrite tasks_change_st. des_if; auto. Qed.

Lemma tasks_set_status_cases : forall s t nw,
  tasks (set_status s t nw) = tasks s \/ tasks (set_status s t nw) = tasks (put s t nw).
Proof. intros; unfold set_status; repeat des_if; auto using tasks_change_st_cases. Qed.

(* changeStatus and SetStatus either make the bare write or leave the task list alone: a property of the task list
   that the bare write keeps, they keep *)
Lemma write_or_not : forall P : state -> Prop, (forall x x', tasks x' = tasks x -> P x -> P x') ->
  forall s t nw s', tasks s' = tasks s \/ tasks s' = tasks (put s t nw) -> P s -> P (put s t nw) -> P s'.
Proof. intros P Ht s t nw s' [E|E] Hs Hp; eauto. Qed.

Lemma st_tasks_eq : forall s s' u, tasks s' = tasks s -> st s' u = st s u.
Proof. intros s s' u E. unfold st, get. rewrite E. reflexivity. Qed.

Lemma st_change_st : forall s t nw u,
  st (change_st s t nw) u = st s u \/ (u = t /\ st (change_st s t nw) u = nw).
Proof.
  intros. pose proof (tasks_change_st s t nw) as E. destruct (seqb (st s t) nw).
  - left. apply st_tasks_eq; assumption.
  - rewrite !(st_tasks_eq _ _ u E). apply st_put.
Qed.

Lemma st_set_status : forall s t nw u,
  st (set_status s t nw) u = st s u \/ (u = t /\ st (set_status s t nw) u = nw).
Proof. intros; unfold set_status; repeat des_if; auto using st_change_st. Qed.

Lemma st_set_status_other : forall s t nw u, u <> t -> st (set_status s t nw) u = st s u.
Proof. intros s t nw u N. destruct (st_set_status s t nw u) as [A|[A _]]; [exact A | contradiction]. Qed.

(* SetStatus takes effect unless it is the suppressed Abort -> Done *)
Lemma st_set_status_same : forall s t nw,
  panicked s = false -> t < length (tasks s) -> (nw = Done -> st s t <> Abort) -> st (set_status s t nw) t = nw.
Proof.
  intros s t nw Hp L Hd. unfold set_status. rewrite Hp.
  assert (E : seqb nw Done && seqb (st s t) Abort = false).
  { destruct (seqb nw Done) eqn:E1; [|reflexivity]. apply seqb_eq in E1. apply seqb_neq in Hd; [|assumption]. rewrite Hd; reflexivity. }
  rewrite E. pose proof (tasks_change_st s t nw) as T. destruct (seqb (st s t) nw) eqn:Eq.
  - rewrite (st_tasks_eq _ _ t T). apply seqb_eq; assumption.
  - rewrite (st_tasks_eq _ _ t T). apply st_put_same; assumption.
Qed.

Lemma st_set_status_quiet : forall s t nw u,
  st (set_status_quiet s t nw) u = st s u \/ (u = t /\ st (set_status_quiet s t nw) u = nw).
Proof. intros; unfold set_status_quiet. des_if; [left; reflexivity | apply st_put]. Qed.

Lemma st_ready_detect : forall s u, st (ready_detect s) u = st s u.
Proof. intros; unfold ready_detect, with_cready, with_panicked; repeat des_if; reflexivity. Qed.

Lemma tasks_ready_detect : forall s, tasks (ready_detect s) = tasks s.
Proof. intros; unfold ready_detect, with_cready, with_panicked; repeat des_if; reflexivity. Qed.

Lemma st_try_undo_other : forall s t u, u <> t -> st (try_undo s t) u = st s u.
Proof. intros s t u N. unfold try_undo. des_if; apply st_set_status_other; assumption. Qed.

Lemma st_try_undo : forall s t, panicked s = false -> st s t = Abort ->
  st (try_undo s t) t = Hold \/ st (try_undo s t) t = Undo.
Proof.
  intros s t Hp Hs. assert (L : t < length (tasks s)) by (apply in_range_st; rewrite Hs; discriminate).
  unfold try_undo. des_if; [left | right]; apply st_set_status_same; auto; discriminate.
Qed.

Lemma set_to_wait_eq : forall s t ws, panicked s = false -> st s t <> Abort ->
  set_to_wait s t ws = change_st (with_tasks s (upd (tasks s) t (fun tk => set_waited tk ws))) t Wait.
Proof. intros s t ws Hp Hs. unfold set_to_wait. apply seqb_neq in Hs. rewrite Hp, Hs. reflexivity. Qed.

Lemma slog_change_st : forall s t nw, slog (change_st s t nw) = slog s.
Proof. intros; unfold change_st, with_panicked, with_cready, with_tasks; repeat des_if; reflexivity. Qed.
Lemma slog_set_status : forall s t nw, slog (set_status s t nw) = slog s.
Proof. intros; unfold set_status; repeat des_if; auto using slog_change_st. Qed.
Lemma slog_set_to_wait : forall s t ws, slog (set_to_wait s t ws) = slog s.
Proof. intros; unfold set_to_wait; repeat des_if; auto. rewrite slog_change_st; reflexivity. Qed.
Lemma slog_try_undo : forall s t, slog (try_undo s t) = slog s.
Proof. intros; unfold try_undo; des_if; apply slog_set_status. Qed.

Lemma running_change_st : forall s t nw, running (change_st s t nw) = running s.
Proof. intros; unfold change_st, with_panicked, with_cready, with_tasks; repeat des_if; reflexivity. Qed.
Lemma running_set_status : forall s t nw, running (set_status s t nw) = running s.
Proof. intros; unfold set_status; repeat des_if; auto using running_change_st. Qed.
Lemma running_try_undo : forall s t, running (try_undo s t) = running s.
Proof. intros; unfold try_undo; des_if; apply running_set_status. Qed.

Lemma now_change_st : forall s t nw, now (change_st s t nw) = now s.
Proof. intros; unfold change_st, with_panicked, with_cready, with_tasks; repeat des_if; reflexivity. Qed.
Lemma now_set_status : forall s t nw, now (set_status s t nw) = now s.
Proof. intros; unfold set_status; repeat des_if; auto using now_change_st. Qed.

Lemma at_change_st : forall s t nw u, t_at (get (change_st s t nw) u) = t_at (get s u).
Proof.
  intros. unfold get. rewrite tasks_change_st. des_if; [reflexivity|]. apply (get_put _ t_at). reflexivity.
Qed.
Lemma at_set_status : forall s t nw u, t_at (get (set_status s t nw) u) = t_at (get s u).
Proof. intros; unfold set_status; repeat des_if; auto using at_change_st. Qed.
Lemma at_try_undo : forall s t u, t_at (get (try_undo s t) u) = t_at (get s u).
Proof. intros; unfold try_undo; des_if; apply at_set_status. Qed.

(* the single status write abortTasks performs on a task *)
Definition abort_write (s : state) (t : nat) : state :=
  match eff_status (get s t) with
  | Do => set_status_quiet s t Hold
  | Doing => set_status_quiet s t Abort
  | Done => set_status_quiet s t Undo
  | _ => s
  end.

Definition abort_to (x : status) : option status :=
  match x with Do => Some Hold | Doing => Some Abort | Done => Some Undo | _ => None end.

Lemma abort_write_eq : forall s t,
  abort_write s t = match abort_to (eff_status (get s t)) with Some nw => put s t nw | None => s end.
Proof. intros. unfold abort_write. destruct (eff_status (get s t)); reflexivity. Qed.

Lemma abort_loop_S : forall f t rest al seen s lanes,
  abort_loop (S f) (t :: rest) al seen s lanes =
  if memn t seen then abort_loop f rest al seen s lanes
  else abort_loop f (rest ++ filter (fun h => negb (memn h (t :: seen))) (t_halts (get s t))) al (t :: seen)
                  (abort_write s t) (lanes ++ extra_lanes (get s t) al).
Proof. reflexivity. Qed.

Definition abort_cont (d : nat) (al : list nat) (r : state * list nat * list nat) : state :=
  let '(s', seen', lanes) := r in
  match lanes with [] => s' | _ => abort_lanes d lanes al seen' s' end.

Lemma abort_lanes_S : forall d kill al seen s,
  abort_lanes (S d) kill al seen s =
  match select_abort (tasks s) kill with
  | [] => s
  | _ => abort_cont d (kill ++ al)
                    (abort_loop (loop_fuel s (select_abort (tasks s) kill)) (select_abort (tasks s) kill)
                                (kill ++ al) seen s [])
  end.
Proof. intros; simpl. destruct (select_abort (tasks s) kill) eqn:E; [reflexivity|]. rewrite <- E. reflexivity. Qed.

Lemma abort_tasks_eq : forall d wl al seen s,
  abort_tasks d wl al seen s = abort_cont d al (abort_loop (loop_fuel s wl) wl al seen s []).
Proof. reflexivity. Qed.

Section AbortPreserve.
  Variable P : state -> Prop.
  Hypothesis P_write : forall s t, P s -> P (abort_write s t).
  Hypothesis P_oof : forall s, P s -> P (with_oof s true).

  Lemma abort_loop_P : forall f wl al seen s lanes, P s -> P (fst (fst (abort_loop f wl al seen s lanes))).
  Proof.
    induction f; intros wl al seen s lanes H.
    - simpl; destruct wl; simpl; auto.
    - destruct wl as [|t rest]; [simpl; assumption|].
      rewrite abort_loop_S. des_if; apply IHf; auto.
  Qed.

  Lemma abort_cont_P : forall d, (forall kill al seen s, P s -> P (abort_lanes d kill al seen s)) ->
    forall al r, P (fst (fst r)) -> P (abort_cont d al r).
  Proof. intros d H al [[s' seen'] [|l lanes]] Hs; simpl in *; auto. Qed.

  Lemma abort_lanes_P : forall d kill al seen s, P s -> P (abort_lanes d kill al seen s).
  Proof.
    induction d; intros kill al seen s H; [simpl; auto|].
    rewrite abort_lanes_S. destruct (select_abort (tasks s) kill); [assumption|].
    apply abort_cont_P; [exact IHd | apply abort_loop_P; assumption].
  Qed.

  Lemma abort_tasks_P : forall d wl al seen s, P s -> P (abort_tasks d wl al seen s).
  Proof.
    intros d wl al seen s H. rewrite abort_tasks_eq.
    apply abort_cont_P; [apply abort_lanes_P | apply abort_loop_P; assumption].
  Qed.
End AbortPreserve.

Lemma slog_abort_write : forall s t, slog (abort_write s t) = slog s.
Proof. intros. rewrite abort_write_eq. destruct (abort_to _); reflexivity. Qed.

Lemma slog_ready_detect : forall s, slog (ready_detect s) = slog s.
Proof. intros; unfold ready_detect, with_cready, with_panicked; repeat des_if; reflexivity. Qed.

Lemma slog_abort_lanes_top : forall s lanes, slog (abort_lanes_top s lanes) = slog s.
Proof.
  intros. unfold abort_lanes_top. rewrite slog_ready_detect.
  apply (abort_lanes_P (fun x => slog x = slog s)); auto. intros s0 t H; rewrite slog_abort_write; assumption.
Qed.

Lemma slog_abort_change : forall s, slog (abort_change s) = slog s.
Proof.
  intros. unfold abort_change. rewrite slog_ready_detect.
  apply (abort_tasks_P (fun x => slog x = slog s)); auto. intros s0 t H; rewrite slog_abort_write; assumption.
Qed.

(* the status write of a fresh start, then the bookkeeping: schedule cleared, tomb, log entry *)
Definition run_write (s : state) (t : nat) : state :=
  match st s t with Do => set_status s t Doing | Undo => set_status s t Undoing | _ => s end.
Definition run_rec (s : state) (t : nat) : start_rec :=
  let undo := match st s t with Undo | Undoing => true | _ => false end in
  mkSR t undo (map (st s) (if undo then t_halts (get s t) else t_waits (get s t))) (gate_open s t)
       (match st s t with Do | Undo => true | _ => false end).
Definition launch (s : state) (t : nat) (r : start_rec) : state :=
  let s2 := with_tasks s (upd (tasks s) t (fun tk => set_at tk 0)) in
  with_slog (with_running s2 (t :: running s2)) (r :: slog s2).

Lemma run_eq : forall s t, run s t = launch (run_write s t) t (run_rec s t).
Proof. reflexivity. Qed.

Lemma st_launch : forall s t r u, st (launch s t r) u = st s u.
Proof. intros. exact (st_irrel s t (fun tk => set_at tk 0) u (fun _ => eq_refl)). Qed.

Lemma slog_run_write : forall s t, slog (run_write s t) = slog s.
Proof. intros; unfold run_write; destruct (st s t); auto using slog_set_status. Qed.
Lemma running_run_write : forall s t, running (run_write s t) = running s.
Proof. intros; unfold run_write; destruct (st s t); auto using running_set_status. Qed.
Lemma st_run_write_other : forall s t u, u <> t -> st (run_write s t) u = st s u.
Proof. intros; unfold run_write; destruct (st s t); auto using st_set_status_other. Qed.

Lemma st_run_other : forall s t u, u <> t -> st (run s t) u = st s u.
Proof. intros. rewrite run_eq, st_launch. apply st_run_write_other; assumption. Qed.

Definition pending (x : status) : bool := match x with Do | Doing | Undo | Undoing => true | _ => false end.

(* what the goroutine tail writes when the handler returned nil *)
Definition ok_next (x : status) : option status :=
  match x with Doing => Some Done | Abort => Some Undo | Undoing => Some Undone | _ => None end.

(* the state changes an event is made of, each with what the code has tested before it makes the change *)
Inductive move (s : state) : event -> state -> Prop :=
| M_undo : forall order t, panicked s = false -> ~ In t (running s) -> st s t = Abort ->
    move s (Ensure order) (try_undo s t)
| M_skip : forall order t, ~ In t (running s) -> st s t = Undo -> t_undo (get s t) = false -> must_wait s t = false ->
    move s (Ensure order) (set_status s t Done)
| M_run : forall order t, ~ In t (running s) -> pending (st s t) = true -> must_wait s t = false -> gate_open s t = true ->
    move s (Ensure order) (run s t)
| M_done : forall t nw, panicked s = false -> In t (running s) -> ok_next (st s t) = Some nw ->
    move s (Finish t OOk) (set_status (remove_running s t) t nw)
| M_reap : forall t o, panicked s = false -> In t (running s) -> move s (Finish t o) (remove_running s t)
| M_fin_undo : forall t o, panicked s = false -> In t (running s) -> st s t = Abort ->
    move s (Finish t o) (try_undo (remove_running s t) t)
| M_sched : forall t d, panicked s = false -> In t (running s) ->
    move s (Finish t (ORetry d))
         (with_tasks (remove_running s t) (upd (tasks s) t (fun tk => set_at tk (now s + d))))
| M_wait : forall t u, panicked s = false -> In t (running s) -> st s t <> Abort ->
    move s (Finish t (OWait u)) (set_to_wait (remove_running s t) t (if u then Undone else Done))
| M_fail : forall t, panicked s = false -> In t (running s) ->
    move s (Finish t OErr) (set_status (abort_lanes_top (remove_running s t) (lanes_of (get s t))) t Error)
| M_abort : panicked s = false -> move s UAbort (abort_change s)
| M_tick : forall d, move s (Tick d) (with_now s (now s + Z.max d 0))
| M_resolve : forall t, panicked s = false -> st s t = Wait -> move s (Resolve t) (set_status s t (t_waited (get s t))).

Lemma ensure_rest_move : forall order s t, ~ In t (running s) -> st s t <> Abort ->
  ensure_rest s t = s \/ move s (Ensure order) (ensure_rest s t).
Proof.
  intros order s t Hn Ha. unfold ensure_rest.
  destruct (ready (st s t)) eqn:Er; [left; reflexivity|].
  destruct (seqb (st s t) Wait) eqn:Ew; [left; reflexivity|].
  destruct (must_wait s t) eqn:Em; [left; reflexivity|].
  destruct (seqb (st s t) Undo && negb (t_undo (get s t))) eqn:Eu.
  - apply andb_true_iff in Eu. destruct Eu as [E1 E2]. apply seqb_eq in E1. apply negb_true_iff in E2.
    right. apply M_skip; assumption.
  - destruct (gate_open s t) eqn:Eg; [right | left; reflexivity]. apply M_run; auto.
    apply seqb_neq in Ew. destruct (st s t); try reflexivity; try discriminate Er; congruence.
Qed.

Lemma finish_move : forall s t o, finish s t o = s \/ move s (Finish t o) (finish s t o).
Proof.
  intros s t o. unfold finish. destruct (panicked s) eqn:Hp; [left; reflexivity|].
  destruct (memn t (running s)) eqn:Hr; [|left; reflexivity]. apply memn_In in Hr. right. cbn [negb].
  change (st (remove_running s t) t) with (st s t).
  destruct o.
  - destruct (st s t) eqn:Es; try (apply M_reap; assumption); apply M_done; auto; rewrite Es; reflexivity.
  - exact (M_fail s t Hp Hr).
  - destruct (seqb (st s t) Abort) eqn:Ea; [apply seqb_eq in Ea; apply M_fin_undo; assumption|].
    destruct (after =? 0)%Z; [apply M_reap; assumption | exact (M_sched s t after Hp Hr)].
  - destruct (seqb (st s t) Abort) eqn:Ea; [apply seqb_eq in Ea; apply M_fin_undo; assumption|].
    apply seqb_neq in Ea. apply M_wait; assumption.
Qed.

Lemma step_move : forall s e,
  match e with Ensure _ => True | _ => step s e = s \/ move s e (step s e) end.
Proof.
  intros s e. destruct e; cbn [step]; [exact I | apply finish_move | | right; apply M_tick |].
  - destruct (panicked s) eqn:Hp; [left; reflexivity | right; apply M_abort; assumption].
  - destruct (panicked s) eqn:Hp; [left; reflexivity|]. unfold resolve_wait.
    destruct (seqb (st s t) Wait) eqn:Ew; [|left; reflexivity]. apply seqb_eq in Ew. right. apply M_resolve; assumption.
Qed.

Section MoveInduction.
  Variable P : state -> Prop.

  Lemma ensure_one_ind : forall order, (forall s s', move s (Ensure order) s' -> P s -> P s') ->
    forall s t, P s -> P (ensure_one s t).
  Proof.
    intros order H s t Hs. unfold ensure_one.
    destruct (panicked s) eqn:Hp; [assumption|].
    destruct (memn t (running s)) eqn:Hr; [assumption|]. apply memn_false in Hr.
    assert (R : forall x, P x -> ~ In t (running x) -> st x t <> Abort -> P (ensure_rest x t)).
    { intros x Hx Hn Ha. destruct (ensure_rest_move order x t Hn Ha) as [E|M]; [rewrite E; assumption | eauto]. }
    destruct (seqb (st s t) Abort) eqn:Ea; [apply seqb_eq in Ea | apply seqb_neq in Ea; auto].
    apply R; [apply (H s); [apply M_undo|]; assumption | rewrite running_try_undo; assumption|].
    destruct (st_try_undo s t Hp Ea) as [E|E]; rewrite E; discriminate.
  Qed.

  Lemma ensure_fold_ind : forall order, (forall s s', move s (Ensure order) s' -> P s -> P s') ->
    forall l s, P s -> P (fold_left ensure_one l s).
  Proof. intros order H. induction l; simpl; intros; auto using (ensure_one_ind order). Qed.

  Lemma step_ind : forall e, (forall s s', move s e s' -> P s -> P s') -> forall s, P s -> P (step s e).
  Proof.
    intros e H s Hs. pose proof (step_move s e) as M. destruct e;
      try (destruct M as [E|M]; [rewrite E; assumption | eauto]).
    apply (ensure_fold_ind order); assumption.
  Qed.

  Lemma run_events_ind : (forall s e, P s -> P (step s e)) -> forall es s, P s -> P (run_events s es).
  Proof. intros H. unfold run_events. induction es; simpl; intros; auto. Qed.
End MoveInduction.

Definition entry_ok (r : start_rec) : Prop :=
  sr_gate r = true /\
  (sr_fresh r = true ->
   if sr_undo r then forallb ready (sr_pre r) = true
   else forallb (fun x => seqb x Done) (sr_pre r) = true).

Lemma existsb_negb_false : forall (A : Type) (p : A -> bool) l,
  existsb (fun x => negb (p x)) l = false <-> forall x, In x l -> p x = true.
Proof.
  intros A p l. rewrite <- not_true_iff_false, existsb_exists. split.
  - intros H x Hx. destruct (p x) eqn:E; [reflexivity|]. destruct H. exists x. rewrite E. auto.
  - intros H (x & Hx & Hn). rewrite (H x Hx) in Hn. discriminate.
Qed.

Lemma must_wait_do_iff : forall s t, st s t = Do ->
  (must_wait s t = false <-> forall w, In w (t_waits (get s t)) -> st s w = Done).
Proof.
  intros s t Hs. unfold must_wait. rewrite Hs, (existsb_negb_false _ (fun w => seqb (st s w) Done)).
  split; intros H w Hw; apply seqb_eq, H, Hw.
Qed.

Lemma must_wait_undo_iff : forall s t, st s t = Undo ->
  (must_wait s t = false <-> forall h, In h (t_halts (get s t)) -> ready (st s h) = true).
Proof. intros s t Hs. unfold must_wait. rewrite Hs. apply (existsb_negb_false _ (fun h => ready (st s h))). Qed.

Lemma must_wait_do : forall s t w, st s t = Do -> In w (t_waits (get s t)) -> st s w <> Done -> must_wait s t = true.
Proof.
  intros s t w Hs Hin Hw. destruct (must_wait s t) eqn:E; [reflexivity|].
  destruct Hw. exact (proj1 (must_wait_do_iff s t Hs) E w Hin).
Qed.

Lemma must_wait_undo : forall s t h, st s t = Undo -> In h (t_halts (get s t)) -> ready (st s h) = false -> must_wait s t = true.
Proof.
  intros s t h Hs Hin Hh. destruct (must_wait s t) eqn:E; [reflexivity|].
  rewrite (proj1 (must_wait_undo_iff s t Hs) E h Hin) in Hh. discriminate.
Qed.

Lemma forallb_map_st : forall s (p : status -> bool) l, (forall w, In w l -> p (st s w) = true) -> forallb p (map (st s) l) = true.
Proof. intros s p l H. apply forallb_forall. intros x Hx. apply in_map_iff in Hx. destruct Hx as (w & <- & Hw). auto. Qed.

Lemma slog_move : forall s e s', move s e s' ->
  slog s' = slog s \/ exists t, s' = run s t /\ must_wait s t = false /\ gate_open s t = true /\ pending (st s t) = true.
Proof.
  intros s e s' M. destruct M; try (left; reflexivity);
    try (left; rewrite ?slog_set_status, ?slog_try_undo, ?slog_set_to_wait, ?slog_abort_lanes_top, ?slog_abort_change; reflexivity).
  right. exists t. auto.
Qed.

Lemma slog_run : forall s t, slog (run s t) = run_rec s t :: slog s.
Proof. intros. rewrite run_eq. cbn [launch slog with_slog with_running with_tasks]. rewrite slog_run_write. reflexivity. Qed.

Lemma log_move : forall s e s', move s e s' -> Forall entry_ok (slog s) -> Forall entry_ok (slog s').
Proof.
  intros s e s' M H. destruct (slog_move s e s' M) as [E|(t & -> & Hm & Hg & Hp)]; [rewrite E; assumption|].
  rewrite slog_run. constructor; [|assumption]. split; [exact Hg|].
  unfold run_rec; cbn [sr_fresh sr_undo sr_pre]. destruct (st s t) eqn:Es; intros F; try discriminate F; apply forallb_map_st.
  - intros w Hw. apply seqb_eq. exact (proj1 (must_wait_do_iff s t Es) Hm w Hw).
  - exact (proj1 (must_wait_undo_iff s t Es) Hm).
Qed.

(* C02 (fresh starts) / C01 (undo order, fresh starts): over every graph and every event list *)
Theorem start_log_ok : forall (g : list tdesc) (es : list event),
  Forall entry_ok (slog (run_events (init_state g) es)).
Proof.
  intros. apply (run_events_ind (fun s => Forall entry_ok (slog s))); [|constructor].
  intros s e. apply (step_ind (fun x => Forall entry_ok (slog x))). intros x x'; apply log_move.
Qed.

Lemma gate_open_try_undo : forall s t, gate_open (try_undo s t) t = gate_open s t.
Proof.
  intros; unfold gate_open. rewrite at_try_undo.
  unfold try_undo; des_if; rewrite now_set_status; reflexivity.
Qed.

(* Ensure never starts a task whose scheduled time lies in the future *)
Lemma ensure_rest_gate : forall s t, gate_open s t = false -> running (ensure_rest s t) = running s.
Proof.
  intros s t Hg; unfold ensure_rest; repeat des_if; auto using running_set_status.
  rewrite Hg in *; discriminate.
Qed.

Theorem ensure_one_gate : forall s t, gate_open s t = false -> running (ensure_one s t) = running s.
Proof.
  intros s t Hg; unfold ensure_one; repeat des_if; auto.
  - rewrite ensure_rest_gate; [apply running_try_undo | rewrite gate_open_try_undo; assumption].
  - apply ensure_rest_gate; assumption.
Qed.

(* Retry{After: d} with d <> 0 from a task that was not aborted schedules it at now + d *)
Theorem retry_sets_at : forall s t d,
  panicked s = false -> memn t (running s) = true -> t < length (tasks s) -> st s t <> Abort -> d <> 0%Z ->
  t_at (get (finish s t (ORetry d)) t) = (now s + d)%Z.
Proof.
  intros s t d Hp Hr Hlt Hs Hd; unfold finish. rewrite Hp, Hr; simpl.
  assert (E : st (remove_running s t) t = st s t) by reflexivity. rewrite E.
  apply seqb_neq in Hs; rewrite Hs.
  apply Z.eqb_neq in Hd; rewrite Hd.
  unfold get, with_tasks, remove_running, with_running; cbn [tasks now].
  rewrite nth_upd_same by assumption; reflexivity.
Qed.

Lemma ensure_one_must_wait : forall s t, st s t <> Abort -> must_wait s t = true -> ensure_one s t = s.
Proof.
  intros s t Ha Hm; unfold ensure_one.
  destruct (panicked s); [reflexivity|]. destruct (memn t (running s)); [reflexivity|].
  apply seqb_neq in Ha. rewrite Ha. unfold ensure_rest. rewrite Hm. repeat des_if; reflexivity.
Qed.

