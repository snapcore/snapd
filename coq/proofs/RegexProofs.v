(* Soundness and completeness of the derivative matcher of lib/Regex.v with respect to the usual denotational
   semantics `lang` (`rmatch_lang`), plus the inversion/characterisation lemmas the property proofs use (C24, C27). *)
From Coq Require Import List NArith Bool Lia.
Import ListNotations.
Require Import V.lib.Bytes V.lib.Regex V.proofs.ListFacts.
Open Scope N_scope.

Inductive lang : regex -> bytes -> Prop :=
| L_eps : lang Eps []
| L_cls rs c : in_ranges c rs = true -> lang (Cls rs) [c]
| L_cat a b s1 s2 : lang a s1 -> lang b s2 -> lang (Cat a b) (s1 ++ s2)
| L_altl a b s : lang a s -> lang (Alt a b) s
| L_altr a b s : lang b s -> lang (Alt a b) s
| L_star0 a : lang (Star a) []
| L_stars a s1 s2 : lang a s1 -> lang (Star a) s2 -> lang (Star a) (s1 ++ s2).

Lemma lang_empty_inv s : lang Empty s <-> False.
Proof. split; intros H; inversion H. Qed.

Lemma lang_eps_inv s : lang Eps s <-> s = [].
Proof. split; intros H; [inversion H; reflexivity | subst; constructor]. Qed.

Lemma lang_cls_inv rs s : lang (Cls rs) s <-> exists c, s = [c] /\ in_ranges c rs = true.
Proof.
  split; intros H.
  - inversion H; subst. eexists; split; [reflexivity | assumption].
  - destruct H as (c & -> & H). constructor; assumption.
Qed.

Lemma lang_cat_inv a b s : lang (Cat a b) s <-> exists s1 s2, s = s1 ++ s2 /\ lang a s1 /\ lang b s2.
Proof.
  split; intros H.
  - inversion H; subst. do 2 eexists; split; [reflexivity | split; assumption].
  - destruct H as (s1 & s2 & -> & H1 & H2). constructor; assumption.
Qed.

Lemma lang_cat_assoc a b c s : lang (Cat (Cat a b) c) s <-> lang (Cat a (Cat b c)) s.
Proof.
  rewrite !lang_cat_inv. split.
  - intros (s12 & s3 & -> & H12 & H3). apply lang_cat_inv in H12 as (s1 & s2 & -> & H1 & H2).
    exists s1, (s2 ++ s3). rewrite app_assoc. repeat split; [exact H1 | constructor; assumption].
  - intros (s1 & s23 & -> & H1 & H23). apply lang_cat_inv in H23 as (s2 & s3 & -> & H2 & H3).
    exists (s1 ++ s2), s3. rewrite app_assoc. repeat split; [constructor; assumption | exact H3].
Qed.

Lemma lang_alt_inv a b s : lang (Alt a b) s <-> lang a s \/ lang b s.
Proof.
  split; intros H.
  - inversion H; subst; [left | right]; assumption.
  - destruct H; [apply L_altl | apply L_altr]; assumption.
Qed.

Lemma lang_opt_inv r s : lang (Opt r) s <-> s = [] \/ lang r s.
Proof. unfold Opt. rewrite lang_alt_inv, lang_eps_inv. reflexivity. Qed.

Lemma star_ind' a (P : bytes -> Prop) :
  P [] -> (forall s1 s2, lang a s1 -> lang (Star a) s2 -> P s2 -> P (s1 ++ s2)) ->
  forall s, lang (Star a) s -> P s.
Proof.
  intros H0 Hs s H. remember (Star a) as r eqn:E.
  induction H; try discriminate.
  - assumption.
  - injection E as ->. apply Hs; auto.
Qed.

Lemma lang_star_app a s1 s2 : lang (Star a) s1 -> lang (Star a) s2 -> lang (Star a) (s1 ++ s2).
Proof.
  intros H1 H2. revert s1 H1. apply star_ind'.
  - assumption.
  - intros x y Hx Hy IH. rewrite <- app_assoc. constructor; assumption.
Qed.

Lemma lang_star_one a s : lang a s -> lang (Star a) s.
Proof. intros H. rewrite <- (app_nil_r s). constructor; [assumption | constructor]. Qed.

Lemma lang_star_cons_inv a c s :
  lang (Star a) (c :: s) -> exists s1 s2, s = s1 ++ s2 /\ lang a (c :: s1) /\ lang (Star a) s2.
Proof.
  intros H. remember (c :: s) as t eqn:Et. revert c s Et.
  pattern t. revert t H. apply star_ind'.
  - intros; discriminate.
  - intros s1 s2 H1 H2 IH c s Et. destruct s1 as [|x s1].
    + cbn in Et. apply IH; assumption.
    + cbn in Et. injection Et as -> <-. exists s1, s2. auto.
Qed.

Lemma ranges_eqb_eq a : forall b, ranges_eqb a b = true -> a = b.
Proof.
  induction a as [|[l h] a IH]; intros [|[l' h'] b]; cbn; try discriminate; auto.
  intros H. apply andb_true_iff in H as [H H3]. apply andb_true_iff in H as [H1 H2].
  apply N.eqb_eq in H1. apply N.eqb_eq in H2. subst. f_equal. auto.
Qed.

Lemma req_eq a : forall b, req a b = true -> a = b.
Proof.
  induction a; intros b0; destruct b0; cbn; try discriminate; intros H; auto.
  - f_equal. apply ranges_eqb_eq; assumption.
  - apply andb_true_iff in H as [H1 H2]. f_equal; auto.
  - apply andb_true_iff in H as [H1 H2]. f_equal; auto.
  - f_equal; auto.
Qed.

Lemma cat_empty_l b s : lang (Cat Empty b) s <-> False.
Proof. rewrite lang_cat_inv. split; [intros (s1 & s2 & _ & H & _); inversion H | tauto]. Qed.
Lemma cat_empty_r a s : lang (Cat a Empty) s <-> False.
Proof. rewrite lang_cat_inv. split; [intros (s1 & s2 & _ & _ & H); inversion H | tauto]. Qed.
Lemma cat_eps_l b s : lang (Cat Eps b) s <-> lang b s.
Proof.
  rewrite lang_cat_inv. split.
  - intros (s1 & s2 & -> & H1 & H2). apply lang_eps_inv in H1. subst. assumption.
  - intros H. exists [], s. repeat split; [constructor | assumption].
Qed.
Lemma cat_eps_r a s : lang (Cat a Eps) s <-> lang a s.
Proof.
  rewrite lang_cat_inv. split.
  - intros (s1 & s2 & -> & H1 & H2). apply lang_eps_inv in H2. subst. rewrite app_nil_r. assumption.
  - intros H. exists s, []. rewrite app_nil_r. repeat split; [assumption | constructor].
Qed.

Lemma lang_cat a b s : lang (cat a b) s <-> lang (Cat a b) s.
Proof.
  destruct a; cbn [cat]; rewrite ?cat_empty_l, ?cat_eps_l, ?lang_empty_inv; try reflexivity;
    destruct b; rewrite ?cat_empty_r, ?cat_eps_r, ?lang_empty_inv; reflexivity.
Qed.

Lemma alt_mem_lang x s : forall y, alt_mem x y = true -> lang x s -> lang y s.
Proof.
  induction y; cbn [alt_mem]; intros H Hx;
    try (apply req_eq in H; subst; assumption).
  apply orb_true_iff in H as [H | H].
  - apply req_eq in H; subst. apply L_altl; assumption.
  - apply L_altr. apply IHy2; assumption.
Qed.

Lemma lang_alt a b s : lang (alt a b) s <-> lang a s \/ lang b s.
Proof.
  assert (G : forall a b, lang (if alt_mem a b then b else Alt a b) s <-> lang a s \/ lang b s).
  { intros a0 b0. destruct (alt_mem a0 b0) eqn:E.
    - split; [tauto | intros [H | H]; [eapply alt_mem_lang; eassumption | assumption]].
    - apply lang_alt_inv. }
  destruct a; cbn [alt]; rewrite ?lang_empty_inv; try tauto;
    destruct b; rewrite ?lang_empty_inv; try tauto; apply G.
Qed.

Lemma nullable_lang r : nullable r = true <-> lang r [].
Proof.
  induction r; cbn [nullable].
  - rewrite lang_empty_inv. split; [discriminate | tauto].
  - split; [constructor | reflexivity].
  - rewrite lang_cls_inv. split; [discriminate | intros (c & H & _); discriminate].
  - rewrite andb_true_iff, IHr1, IHr2, lang_cat_inv. split.
    + intros [H1 H2]. exists [], []. auto.
    + intros (s1 & s2 & E & H1 & H2). symmetry in E. apply app_eq_nil in E as [-> ->]. auto.
  - rewrite orb_true_iff, IHr1, IHr2, lang_alt_inv. reflexivity.
  - split; [constructor | reflexivity].
Qed.

Lemma lang_cat_cons a b c s :
  lang (Cat a b) (c :: s) <->
  (exists s1 s2, s = s1 ++ s2 /\ lang a (c :: s1) /\ lang b s2) \/ (lang a [] /\ lang b (c :: s)).
Proof.
  rewrite lang_cat_inv. split.
  - intros (s1 & s2 & E & H1 & H2). destruct s1 as [|x s1]; cbn in E.
    + right. subst. auto.
    + left. injection E as -> ->. exists s1, s2. auto.
  - intros [(s1 & s2 & -> & H1 & H2) | [H1 H2]].
    + exists (c :: s1), s2. auto.
    + exists [], (c :: s). auto.
Qed.

(* the shape of every derivative of a concatenation: what the left factor accepts is known, the right one is kept *)
Lemma lang_cat_left a b (P : bytes -> Prop) s :
  (forall t, lang a t <-> P t) -> lang (cat a b) s <-> exists s1 s2, s = s1 ++ s2 /\ P s1 /\ lang b s2.
Proof.
  intros H. rewrite lang_cat, lang_cat_inv.
  split; intros (s1 & s2 & E & H1 & H2); exists s1, s2; apply H in H1; auto.
Qed.

Lemma deriv_lang r : forall c s, lang (deriv c r) s <-> lang r (c :: s).
Proof.
  induction r; intros c s; cbn [deriv].
  - rewrite !lang_empty_inv. reflexivity.
  - rewrite lang_empty_inv, lang_eps_inv. split; [tauto | discriminate].
  - rewrite lang_cls_inv. destruct (in_ranges c rs) eqn:E.
    + rewrite lang_eps_inv. split.
      * intros ->. exists c. auto.
      * intros (x & H & _). injection H as _ ->. reflexivity.
    + rewrite lang_empty_inv. split; [tauto |].
      intros (x & H & Hx). injection H as -> _. congruence.
  - rewrite lang_cat_cons, <- nullable_lang, <- IHr2.
    destruct (nullable r1); rewrite ?lang_alt, (lang_cat_left _ _ _ _ (IHr1 c)); [tauto |].
    split; [tauto | intros [H | [H _]]; [exact H | discriminate]].
  - rewrite lang_alt, !lang_alt_inv, IHr1, IHr2. reflexivity.
  - rewrite (lang_cat_left _ _ _ _ (IHr c)). split; [| apply lang_star_cons_inv].
    intros (s1 & s2 & -> & H1 & H2). change (c :: s1 ++ s2) with ((c :: s1) ++ s2). constructor; assumption.
Qed.

Theorem rmatch_lang : forall s r, rmatch r s = true <-> lang r s.
Proof.
  induction s as [|c s IH]; intros r; cbn [rmatch].
  - apply nullable_lang.
  - rewrite IH. apply deriv_lang.
Qed.

Corollary rmatch_false_lang r s : rmatch r s = false <-> ~ lang r s.
Proof. rewrite <- rmatch_lang. symmetry. apply not_true_iff_false. Qed.

Lemma rmatch_ext r1 r2 : (forall s, lang r1 s <-> lang r2 s) -> forall s, rmatch r1 s = rmatch r2 s.
Proof. intros H s. apply eq_true_iff_eq. rewrite !rmatch_lang. apply H. Qed.

Lemma rmatch_char r (f : bytes -> bool) : (forall s, lang r s <-> f s = true) -> forall s, rmatch r s = f s.
Proof. intros H s. apply eq_true_iff_eq. rewrite rmatch_lang. apply H. Qed.

Lemma in_ranges_single c x : in_ranges x [(c, c)] = true <-> x = c.
Proof. cbn. rewrite orb_false_r, andb_true_iff, !N.leb_le. lia. Qed.

Lemma lang_cls_cat rs r s :
  lang (Cat (Cls rs) r) s <-> match s with c :: t => in_ranges c rs = true /\ lang r t | [] => False end.
Proof.
  rewrite lang_cat_inv. split.
  - intros (s1 & s2 & -> & H1 & H2). apply lang_cls_inv in H1 as (c & -> & Hc). cbn. auto.
  - destruct s as [|c t]; [tauto |]. intros [Hc Ht]. exists [c], t. repeat split; [constructor |]; assumption.
Qed.

Lemma lang_chr c s : lang (Chr c) s <-> s = [c].
Proof.
  unfold Chr. rewrite lang_cls_inv. split.
  - intros (x & -> & H). apply in_ranges_single in H. subst. reflexivity.
  - intros ->. exists c. split; [reflexivity | apply in_ranges_single; reflexivity].
Qed.

Lemma lang_lit l : forall s, lang (Lit l) s <-> s = l.
Proof.
  induction l as [|c l IH]; intros s; cbn [Lit].
  - apply lang_eps_inv.
  - unfold Chr. rewrite lang_cls_cat. destruct s as [|x s]; [split; [tauto | discriminate] |].
    rewrite in_ranges_single, IH. split; [intros [-> ->]; reflexivity | intros [= -> ->]; auto].
Qed.

Lemma lang_lit_cat l r s : lang (Cat (Lit l) r) s <-> exists t, s = l ++ t /\ lang r t.
Proof.
  rewrite lang_cat_inv. split.
  - intros (s1 & s2 & -> & H1 & H2). apply lang_lit in H1. subst s1. eauto.
  - intros (t & -> & H). exists l, t. repeat split; [apply lang_lit; reflexivity | exact H].
Qed.

Lemma lang_star_cls rs s : lang (Star (Cls rs)) s <-> forallb (fun c => in_ranges c rs) s = true.
Proof.
  split.
  - revert s. apply star_ind'; [reflexivity |].
    intros s1 s2 H1 _ IH. apply lang_cls_inv in H1 as (c & -> & Hc). cbn. rewrite Hc, IH. reflexivity.
  - induction s as [|c s IH]; cbn; intros H; [constructor |].
    apply andb_true_iff in H as [Hc Hs]. change (c :: s) with ([c] ++ s).
    constructor; [constructor; assumption | auto].
Qed.

Lemma lang_rep_opt_cls rs k : forall s,
  lang (rep_opt k (Cls rs)) s <-> (length s <= k)%nat /\ forallb (fun c => in_ranges c rs) s = true.
Proof.
  induction k as [|k IH]; intros s; cbn [rep_opt].
  - rewrite lang_eps_inv. destruct s; cbn; split; try discriminate; intuition lia.
  - rewrite lang_opt_inv, lang_cls_cat. destruct s as [|c s]; cbn [length forallb].
    + split; [intros _; split; [lia | reflexivity] | left; reflexivity].
    + rewrite IH, andb_true_iff. split; [intros [H | H]; [discriminate | intuition lia] | right; intuition lia].
Qed.

Lemma lang_rep_cls rs lo extra : forall s,
  lang (rep lo extra (Cls rs)) s <->
  (lo <= length s <= lo + extra)%nat /\ forallb (fun c => in_ranges c rs) s = true.
Proof.
  induction lo as [|lo IH]; intros s; cbn [rep].
  - rewrite lang_rep_opt_cls. intuition lia.
  - rewrite lang_cls_cat. destruct s as [|c s]; cbn [length forallb]; [lia |].
    rewrite IH, andb_true_iff. intuition lia.
Qed.

Lemma lang_star_class rs (p : N -> bool) s :
  (forall c, in_ranges c rs = p c) -> lang (Star (Cls rs)) s <-> forallb p s = true.
Proof. intros H. rewrite lang_star_cls, (forallb_ext_in _ p s (fun c _ => H c)). reflexivity. Qed.

Lemma lang_rep_class rs (p : N -> bool) lo extra s :
  (forall c, in_ranges c rs = p c) ->
  lang (rep lo extra (Cls rs)) s <-> (lo <= length s <= lo + extra)%nat /\ forallb p s = true.
Proof. intros H. rewrite lang_rep_cls, (forallb_ext_in _ p s (fun c _ => H c)). reflexivity. Qed.

(* no byte class of the expression contains x: a syntactic test, decided by evaluation on a given expression *)
Fixpoint avoids (x : N) (r : regex) : bool :=
  match r with
  | Empty | Eps => true
  | Cls rs => negb (in_ranges x rs)
  | Cat a b | Alt a b => avoids x a && avoids x b
  | Star a => avoids x a
  end.

Lemma lang_avoids x r s : lang r s -> avoids x r = true -> forallb (fun c => negb (c =? x)) s = true.
Proof.
  induction 1; cbn [avoids]; intros Hn; try reflexivity.
  - cbn. rewrite andb_true_r. destruct (N.eqb_spec c x) as [-> |]; [| reflexivity].
    apply negb_true_iff in Hn. congruence.
  - apply andb_true_iff in Hn as [H1 H2]. rewrite forallb_app, IHlang1, IHlang2; auto.
  - apply andb_true_iff in Hn as [H1 _]. auto.
  - apply andb_true_iff in Hn as [_ H2]. auto.
  - rewrite forallb_app, IHlang1, IHlang2; auto.
Qed.
