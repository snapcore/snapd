(* About models/TaskEngine.v, the abort recursion. abort_loop_ind (the worklist loop of abortTasks) and abort_lanes_ind (the
   abortLanes / abortTasks nesting) carry the termination measures mu and nu, so that nothing proved with them mentions fuel.
   With them: the fuel flag oof stays false in every execution (oof_never); an abort sweeps a set of tasks that is closed under
   halt edges, leaves every swept task dead and touches nothing else (abort_lanes_top_swept, abort_change_swept). *)
From Coq Require Import List Bool Arith Lia.
Import ListNotations.
Require Import V.models.TaskEngine V.proofs.TaskEngineProofs.

Definition edges (tk : task) : list nat * list nat * list nat := (t_waits tk, t_halts tk, t_lanes tk).
Definition graph (s : state) : list (list nat * list nat * list nat) := map edges (tasks s).

Lemma graph_nth : forall s t, nth t (graph s) ([], [], []) = edges (get s t).
Proof. intros. unfold graph, get. change ([], [], []) with (edges dummy). apply map_nth. Qed.

Lemma graph_get : forall s s' t, graph s' = graph s ->
  t_waits (get s' t) = t_waits (get s t) /\ t_halts (get s' t) = t_halts (get s t) /\
  lanes_of (get s' t) = lanes_of (get s t).
Proof.
  intros s s' t E. pose proof (graph_nth s t) as A. rewrite <- E, graph_nth in A. unfold lanes_of.
  injection A as -> -> ->. auto.
Qed.

Lemma graph_len : forall s s', graph s' = graph s -> length (tasks s') = length (tasks s).
Proof. intros s s' E. apply (f_equal (@length _)) in E. unfold graph in E. rewrite !map_length in E. exact E. Qed.

Lemma graph_tasks_eq : forall s s', tasks s' = tasks s -> graph s' = graph s.
Proof. intros s s' E. unfold graph. rewrite E. reflexivity. Qed.

Lemma graph_upd : forall s t f, (forall tk, edges (f tk) = edges tk) -> graph (with_tasks s (upd (tasks s) t f)) = graph s.
Proof. intros. apply map_upd_proj. assumption. Qed.

Lemma graph_change_st : forall s t nw, graph (change_st s t nw) = graph s.
Proof. intros. unfold graph. rewrite tasks_change_st. des_if; [reflexivity | apply graph_upd; reflexivity]. Qed.

Lemma graph_set_status : forall s t nw, graph (set_status s t nw) = graph s.
Proof.
  intros. destruct (tasks_set_status_cases s t nw) as [E|E]; rewrite (graph_tasks_eq _ _ E); [|apply graph_upd]; reflexivity.
Qed.

Lemma graph_abort_write : forall s t, graph (abort_write s t) = graph s.
Proof. intros. rewrite abort_write_eq. destruct (abort_to _); [apply graph_upd|]; reflexivity. Qed.

Lemma graph_abort_lanes_top : forall s lanes, graph (abort_lanes_top s lanes) = graph s.
Proof.
  intros. unfold abort_lanes_top. rewrite (graph_tasks_eq _ _ (tasks_ready_detect _)).
  apply (abort_lanes_P (fun x => graph x = graph s)); auto. intros s0 t H; rewrite graph_abort_write; assumption.
Qed.

Lemma graph_abort_change : forall s, graph (abort_change s) = graph s.
Proof.
  intros. unfold abort_change. rewrite (graph_tasks_eq _ _ (tasks_ready_detect _)).
  apply (abort_tasks_P (fun x => graph x = graph s)); auto. intros s0 t H; rewrite graph_abort_write; assumption.
Qed.

Lemma graph_try_undo : forall s t, graph (try_undo s t) = graph s.
Proof. intros. unfold try_undo. des_if; apply graph_set_status. Qed.

Lemma graph_move : forall s e s', move s e s' -> graph s' = graph s.
Proof.
  intros s e s' M. destruct M.
  - apply graph_try_undo.
  - apply graph_set_status.
  - rewrite run_eq. unfold launch. cbn [with_slog with_running]. etransitivity; [apply graph_upd; reflexivity|].
    unfold run_write. destruct (st s t); auto using graph_set_status.
  - apply (graph_set_status (remove_running s t)).
  - reflexivity.
  - apply (graph_try_undo (remove_running s t)).
  - apply (graph_upd (remove_running s t)). reflexivity.
  - rewrite set_to_wait_eq, graph_change_st by assumption. apply (graph_upd (remove_running s t)). reflexivity.
  - rewrite graph_set_status. apply (graph_abort_lanes_top (remove_running s t)).
  - apply graph_abort_change.
  - reflexivity.
  - apply graph_set_status.
Qed.

Lemma graph_step : forall s e, graph (step s e) = graph s.
Proof. intros s e. apply (step_ind (fun x => graph x = graph s)); [|reflexivity]. intros x x' M H. rewrite (graph_move _ _ _ M). exact H. Qed.

Lemma graph_run_events : forall es s, graph (run_events s es) = graph s.
Proof. intros es s. apply (run_events_ind (fun x => graph x = graph s)); [|reflexivity]. intros x e H. rewrite graph_step. exact H. Qed.

Lemma filter_length_le : forall (A : Type) (p : A -> bool) (l : list A), length (filter p l) <= length l.
Proof. induction l as [|a l IH]; simpl; [lia|]. destruct (p a); simpl; lia. Qed.

Lemma filter_length_mono : forall (A : Type) (p p' : A -> bool) (l : list A),
  (forall x, p x = true -> p' x = true) -> length (filter p l) <= length (filter p' l).
Proof.
  induction l as [|a l IH]; simpl; intros H; [lia|]. specialize (IH H).
  destruct (p a) eqn:E; [rewrite (H a E); simpl; lia|]. destruct (p' a); simpl; lia.
Qed.

Lemma filter_length_lt : forall (A : Type) (p p' : A -> bool) (l : list A) x,
  (forall y, p' y = true -> p y = true) -> In x l -> p x = true -> p' x = false ->
  length (filter p' l) < length (filter p l).
Proof.
  induction l as [|a l IH]; intros x Himp Hin Hp Hp'; [destruct Hin|].
  pose proof (filter_length_mono A p' p l Himp) as Le.
  simpl. destruct Hin as [<-|Hin].
  - rewrite Hp, Hp'. simpl. lia.
  - specialize (IH x Himp Hin Hp Hp'). destruct (p' a) eqn:E; [rewrite (Himp a E); simpl; lia|].
    destruct (p a); simpl; lia.
Qed.

(* weight of the unseen tasks, computed on the (constant) graph *)
Fixpoint wsum (sh : list (list nat * list nat * list nat)) (i : nat) (seen : list nat) : nat :=
  match sh with
  | [] => 0
  | x :: r => (if memn i seen then 0 else S (length (snd (fst x)))) + wsum r (S i) seen
  end.

Lemma wsum_le : forall sh i seen t, wsum sh i (t :: seen) <= wsum sh i seen.
Proof.
  induction sh as [|x r IH]; intros i seen t; simpl; [lia|].
  specialize (IH (S i) seen t). destruct (Nat.eqb i t); simpl; destruct (memn i seen); lia.
Qed.

Lemma wsum_drop : forall sh i seen t,
  i <= t -> t < i + length sh -> memn t seen = false ->
  wsum sh i (t :: seen) + S (length (snd (fst (nth (t - i) sh ([], [], []))))) <= wsum sh i seen.
Proof.
  induction sh as [|x r IH]; intros i seen t Hi Hl Hs; [exfalso; simpl in Hl; lia|].
  simpl in *. destruct (Nat.eq_dec i t) as [->|N].
  - rewrite Nat.eqb_refl, Hs, Nat.sub_diag. simpl. pose proof (wsum_le r (S t) seen t). lia.
  - assert (E : Nat.eqb i t = false) by (apply Nat.eqb_neq; assumption). rewrite E. simpl.
    replace (t - i) with (S (t - S i)) by lia. simpl.
    assert (A1 : S i <= t) by lia. assert (A2 : t < S i + length r) by lia.
    specialize (IH (S i) seen t A1 A2 Hs). destruct (memn i seen); lia.
Qed.

Definition hw (tk : task) (a : nat) : nat := S (length (t_halts tk)) + a.

Lemma wsum_total : forall l i seen, wsum (map edges l) i seen <= fold_right hw 0 l.
Proof.
  induction l as [|tk l IH]; intros i seen; [simpl; lia|].
  cbn [map wsum fold_right]. change (snd (fst (edges tk))) with (t_halts tk). unfold hw at 1.
  specialize (IH (S i) seen). destruct (memn i seen); lia.
Qed.

Definition mu (s : state) (seen wl : list nat) : nat := length wl + wsum (graph s) 0 seen.

Lemma mu_skip : forall s seen t rest, mu s seen rest < mu s seen (t :: rest).
Proof. intros. unfold mu. simpl. lia. Qed.

Lemma mu_visit : forall s seen t rest, memn t seen = false ->
  mu (abort_write s t) (t :: seen) (rest ++ filter (fun h => negb (memn h (t :: seen))) (t_halts (get s t)))
  < mu s seen (t :: rest).
Proof.
  intros s seen t rest Em. unfold mu. rewrite graph_abort_write, app_length. cbn [length].
  pose proof (filter_length_le _ (fun h => negb (memn h (t :: seen))) (t_halts (get s t))) as Hf.
  destruct (Nat.lt_ge_cases t (length (graph s))) as [L|L].
  - pose proof (wsum_drop (graph s) 0 seen t (Nat.le_0_l t) L Em) as Hd.
    rewrite Nat.sub_0_r, graph_nth in Hd. cbn [edges fst snd] in Hd. lia.
  - assert (E : t_halts (get s t) = []).
    { unfold get. rewrite nth_overflow; [reflexivity|]. unfold graph in L. rewrite map_length in L. assumption. }
    rewrite E in *. simpl in *. pose proof (wsum_le (graph s) 0 seen t). lia.
Qed.

Lemma loop_fuel_enough : forall s wl seen, mu s seen wl < loop_fuel s wl.
Proof.
  intros. unfold mu, loop_fuel, graph.
  change (fold_right (fun tk a => S (length (t_halts tk)) + a) 0 (tasks s)) with (fold_right hw 0 (tasks s)).
  pose proof (wsum_total (tasks s) 0 seen). lia.
Qed.

(* induction over the loop: Q relates the state, the tasks seen, the worklist and the lanes collected *)
Section AbortLoop.
  Variable al : list nat.
  Variable Q : state -> list nat -> list nat -> list nat -> Prop.
  Hypothesis Q_skip : forall s seen t rest lanes,
    memn t seen = true -> Q s seen (t :: rest) lanes -> Q s seen rest lanes.
  Hypothesis Q_visit : forall s seen t rest lanes,
    memn t seen = false -> Q s seen (t :: rest) lanes ->
    Q (abort_write s t) (t :: seen) (rest ++ filter (fun h => negb (memn h (t :: seen))) (t_halts (get s t)))
      (lanes ++ extra_lanes (get s t) al).

  Lemma abort_loop_ind : forall f wl seen s lanes, mu s seen wl < f -> Q s seen wl lanes ->
    let '(s', seen', lanes') := abort_loop f wl al seen s lanes in Q s' seen' [] lanes'.
  Proof.
    induction f; intros wl seen s lanes Hf H; [lia|].
    destruct wl as [|t rest]; [exact H|].
    rewrite abort_loop_S. destruct (memn t seen) eqn:Em; apply IHf.
    - pose proof (mu_skip s seen t rest). lia.
    - eapply Q_skip; eauto.
    - pose proof (mu_visit s seen t rest Em). lia.
    - apply Q_visit; assumption.
  Qed.
End AbortLoop.

Definition univ (s : state) : list nat := 0 :: flat_map lanes_of (tasks s).
Definition nu (s : state) (al : list nat) : nat := length (filter (fun x => negb (memn x al)) (univ s)).

Lemma univ_graph : forall s s', graph s' = graph s -> univ s' = univ s.
Proof.
  intros s s' E. unfold univ. f_equal.
  assert (X : forall l, flat_map lanes_of l = flat_map (fun e => match snd e with [] => [0] | ls => ls end) (map edges l)).
  { induction l; simpl; [reflexivity|]. rewrite IHl. reflexivity. }
  rewrite !X. exact (f_equal _ E).
Qed.

Lemma lanes_in_univ : forall s t x, In x (lanes_of (get s t)) -> In x (univ s).
Proof.
  intros s t x H. unfold univ, get in *.
  destruct (Nat.lt_ge_cases t (length (tasks s))) as [L|L].
  - right. apply in_flat_map. exists (nth t (tasks s) dummy). split; [apply nth_In; assumption | assumption].
  - rewrite nth_overflow in H by assumption. destruct H as [<-|[]]. left; reflexivity.
Qed.

(* what the loop collects: a non-empty lane list contains a lane of the universe that was not yet aborted *)
Definition fresh_lane (s : state) (al lanes : list nat) : Prop :=
  lanes = [] \/ exists x, In x lanes /\ In x (univ s) /\ memn x al = false.

Lemma flat_map_all_in : forall (al L l : list nat),
  (forall x, In x l -> memn x al = true) -> flat_map (fun x => if memn x al then [] else L) l = [].
Proof.
  induction l as [|a l IH]; intros H; simpl; [reflexivity|].
  rewrite H by (left; reflexivity). simpl. apply IH. intros x Hx. apply H. right; assumption.
Qed.

Lemma extra_lanes_fresh : forall s t al, fresh_lane s al (extra_lanes (get s t) al).
Proof.
  intros s t al. unfold fresh_lane, extra_lanes.
  destruct (existsb (fun x => negb (memn x al)) (lanes_of (get s t))) eqn:E.
  - right. apply existsb_exists in E. destruct E as (x & Hx & Hn). apply negb_true_iff in Hn.
    exists x. split; [|split; [eapply lanes_in_univ; eauto | assumption]].
    apply in_flat_map. exists x. split; [assumption|]. rewrite Hn. assumption.
  - left. apply flat_map_all_in. intros x Hx. destruct (memn x al) eqn:Em; [reflexivity|].
    assert (F : existsb (fun x => negb (memn x al)) (lanes_of (get s t)) = true)
      by (apply existsb_exists; exists x; split; [assumption | rewrite Em; reflexivity]). congruence.
Qed.

Lemma abort_loop_book : forall wl al seen s,
  let '(s', seen', lanes) := abort_loop (loop_fuel s wl) wl al seen s [] in
  graph s' = graph s /\ fresh_lane s al lanes /\ forall x, In x seen \/ In x wl -> In x seen'.
Proof.
  intros wl al seen s.
  pose (Q := fun s' sn w lanes => graph s' = graph s /\ fresh_lane s al lanes /\
                                  forall x, In x seen \/ In x wl -> In x sn \/ In x w).
  assert (H : let '(s', sn, lanes) := abort_loop (loop_fuel s wl) wl al seen s [] in Q s' sn [] lanes).
  - apply (abort_loop_ind al Q).
    + intros s0 sn t rest lanes Em (G & F & K). repeat split; auto.
      intros x Hx. destruct (K x Hx) as [A|[<-|A]]; auto. left; apply memn_In; assumption.
    + intros s0 sn t rest lanes _ (G & F & K). split; [rewrite graph_abort_write; assumption|]. split.
      * destruct F as [->|(x & Hx & Hu & Hm)].
        -- unfold fresh_lane. rewrite <- (univ_graph _ _ G). apply extra_lanes_fresh.
        -- right. exists x. split; [apply in_or_app; left; assumption | split; assumption].
      * intros x Hx. destruct (K x Hx) as [A|[<-|A]]; [left; right | left; left | right; apply in_or_app; left]; auto.
    + apply loop_fuel_enough.
    + split; [reflexivity | split; [left; reflexivity | auto]].
  - destruct (abort_loop _ _ _ _ _ _) as [[s' sn] lanes]. destruct H as (G & F & K). repeat split; auto.
    intros x Hx. destruct (K x Hx) as [A|[]]. exact A.
Qed.

Lemma nu_shrinks : forall s al lanes,
  (exists x, In x lanes /\ In x (univ s) /\ memn x al = false) -> nu s (lanes ++ al) < nu s al.
Proof.
  intros s al lanes (x & Hx & Hu & Hm). unfold nu.
  apply filter_length_lt with x; auto.
  - intros y Hy. apply negb_true_iff in Hy. apply negb_true_iff.
    destruct (memn y al) eqn:E; [|reflexivity]. apply memn_In in E.
    assert (F : memn y (lanes ++ al) = true) by (apply memn_In, in_or_app; right; assumption). congruence.
  - rewrite Hm; reflexivity.
  - apply negb_false_iff, memn_In, in_or_app. left; assumption.
Qed.

Lemma nu_mono : forall s al kill, nu s (kill ++ al) <= nu s al.
Proof.
  intros. unfold nu. induction (univ s) as [|a l IH]; simpl; [lia|].
  destruct (memn a al) eqn:E.
  - assert (F : memn a (kill ++ al) = true) by (apply memn_In, in_or_app; right; apply memn_In; assumption).
    rewrite F. simpl. assumption.
  - simpl. destruct (memn a (kill ++ al)); simpl; lia.
Qed.

Lemma nu_nil : forall s, nu s [] < depth_fuel s.
Proof.
  intros. unfold nu, depth_fuel, univ. simpl.
  pose proof (filter_length_le _ (fun _ : nat => true) (flat_map lanes_of (tasks s))). simpl in *. lia.
Qed.

(* induction over the nesting: G relates the state and the tasks seen so far, between calls and at the end; the set
   of seen tasks only grows and takes in every task an abortLanes call selects and the worklist of abortTasks *)
Section AbortLanes.
  Variable G : state -> list nat -> Prop.
  Hypothesis G_loop : forall wl al seen s, G s seen ->
    let '(s', seen', _) := abort_loop (loop_fuel s wl) wl al seen s [] in G s' seen'.
  Hypothesis G_detect : forall s seen, G s seen -> G (ready_detect s) seen.

  (* what both recursions do: the loop, then abortLanes on the lanes it collected *)
  Lemma abort_cont_ind : forall d,
    (forall kill al seen s, nu s (kill ++ al) < d -> G s seen ->
       exists seen', G (abort_lanes d kill al seen s) seen' /\
                     forall x, In x seen \/ In x (select_abort (tasks s) kill) -> In x seen') ->
    forall wl al seen s,
    (forall lanes, (exists x, In x lanes /\ In x (univ s) /\ memn x al = false) -> nu s (lanes ++ al) < d) -> G s seen ->
    exists seen', G (abort_cont d al (abort_loop (loop_fuel s wl) wl al seen s [])) seen' /\
                  forall x, In x seen \/ In x wl -> In x seen'.
  Proof.
    intros d IH wl al seen s Hd H.
    pose proof (G_loop wl al seen s H) as H1. pose proof (abort_loop_book wl al seen s) as B1.
    destruct (abort_loop _ _ _ _ _ _) as [[s1 seen1] lanes]; cbn [abort_cont]. destruct B1 as (G1 & F & S1).
    destruct lanes as [|l0 lanes]; [exists seen1; auto|]. destruct F as [F|F]; [discriminate|].
    destruct (IH (l0 :: lanes) al seen1 s1) as (sF & HF & SF); [|assumption|].
    - unfold nu. rewrite (univ_graph _ _ G1). exact (Hd _ F).
    - exists sF. split; [assumption|]. intros x Hx. apply SF. left. apply S1. assumption.
  Qed.

  Lemma abort_lanes_ind : forall d kill al seen s, nu s (kill ++ al) < d -> G s seen ->
    exists seen', G (abort_lanes d kill al seen s) seen' /\
                  forall x, In x seen \/ In x (select_abort (tasks s) kill) -> In x seen'.
  Proof.
    induction d; intros kill al seen s Hd H; [lia|].
    rewrite abort_lanes_S. destruct (select_abort (tasks s) kill) eqn:Es.
    { exists seen. split; [assumption | intros x [A|[]]; assumption]. }
    rewrite <- Es. apply (abort_cont_ind d IHd); [|assumption].
    intros lanes F. pose proof (nu_shrinks s (kill ++ al) lanes F). lia.
  Qed.

  Lemma abort_tasks_ind : forall d wl al seen s, nu s al < d -> G s seen ->
    exists seen', G (abort_tasks d wl al seen s) seen' /\ forall x, In x seen \/ In x wl -> In x seen'.
  Proof.
    intros d wl al seen s Hd H. rewrite abort_tasks_eq. apply (abort_cont_ind d (abort_lanes_ind d)); [|assumption].
    intros lanes _. pose proof (nu_mono s al lanes). lia.
  Qed.

  (* Change.AbortLanes and Change.Abort: the fuel suffices *)
  Lemma abort_lanes_top_ind : forall s lanes, G s [] ->
    exists seen, G (abort_lanes_top s lanes) seen /\ forall x, In x (select_abort (tasks s) lanes) -> In x seen.
  Proof.
    intros s lanes H. destruct (abort_lanes_ind (depth_fuel s) lanes [] [] s) as (sF & HF & SF); [|assumption|].
    - pose proof (nu_mono s [] lanes). pose proof (nu_nil s). lia.
    - exists sF. split; [apply G_detect; assumption | auto].
  Qed.

  Lemma abort_change_ind : forall s, G s [] ->
    exists seen, G (abort_change s) seen /\ forall x, x < length (tasks s) -> In x seen.
  Proof.
    intros s H. destruct (abort_tasks_ind (depth_fuel s) (seq 0 (length (tasks s))) [] [] s (nu_nil s) H) as (sF & HF & SF).
    exists sF. split; [apply G_detect; assumption|]. intros x Hx. apply SF. right. apply in_seq. lia.
  Qed.
End AbortLanes.

Lemma oof_change_st : forall s t nw, oof (change_st s t nw) = oof s.
Proof. intros; unfold change_st, with_panicked, with_cready, with_tasks; repeat des_if; reflexivity. Qed.
Lemma oof_set_status : forall s t nw, oof (set_status s t nw) = oof s.
Proof. intros; unfold set_status; repeat des_if; auto using oof_change_st. Qed.
Lemma oof_set_to_wait : forall s t ws, oof (set_to_wait s t ws) = oof s.
Proof. intros; unfold set_to_wait; repeat des_if; auto. rewrite oof_change_st; reflexivity. Qed.
Lemma oof_try_undo : forall s t, oof (try_undo s t) = oof s.
Proof. intros; unfold try_undo; des_if; apply oof_set_status. Qed.
Lemma oof_ready_detect : forall s, oof (ready_detect s) = oof s.
Proof. intros; unfold ready_detect, with_cready, with_panicked; repeat des_if; reflexivity. Qed.
Lemma oof_abort_write : forall s t, oof (abort_write s t) = oof s.
Proof. intros. rewrite abort_write_eq. destruct (abort_to _); reflexivity. Qed.

Lemma get_abort_write_other : forall s t u, u <> t -> get (abort_write s t) u = get s u.
Proof.
  intros s t u N. rewrite abort_write_eq. destruct (abort_to _); [|reflexivity].
  unfold get, put; cbn [tasks with_tasks]. apply nth_upd_other. congruence.
Qed.

Lemma waited_abort_write : forall s t u, t_waited (get (abort_write s t) u) = t_waited (get s u).
Proof. intros. rewrite abort_write_eq. destruct (abort_to _); [apply (get_put _ t_waited)|]; reflexivity. Qed.

Lemma abort_write_dead : forall s t, is_live (get (abort_write s t) t) = false.
Proof.
  intros s t. rewrite abort_write_eq. destruct (abort_to (eff_status (get s t))) as [nw|] eqn:E.
  - assert (L : t < length (tasks s)).
    { destruct (Nat.lt_ge_cases t (length (tasks s))) as [L|L]; [assumption|].
      unfold get in E. rewrite nth_overflow in E by assumption. discriminate E. }
    unfold get, put; cbn [tasks with_tasks]. rewrite nth_upd_same by assumption.
    destruct (eff_status (get s t)); inversion E; reflexivity.
  - unfold is_live. destruct (eff_status (get s t)); try reflexivity; discriminate E.
Qed.

Section Within.
  Variable s : state.
  Variable R : nat -> Prop.
  Hypothesis R_halts : forall t h, R t -> In h (t_halts (get s t)) -> R h.

  Lemma abort_loop_within : forall wl al seen s0,
    graph s0 = graph s -> (forall t, In t wl -> R t) ->
    let '(s1, _, lanes) := abort_loop (loop_fuel s0 wl) wl al seen s0 [] in
    graph s1 = graph s /\ (forall u, ~ R u -> st s1 u = st s0 u) /\
    (forall x, In x lanes -> exists t, R t /\ In x (extra_lanes (get s t) al)).
  Proof.
    intros wl al seen s0 G Hw.
    pose (Q := fun s1 (_ w lanes : list nat) =>
            graph s1 = graph s /\ (forall t, In t w -> R t) /\ (forall u, ~ R u -> st s1 u = st s0 u) /\
            (forall x, In x lanes -> exists t, R t /\ In x (extra_lanes (get s t) al))).
    assert (H : let '(s1, sn, lanes) := abort_loop (loop_fuel s0 wl) wl al seen s0 [] in Q s1 sn [] lanes);
      [|destruct (abort_loop _ _ _ _ _ _) as [[s1 sn] lanes]; unfold Q in H; tauto].
    apply (abort_loop_ind al Q).
    - intros s1 sn t rest lanes _ (A & B & C & D). repeat split; auto. intros x Hx. apply B. right; assumption.
    - intros s1 sn t rest lanes _ (A & B & C & D).
      assert (Rt : R t) by (apply B; left; reflexivity). destruct (graph_get _ _ t A) as (_ & Eh & El).
      split; [rewrite graph_abort_write; exact A|]. split; [|split].
      + intros x Hx. apply in_app_or in Hx. destruct Hx as [Hx|Hx]; [apply B; right; assumption|].
        apply filter_In in Hx. destruct Hx as [Hx _]. rewrite Eh in Hx. eapply R_halts; eauto.
      + intros u Hu. rewrite <- (C u Hu). unfold st. rewrite get_abort_write_other; [reflexivity | intros ->; contradiction].
      + intros x Hx. apply in_app_or in Hx. destruct Hx as [Hx|Hx]; [auto|].
        exists t. split; [exact Rt|]. unfold extra_lanes in *. rewrite El in Hx. exact Hx.
    - apply loop_fuel_enough.
    - repeat split; auto. intros x [].
  Qed.
End Within.

(* relative to the state s0 before the abort: no fuel bound was hit, the tasks seen are dead, closed under halt edges
   up to the worklist, and the others are as they were *)
Definition sweeping (s0 s : state) (seen wl : list nat) : Prop :=
  oof s = oof s0 /\ graph s = graph s0 /\
  (forall u, t_waited (get s u) = t_waited (get s0 u)) /\
  (forall u, In u seen -> is_live (get s u) = false) /\
  (forall u, ~ In u seen -> get s u = get s0 u) /\
  (forall u h, In u seen -> In h (t_halts (get s0 u)) -> In h seen \/ In h wl).
Definition swept (s0 s : state) (seen : list nat) : Prop := sweeping s0 s seen [].

Lemma swept_oof : forall s0 s seen, swept s0 s seen -> oof s = oof s0.
Proof. intros s0 s seen (O & _). exact O. Qed.

Lemma swept_dead : forall s0 s seen u, swept s0 s seen -> In u seen -> is_live (get s u) = false.
Proof. intros s0 s seen u (_ & _ & _ & Dead & _). apply Dead. Qed.

Lemma swept_same : forall s0 s seen u, swept s0 s seen -> ~ In u seen -> get s u = get s0 u.
Proof. intros s0 s seen u (_ & _ & _ & _ & Same & _). apply Same. Qed.

Lemma swept_waited : forall s0 s seen u, swept s0 s seen -> t_waited (get s u) = t_waited (get s0 u).
Proof. intros s0 s seen u (_ & _ & Wd & _). apply Wd. Qed.

Lemma swept_closed : forall s0 s seen u h, swept s0 s seen -> In u seen -> In h (t_halts (get s0 u)) -> In h seen.
Proof. intros s0 s seen u h (_ & _ & _ & _ & _ & Closed) Hu Hh. destruct (Closed u h Hu Hh) as [H|[]]. exact H. Qed.

Section Swept.
  Variable s0 : state.

  Lemma sweeping_skip : forall s seen t rest, memn t seen = true -> sweeping s0 s seen (t :: rest) -> sweeping s0 s seen rest.
  Proof.
    intros s seen t rest Em (O & A & B & C & D & E). apply memn_In in Em. repeat split; auto.
    intros u h Hu Hh. destruct (E u h Hu Hh) as [H|[<-|H]]; auto.
  Qed.

  Lemma sweeping_visit : forall s seen t rest, memn t seen = false -> sweeping s0 s seen (t :: rest) ->
    sweeping s0 (abort_write s t) (t :: seen) (rest ++ filter (fun h => negb (memn h (t :: seen))) (t_halts (get s t))).
  Proof.
    intros s seen t rest Em (O & A & B & C & D & E). apply memn_false in Em.
    assert (N : forall u, In u seen -> u <> t) by (intros u Hu ->; contradiction).
    split; [rewrite oof_abort_write; exact O|]. split; [rewrite graph_abort_write; exact A|]. split; [intros u; rewrite waited_abort_write; apply B|].
    split; [|split].
    - intros u [<-|Hu]; [apply abort_write_dead|]. rewrite get_abort_write_other by auto. auto.
    - intros u Hu. rewrite get_abort_write_other by (intros ->; apply Hu; left; reflexivity).
      apply D. intros F. apply Hu. right; assumption.
    - intros u h [<-|Hu] Hh.
      + destruct (memn h (t :: seen)) eqn:Eh; [left; apply memn_In; assumption|].
        right. apply in_or_app. right. apply filter_In. destruct (graph_get _ _ t A) as (_ & -> & _).
        split; [assumption | rewrite Eh; reflexivity].
      + destruct (E u h Hu Hh) as [H|[<-|H]]; [left; right | left; left | right; apply in_or_app; left]; auto.
  Qed.

  Lemma swept_loop : forall wl al seen s, swept s0 s seen ->
    let '(s', seen', _) := abort_loop (loop_fuel s wl) wl al seen s [] in swept s0 s' seen'.
  Proof.
    intros wl al seen s (O & A & B & C & D & E).
    apply (abort_loop_ind al (fun x sn w _ => sweeping s0 x sn w)).
    - intros x sn t rest _. apply sweeping_skip.
    - intros x sn t rest _. apply sweeping_visit.
    - apply loop_fuel_enough.
    - repeat split; auto. intros u h Hu Hh. destruct (E u h Hu Hh) as [H|[]]. left; exact H.
  Qed.

  Lemma swept_detect : forall s seen, swept s0 s seen -> swept s0 (ready_detect s) seen.
  Proof.
    intros s seen H. unfold swept, sweeping, get in *. rewrite oof_ready_detect, (graph_tasks_eq _ _ (tasks_ready_detect s)), tasks_ready_detect.
    exact H.
  Qed.
End Swept.

Lemma swept_start : forall s, swept s s [].
Proof. intros s. repeat split; auto; intros u; simpl; tauto. Qed.

Theorem abort_lanes_top_swept : forall s lanes,
  exists seen, swept s (abort_lanes_top s lanes) seen /\ forall x, In x (select_abort (tasks s) lanes) -> In x seen.
Proof. intros. apply (abort_lanes_top_ind (swept s) (swept_loop s) (swept_detect s)), swept_start. Qed.

Theorem abort_change_swept : forall s,
  exists seen, swept s (abort_change s) seen /\ forall x, x < length (tasks s) -> In x seen.
Proof. intros. apply (abort_change_ind (swept s) (swept_loop s) (swept_detect s)), swept_start. Qed.

Lemma oof_move : forall s e s', move s e s' -> oof s' = oof s.
Proof.
  intros s e s' M. destruct M; try reflexivity; auto using oof_try_undo, oof_set_status.
  - rewrite run_eq. change (oof (run_write s t) = oof s). unfold run_write. destruct (st s t); auto using oof_set_status.
  - apply (oof_set_status (remove_running s t)).
  - apply (oof_try_undo (remove_running s t)).
  - apply (oof_set_to_wait (remove_running s t)).
  - rewrite oof_set_status. destruct (abort_lanes_top_swept (remove_running s t) (lanes_of (get s t))) as (seen & Sw & _).
    exact (swept_oof _ _ _ Sw).
  - destruct (abort_change_swept s) as (seen & Sw & _). exact (swept_oof _ _ _ Sw).
Qed.

Theorem oof_step : forall s e, oof (step s e) = oof s.
Proof. intros s e. apply (step_ind (fun x => oof x = oof s)); [|reflexivity]. intros x x' M H. rewrite (oof_move _ _ _ M). exact H. Qed.

(* the fuel bounds of the model are never hit: every execution from every graph *)
Theorem oof_never : forall (g : list tdesc) (es : list event), oof (run_events (init_state g) es) = false.
Proof.
  intros g es. apply (run_events_ind (fun x => oof x = false)); [|reflexivity]. intros s e H. rewrite oof_step. exact H.
Qed.
