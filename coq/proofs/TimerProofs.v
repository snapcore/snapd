(* C16 — proofs about models/Timer.v: the bounded choice of timeutil.Next; the day search of Schedule.Next, read through
   eligible windows and day_window, the body of its loop over days; what Includes accepts of the returned window. *)
From Coq Require Import List ZArith Bool Lia ZifyBool.
Import ListNotations.
Require Import V.lib.Civil V.models.Timer.
Open Scope Z_scope.

Lemma choose_fold_spec : forall nexts w0,
  let r := fold_left (fun w n => if w_start n <? w_start w then n else w) nexts w0 in
  In r (w0 :: nexts) /\ forall n, In n (w0 :: nexts) -> w_start r <= w_start n.
Proof.
  induction nexts as [|m nexts IH]; intros w0; cbn [fold_left].
  - split; [left; reflexivity | intros n [<-|[]]; lia].
  - destruct (w_start m <? w_start w0) eqn:E; [destruct (IH m) as [A B] | destruct (IH w0) as [A B]]; cbv zeta in A, B.
    + split; [right; exact A|]. intros n [<-|H]; [specialize (B m (or_introl eq_refl)); lia | exact (B n H)].
    + split; [destruct A as [A|A]; [left; exact A | right; right; exact A]|].
      intros n [<-|[<-|H]]; [apply B; left; reflexivity | specialize (B w0 (or_introl eq_refl)); lia | apply B; right; exact H].
Qed.

(* MAIN (limit): whatever windows the schedules' Next functions return (ANY list), the chosen window starts no later
   than last + maxd and no later than any offered window; it is one of the offered windows or the fallback window at
   last + maxd; the non-random delay is never negative, is 0 when the chosen start is already past, and the
   instant now + delay is never after max(now, last + maxd). *)
Theorem limit_any_schedule : forall (nexts : list window) (last maxd now : Z),
  let w := choose nexts last maxd in
  w_start w <= last + maxd /\
  (forall n, In n nexts -> w_start w <= w_start n) /\
  (w = mkWin (last + maxd) (last + maxd + 3600) false \/ In w nexts) /\
  0 <= delay_base w now /\
  (w_start w < now -> delay_base w now = 0) /\
  now + delay_base w now <= Z.max now (last + maxd) /\
  (now <= w_start w -> now + delay_base w now = w_start w).
Proof.
  intros nexts last maxd now w. unfold w, choose.
  destruct (choose_fold_spec nexts (mkWin (last + maxd) (last + maxd + 3600) false)) as [I M]. cbv zeta in I, M.
  pose proof (M _ (or_introl eq_refl)) as L. cbn [w_start] in L.
  split; [exact L|]. split; [intros n H; exact (M n (or_intror H))|].
  split; [destruct I as [I|I]; [left; symmetry; exact I | right; exact I]|].
  unfold delay_base. destruct (w_start _ <? now) eqn:E; repeat split; lia.
Qed.

(* a window the inner loop of Schedule.Next does not skip: it does not end before now and does not contain last *)
Definition eligible (now last : Z) (w : window) : Prop := now <= w_end w /\ (last < w_start w \/ w_end w < last).
Definition eligibleb (now last : Z) (w : window) : bool :=
  negb (w_end w <? now) && negb ((w_start w <=? last) && (last <=? w_end w)).

Lemma eligibleb_spec : forall now last w, eligibleb now last w = true <-> eligible now last w.
Proof. intros now last w. unfold eligibleb, eligible. lia. Qed.

(* the inner loop is the fold of timeutil.Next's choice over the day's eligible windows, seeded with the first of them *)
Lemma pick_fold_min : forall now last D tsp acc,
  fold_left (pick now last D) tsp acc =
  match acc, filter (eligibleb now last) (map (fun cs => window_of cs D) tsp) with
  | Some a, l | None, a :: l => Some (fold_left (fun w n => if w_start n <? w_start w then n else w) l a)
  | None, [] => None
  end.
Proof.
  induction tsp as [|cs tsp IH]; intros acc; [destruct acc; reflexivity|].
  cbn [fold_left map filter]. rewrite IH. unfold pick, eligibleb.
  destruct (w_end (window_of cs D) <? now); [reflexivity|].
  destruct ((w_start (window_of cs D) <=? last) && (last <=? w_end (window_of cs D))); [reflexivity|].
  cbn [negb andb fold_left]. destruct acc as [a|]; [destruct (w_start (window_of cs D) <? w_start a)|]; reflexivity.
Qed.

(* the window found on day D, if any: the body of the loop over days *)
Definition day_window (s : schedule) (tsp : list clockspan) (now last D : Z) : option window :=
  if week_ok s D then
    match fold_left (pick now last D) tsp None with
    | Some w => if w_end w <? now then None else Some w
    | None => None
    end
  else None.

Lemma next_from_step : forall f s tsp now last t,
  next_from (S f) s tsp now last t =
  match day_window s tsp now last (t / 86400) with
  | Some w => Some w
  | None => next_from f s tsp now last (t + 86400)
  end.
Proof.
  intros f s tsp now last t. cbn [next_from]. unfold day_window.
  destruct (week_ok s (t / 86400)); [|reflexivity].
  destruct (fold_left (pick now last (t / 86400)) tsp None) as [w|]; [|reflexivity].
  destruct (w_end w <? now); reflexivity.
Qed.

Lemma day_succ : forall t, (t + 86400) / 86400 = t / 86400 + 1.
Proof. intros t. exact (Z.div_add t 1 86400 ltac:(lia)). Qed.

Lemma day_window_spec : forall s tsp now last D w, day_window s tsp now last D = Some w ->
  week_ok s D = true /\
  (exists cs, In cs tsp /\ w = window_of cs D /\ eligible now last w) /\
  (forall cs, In cs tsp -> eligible now last (window_of cs D) -> w_start w <= w_start (window_of cs D)).
Proof.
  intros s tsp now last D w H. unfold day_window in H. rewrite pick_fold_min in H.
  destruct (week_ok s D); [|discriminate]. split; [reflexivity|].
  destruct (filter _ _) as [|w0 l] eqn:F; [discriminate|].
  destruct (choose_fold_spec l w0) as [I M]. cbv zeta in I, M. rewrite <- F in I, M.
  destruct (w_end _ <? now); [discriminate|]. injection H as <-. split.
  - apply filter_In in I as [I E]. apply in_map_iff in I as (cs & Ecs & Hin).
    exists cs. split; [exact Hin|]. split; [symmetry; exact Ecs | apply eligibleb_spec, E].
  - intros cs Hin E. apply M, filter_In. split; [exact (in_map (fun c => window_of c D) _ _ Hin) | apply eligibleb_spec, E].
Qed.

Lemma day_window_some : forall s tsp now last D cs,
  week_ok s D = true -> In cs tsp -> eligible now last (window_of cs D) ->
  exists w, day_window s tsp now last D = Some w.
Proof.
  intros s tsp now last D cs W Hin E. destruct (day_window s tsp now last D) as [w|] eqn:H; [eexists; reflexivity|].
  unfold day_window in H. rewrite W, pick_fold_min in H.
  assert (I : In (window_of cs D) (filter (eligibleb now last) (map (fun cs => window_of cs D) tsp))).
  { apply filter_In. split; [exact (in_map (fun c => window_of c D) _ _ Hin) | apply eligibleb_spec, E]. }
  destruct (filter _ _) as [|w0 l] eqn:F; [destruct I|].
  (* the chosen window is one of the eligible ones, so the loop's last test lets it through *)
  destruct (choose_fold_spec l w0) as [J _]. cbv zeta in J. rewrite <- F in J.
  apply filter_In in J as [_ J]. apply eligibleb_spec in J as [J _].
  destruct (w_end _ <? now) eqn:T; [lia | discriminate].
Qed.

Lemma next_from_days : forall fuel s tsp now last t,
  match next_from fuel s tsp now last t with
  | Some w => exists k, 0 <= k < Z.of_nat fuel /\ day_window s tsp now last (t / 86400 + k) = Some w
  | None => forall k, 0 <= k < Z.of_nat fuel -> day_window s tsp now last (t / 86400 + k) = None
  end.
Proof.
  induction fuel as [|f IH]; intros s tsp now last t; [intros k Hk; lia|].
  rewrite next_from_step. destruct (day_window s tsp now last (t / 86400)) as [w0|] eqn:E.
  - exists 0. rewrite Z.add_0_r. split; [lia | exact E].
  - specialize (IH s tsp now last (t + 86400)). rewrite day_succ in IH.
    destruct (next_from f s tsp now last (t + 86400)) as [w|].
    + destruct IH as (k & Hk & H). exists (1 + k). rewrite Z.add_assoc. split; [lia | exact H].
    + intros k Hk. destruct (Z.eq_dec k 0) as [->|K0]; [rewrite Z.add_0_r; exact E|].
      replace (t / 86400 + k) with (t / 86400 + 1 + (k - 1)) by ring. apply IH. lia.
Qed.

(* MAIN (in window): what Schedule.Next returns is the window of one of the schedule's flattened clock spans on a day,
   k days after the day of `last`, that the week spans accept; it does not end before now and does not contain last;
   and it is the earliest such window of that day. *)
Theorem next_in_window : forall (fuel : nat) (s : schedule) (last now : Z) (w : window),
  sched_next fuel s last now = Some w ->
  exists k cs, 0 <= k < Z.of_nat fuel /\ In cs (flattened s) /\
    let D := last / 86400 + k in
    w = window_of cs D /\ week_ok s D = true /\ now <= w_end w /\ (last < w_start w \/ w_end w < last) /\
    (forall cs', In cs' (flattened s) -> now <= w_end (window_of cs' D) ->
                 (last < w_start (window_of cs' D) \/ w_end (window_of cs' D) < last) ->
                 w_start w <= w_start (window_of cs' D)).
Proof.
  intros fuel s last now w H. unfold sched_next in H.
  pose proof (next_from_days fuel s (flattened s) now last last) as R. rewrite H in R. destruct R as (k & Hk & R).
  apply day_window_spec in R as (W & (cs & Hin & Hw & H1 & H2) & Hmin).
  exists k, cs. cbv zeta. unfold eligible in Hmin. auto 10.
Qed.

Definition clock_in_day (c : clock) : Prop := 0 <= hour c <= 23 /\ 0 <= minute c <= 59.
Definition clock_nonneg (c : clock) : Prop := 0 <= hour c /\ 0 <= minute c.

Lemma window_start_day : forall cs D, clock_in_day (cs_start cs) -> w_start (window_of cs D) / 86400 = D.
Proof.
  intros cs D [H1 H2]. unfold window_of, clock_time; cbn [w_start].
  symmetry. apply (Z.div_unique _ 86400 D (hour (cs_start cs) * 3600 + minute (cs_start cs) * 60)); lia.
Qed.

Lemma window_ordered : forall cs D, clock_in_day (cs_start cs) -> clock_nonneg (cs_end cs) ->
  w_start (window_of cs D) <= w_end (window_of cs D).
Proof.
  intros cs D [H1 H2] [H3 H4]. unfold window_of, clock_time; cbn [w_start w_end].
  destruct (_ <? _) eqn:E; lia.
Qed.

(* MAIN (included): for a window of the schedule whose START CLOCK IS NOT 24:00 (start clock within the day), every
   instant t of the window that lies on the window's own calendar day is accepted by Includes; a single-instant window
   hh:mm is accepted for the minute [hh:mm, hh:mm+1min). *)
Theorem window_included : forall (s : schedule) (cs : clockspan) (D t : Z),
  In cs (flattened s) -> week_ok s D = true -> clock_in_day (cs_start cs) ->
  let w := window_of cs D in
  w_start w <= t -> (t < w_end w \/ (w_end w = w_start w /\ t < w_start w + 60)) -> t / 86400 = D ->
  sched_includes s t = true.
Proof.
  intros s cs D t Hin W Hc w H1 H2 HD. unfold sched_includes. rewrite HD, W. cbn [andb].
  apply existsb_exists. exists cs. split; [exact Hin|]. unfold span_includes. fold w.
  destruct (w_end w =? w_start w) eqn:E; lia.
Qed.

(* the schedules that show that the two guards matter (C16_start_2400_refuted, C16_midnight_tail_refuted and
   C16_start_2400_tail_refuted in props/C16.v; all reproduced on the Go code by the driver on every run) *)
Definition ex_mon_2400 : schedule := mkSched [mkWS (mkWeek 1 0) (mkWeek 1 0)] [mkCS (mkClock 24 0) (mkClock 24 0) 0 false].
Definition ex_night : schedule := mkSched [] [mkCS (mkClock 23 0) (mkClock 1 0) 0 false].
Definition ex_last : Z := 1722859200.   (* Monday 2024-08-05 12:00 UTC *)

(* what exactly goes wrong with a start clock of 24:00: Includes builds the span's window from the instant's own day, so
   it starts at the following midnight and can never contain the instant — such a span is dead for Includes, while
   Next does return its windows *)
Lemma span_2400_never_includes : forall (cs : clockspan) (D t : Z),
  hour (cs_start cs) = 24 -> 0 <= minute (cs_start cs) -> t / 86400 = D -> span_includes t D cs = false.
Proof.
  intros cs D t H M HD. unfold span_includes, window_of, clock_time; cbn [w_start w_end]. rewrite H.
  assert (t < 86400 * D + 86400).
  { pose proof (Z.mod_pos_bound t 86400 ltac:(lia)). pose proof (Z.div_mod t 86400 ltac:(lia)). rewrite HD in *. lia. }
  apply andb_false_iff; left. apply andb_false_iff; left. lia.
Qed.

Definition ex_2400_tail : schedule :=
  mkSched [] [mkCS (mkClock 0 0) (mkClock 0 0) 0 false; mkCS (mkClock 24 0) (mkClock 7 30) 0 false].
