(* C20 - the assertion text codec (models/AssertCodec.v).  The header parser is total ([good], parse_total); formatting a
   normalised value and parsing it gives the value back (entries_step, roundtrip_fuel); a serialized assertion is split at its
   blank lines (cut_first_app, cut_last_app); what one Decode call of the stream decoder can return (stream_decode_ok). *)
From Coq Require Import List NArith ZArith Bool Arith Lia ZifyBool ZifyNat ZifyN.
Import ListNotations.
Require Import V.lib.Bytes V.proofs.BytesFacts V.proofs.ListFacts V.models.AssertCodec.
Open Scope N_scope.

Lemma has_prefix_app_both : forall p q s, has_prefix (p ++ q) (p ++ s) = has_prefix q s.
Proof. induction p as [|x p IH]; intros q s; cbn; [reflexivity|]. rewrite N.eqb_refl. cbn. apply IH. Qed.

Lemma has_prefix_length : forall p s, has_prefix p s = true -> (length p <= length s)%nat.
Proof. intros p s H. apply has_prefix_split in H as [r ->]. rewrite app_length. lia. Qed.

Lemma has_prefix_app_l : forall p q s, has_prefix (p ++ q) s = true -> has_prefix p s = true.
Proof. intros p q s H. apply has_prefix_split in H as [r ->]. rewrite <- app_assoc. apply has_prefix_app. Qed.

Lemma spaces_add : forall a b, spaces (a + b) = spaces a ++ spaces b.
Proof. intros a b. unfold spaces. apply repeat_app. Qed.

Lemma spaces_length : forall n, length (spaces n) = n.
Proof. intro n. unfold spaces. apply repeat_length. Qed.

Lemma skipn_spaces_app : forall n s, skipn n (spaces n ++ s) = s.
Proof. intros n s. rewrite <- (spaces_length n) at 1. apply skipn_app_exact. Qed.

Lemma no_prefix_mono : forall n k s, has_prefix (spaces n) s = false -> has_prefix (spaces (n + k)) s = false.
Proof.
  intros n k s H. destruct (has_prefix (spaces (n + k)) s) eqn:E; [|reflexivity].
  rewrite spaces_add in E. apply has_prefix_app_l in E. congruence.
Qed.

Lemma list_intro_length : forall b, length (list_intro b) = (b + 3)%nat.
Proof. intro b. unfold list_intro. rewrite app_length, spaces_length. reflexivity. Qed.

Lemma map_intro_length : forall b k, length (map_intro b k) = (b + 2 + (length k + 1))%nat.
Proof. intros b k. unfold map_intro. rewrite !app_length, spaces_length. cbn. lia. Qed.

Lemma index_colon_lt : forall s k, index_colon s = Some k -> (k < length s)%nat.
Proof.
  induction s as [|c s IH]; intros k H; cbn in *; [discriminate|].
  destruct (c =? COLON); [inversion H; lia|].
  destruct (index_colon s) as [k'|]; cbn in H; [|discriminate]. inversion H; subst. specialize (IH k' eq_refl). lia.
Qed.

Lemma take_text_length : forall p ls a r, take_text p ls = (a, r) -> (length r <= length ls)%nat.
Proof.
  induction ls as [|l ls IH]; intros a r H; cbn in *.
  - inversion H; subst. cbn. lia.
  - destruct (has_prefix (spaces p) l).
    + destruct (take_text p ls) as [a' r'] eqn:E. inversion H; subst. specialize (IH a' r eq_refl). lia.
    + inversion H; subst. cbn. lia.
Qed.

(* lia treats [length l] for l : list line and for l : list bytes as different atoms *)
Ltac nlia := unfold line, bytes in *; lia.

(* The measure behind the fuel 2 * lines + 1: a parser fails or leaves at most n lines, where n is the number of lines
   it was started on, and one less for parse_entry, which consumes its first line. *)
Definition good {A : Type} (n : nat) (x : res (A * list line)) : Prop :=
  x = Err \/ exists v r, x = Ok (v, r) /\ (length r <= n)%nat.

Lemma good_err : forall (A : Type) n, @good A n Err.
Proof. intros A n. left. reflexivity. Qed.

Lemma good_ok : forall (A : Type) n (v : A) (r : list line), (length r <= n)%nat -> good n (Ok (v, r)).
Proof. intros A n v r H. right. exists v, r. split; [reflexivity|exact H]. Qed.

Lemma parse_text_good : forall ls b, good (length ls) (parse_text ls b).
Proof.
  intros ls b. unfold parse_text. destruct (take_text (b + 4) ls) as [a r] eqn:E.
  apply take_text_length in E. destruct a; [apply good_err|]. apply good_ok. exact E.
Qed.

(* one round of a loop: an entry is taken off [l :: rest], the loop goes on with what that left *)
Lemma good_bind : forall (A B : Type) n (x : res (A * list line)) (K : A -> list line -> res (B * list line)),
  good n x -> (forall v r, (length r <= n)%nat -> good (length r) (K v r)) ->
  good (S n) (match x with Ok (v, r) => K v r | Err => Err | Panic => Panic | OutOfFuel => OutOfFuel end).
Proof.
  intros A B n x K [->|(v & r & -> & Hl)] HK; [apply good_err|]. cbv beta iota.
  destruct (HK v r Hl) as [->|(v' & r' & -> & Hl')]; [apply good_err|]. apply good_ok. nlia.
Qed.

Lemma parse_total : forall f,
  (forall c entry rest b, (c <= length entry)%nat -> (2 * length rest + 2 <= f)%nat ->
      good (length rest) (parse_entry f c (entry :: rest) b))
  /\ (forall ls b acc, (2 * length ls + 1 <= f)%nat -> good (length ls) (parse_list f ls b acc))
  /\ (forall ls b acc, (2 * length ls + 1 <= f)%nat -> good (length ls) (parse_map f ls b acc)).
Proof.
  induction f as [|f [IHe [IHl IHm]]]; [repeat split; intros; nlia|].
  repeat split.
  - intros c entry rest b Hc Hf. assert (Hr : (2 * length rest + 1 <= f)%nat) by nlia.
    pose proof (parse_text_good rest b) as Ht.
    cbn [parse_entry]. destruct (Nat.eqb c (length entry)) eqn:Ec.
    + destruct rest as [|nxt rest']; [exact Ht|].
      destruct (has_prefix (spaces (b + 2)) nxt); [|exact Ht].
      destruct (has_prefix [DASH] (skipn (b + 2) nxt)); [apply IHl; exact Hr|].
      destruct (skipn (b + 2) nxt) as [|c0 r0]; [exact Ht|].
      destruct (negb (c0 =? SP)); [|exact Ht]. apply IHm; exact Hr.
    + apply Nat.eqb_neq in Ec.
      destruct (nth_error entry c) as [c0|] eqn:En.
      * destruct (c0 =? SP); [|apply good_err]. apply good_ok. nlia.
      * apply nth_error_None in En. nlia.
  - intros ls b acc Hf. cbn [parse_list]. destruct ls as [|l rest]; [apply good_ok; nlia|].
    destruct (negb (has_prefix (list_intro b) l)) eqn:Ep; [apply good_ok; nlia|].
    apply negb_false_iff in Ep. apply has_prefix_length in Ep. rewrite list_intro_length in Ep.
    cbn [length] in *. apply good_bind; [apply IHe; [exact Ep|nlia]|].
    intros v r Hr. apply IHl. nlia.
  - intros ls b acc Hf. cbn [parse_map]. destruct ls as [|l rest]; [apply good_ok; nlia|].
    destruct (negb (has_prefix (spaces (b + 2)) l)) eqn:Ep; [apply good_ok; nlia|].
    apply negb_false_iff in Ep. apply has_prefix_length in Ep. rewrite spaces_length in Ep.
    destruct (index_colon (skipn (b + 2) l)) as [k|] eqn:Ek; [|apply good_err].
    apply index_colon_lt in Ek. rewrite skipn_length in Ek.
    destruct (negb (valid_name (firstn k (skipn (b + 2) l)))); [apply good_err|].
    cbn [length] in *. apply good_bind; [apply IHe; nlia|].
    intros v r Hr. destruct (has_key (firstn k (skipn (b + 2) l)) acc); [apply good_err|].
    apply IHm. nlia.
Qed.

Lemma parse_top_total : forall f ls acc, (2 * length ls + 1 <= f)%nat ->
  parse_top f ls acc = Err \/ exists h, parse_top f ls acc = Ok h.
Proof.
  induction f as [|f IH]; intros ls acc Hf; [nlia|].
  cbn [parse_top]. destruct ls as [|entry rest]; [right; eexists; reflexivity|].
  destruct (index_colon entry) as [k|] eqn:Ek; [|left; reflexivity].
  apply index_colon_lt in Ek.
  destruct (negb (valid_name (firstn k entry))); [left; reflexivity|]. cbn [length] in Hf.
  assert (He : good (length rest) (parse_entry f (k + 1) (entry :: rest) 0)) by (apply parse_total; nlia).
  destruct He as [He|[v [r [He Hl]]]]; rewrite He; [left; reflexivity|].
  destruct (has_key (firstn k entry) acc); [left; reflexivity|].
  apply IH. nlia.
Qed.

Theorem parse_header_lines_total : forall ls,
  parse_header_lines ls = Err \/ exists h, parse_header_lines ls = Ok h.
Proof. intro ls. unfold parse_header_lines, fuel_for. apply parse_top_total. nlia. Qed.

Theorem parse_headers_total : forall head, parse_headers head = Err \/ exists h, parse_headers head = Ok h.
Proof.
  intro head. unfold parse_headers. destruct (utf8_valid head); [apply parse_header_lines_total|left; reflexivity].
Qed.

(* the line after a nested structure does not continue it *)
Definition stops (n : nat) (rest : list line) : Prop :=
  match rest with [] => True | r :: _ => has_prefix (spaces n) r = false end.

Lemma stops_mono : forall n k rest, stops n rest -> stops (n + k) rest.
Proof. intros n k [|r rest] H; cbn in *; [exact I|]. apply no_prefix_mono. exact H. Qed.

Lemma valid_name_head : forall k, valid_name k = true -> exists c r, k = c :: r /\ is_lower c = true.
Proof.
  intros [|c r] H; cbn in H; [discriminate|]. apply andb_true_iff in H. destruct H as [H _]. eauto.
Qed.

Lemma lower_not_special : forall c, is_lower c = true -> (c =? SP) = false /\ (c =? DASH) = false /\ (c =? COLON) = false.
Proof. intros c H. unfold is_lower, SP, DASH, COLON in *. nlia. Qed.

Lemma lower_digit_not_colon : forall c, is_lower_digit c = true -> (c =? COLON) = false.
Proof. intros c H. unfold is_lower_digit, is_lower, is_digit, COLON in *. nlia. Qed.

Lemma name_rest_no_colon : forall s, name_rest s = true -> index_colon s = None.
Proof.
  fix IH 1. intros [|c r] H; [reflexivity|]. cbn in H. cbn [index_colon].
  destruct (is_lower_digit c) eqn:E.
  - rewrite (lower_digit_not_colon c E), (IH r H). reflexivity.
  - destruct (c =? DASH) eqn:Ed; [|discriminate]. apply N.eqb_eq in Ed. subst c.
    destruct r as [|d r']; [discriminate|]. apply andb_true_iff in H as [H1 H2].
    cbn [index_colon]. rewrite (lower_digit_not_colon d H1), (IH r' H2). reflexivity.
Qed.

Lemma index_colon_app_none : forall s x, index_colon s = None -> index_colon (s ++ COLON :: x) = Some (length s).
Proof.
  induction s as [|c s IH]; intros x H; cbn in *; [reflexivity|].
  destruct (c =? COLON); [discriminate|]. destruct (index_colon s); [discriminate|]. rewrite IH; reflexivity.
Qed.

Lemma valid_name_index : forall k x, valid_name k = true -> index_colon (k ++ COLON :: x) = Some (length k).
Proof.
  intros k x H. apply index_colon_app_none. destruct k as [|c r]; [discriminate|]. cbn in H.
  apply andb_true_iff in H. destruct H as [H1 H2]. cbn. destruct (lower_not_special c H1) as [_ [_ Hc]]. rewrite Hc.
  rewrite (name_rest_no_colon r H2). reflexivity.
Qed.

Lemma format_head : forall v intro b, norm v = true -> exists x tl, format_entry intro v b = (intro ++ x) :: tl.
Proof.
  intros [ls|l|m] intro b H; cbn in *.
  - destruct ls as [|l1 [|l2 ls]]; [discriminate| |].
    + eexists _, _. reflexivity.
    + exists [], (map (fun l => spaces (b + 4) ++ l) (l1 :: l2 :: ls)). rewrite app_nil_r. reflexivity.
  - destruct l as [|e l]; [discriminate|]. exists [], (flat_map (fun e => format_entry (list_intro b) e (b + 2)) (e :: l)).
    rewrite app_nil_r. reflexivity.
  - destruct m as [|kv m]; [discriminate|].
    exists [], (flat_map (fun kv => format_entry (map_intro b (fst kv)) (snd kv) (b + 2)) (kv :: m)).
    rewrite app_nil_r. reflexivity.
Qed.

Lemma take_text_map : forall p ls rest, stops p rest ->
  take_text p (map (fun l => spaces p ++ l) ls ++ rest) = (ls, rest).
Proof.
  induction ls as [|l ls IH]; intros rest H; cbn.
  - destruct rest as [|r rest]; [reflexivity|]. cbn in H. cbn. rewrite H. reflexivity.
  - rewrite has_prefix_app. rewrite (IH rest H). rewrite skipn_spaces_app. reflexivity.
Qed.

Lemma no_prefix_list_intro : forall b x, has_prefix (spaces (b + 2 + 2)) (list_intro b ++ x) = false.
Proof.
  intros b x. replace (b + 2 + 2)%nat with (b + 4)%nat by lia. rewrite spaces_add. unfold list_intro.
  rewrite <- app_assoc. rewrite has_prefix_app_both. reflexivity.
Qed.

Lemma no_prefix_name : forall k x, valid_name k = true -> has_prefix (spaces 2) (k ++ x) = false.
Proof.
  intros k x Hk. destruct (valid_name_head k Hk) as [c [r [-> Hc]]]. destruct (lower_not_special c Hc) as [Hsp _].
  cbn [spaces repeat has_prefix app]. rewrite (N.eqb_sym SP c), Hsp. reflexivity.
Qed.

Lemma spaces4 : forall b (l : bytes), spaces (b + 4) ++ l = spaces (b + 2) ++ SP :: SP :: l.
Proof. intros b l. replace (b + 4)%nat with (b + 2 + 2)%nat by lia. rewrite spaces_add, <- app_assoc. reflexivity. Qed.

Lemma kvs_ok_cons : forall k v (m : list (bytes * hv)),
  forallb (fun kv => valid_name (fst kv) && norm (snd kv)) ((k, v) :: m) = true ->
  valid_name k = true /\ norm v = true /\ forallb (fun kv => valid_name (fst kv) && norm (snd kv)) m = true.
Proof. intros k v m H. cbn in H. apply andb_true_iff in H as [H Hm]. apply andb_true_iff in H as [Hk Hv]. auto. Qed.

Lemma has_key_distinct : forall (acc : list (bytes * hv)) k v m,
  keys_distinct (acc ++ (k, v) :: m) = true -> has_key k acc = false.
Proof.
  induction acc as [|a acc IH]; intros k v m H; cbn in *; [reflexivity|].
  apply andb_true_iff in H. destruct H as [H1 H2]. apply negb_true_iff in H1.
  rewrite existsb_app in H1. apply orb_false_iff in H1. destruct H1 as [_ H1]. cbn in H1.
  apply orb_false_iff in H1. destruct H1 as [H1 _]. rewrite beq_sym. rewrite H1. cbn. eapply IH. exact H2.
Qed.

Lemma pe_line : forall f intro b l1 T,
  parse_entry (S f) (length intro) ((intro ++ SP :: l1) :: T) b = Ok (Str [l1], T).
Proof.
  intros. cbn [parse_entry]. rewrite app_length. cbn [length].
  destruct (Nat.eqb (length intro) (length intro + S (length l1))) eqn:E; [apply Nat.eqb_eq in E; nlia|].
  rewrite nth_error_app2 by nlia. rewrite Nat.sub_diag. cbn [nth_error]. unfold SP. cbn [N.eqb Pos.eqb].
  replace (length intro + 1)%nat with (length (intro ++ [32])) by (rewrite app_length; reflexivity).
  replace (intro ++ 32 :: l1) with ((intro ++ [32]) ++ l1) by (rewrite <- app_assoc; reflexivity).
  rewrite skipn_app_exact. reflexivity.
Qed.

Lemma pe_text : forall f intro b l1 T',
  parse_entry (S f) (length intro) (intro :: (spaces (b + 4) ++ l1) :: T') b = parse_text ((spaces (b + 4) ++ l1) :: T') b.
Proof.
  intros. cbn [parse_entry]. rewrite Nat.eqb_refl.
  assert (H1 : has_prefix (spaces (b + 2)) (spaces (b + 4) ++ l1) = true) by (rewrite spaces4; apply has_prefix_app).
  assert (H2 : skipn (b + 2) (spaces (b + 4) ++ l1) = SP :: SP :: l1) by (rewrite spaces4; apply skipn_spaces_app).
  rewrite H1, H2. reflexivity.
Qed.

Lemma pe_list : forall f intro b T x T', T = (list_intro b ++ x) :: T' ->
  parse_entry (S f) (length intro) (intro :: T) b = parse_list f T b [].
Proof.
  intros f intro b T x T' ->. cbn [parse_entry]. rewrite Nat.eqb_refl. unfold list_intro.
  replace [SP; SP; DASH] with (spaces 2 ++ [DASH]) by reflexivity. rewrite (app_assoc (spaces b)), <- spaces_add.
  rewrite <- !app_assoc. rewrite has_prefix_app, skipn_spaces_app. reflexivity.
Qed.

Lemma pe_map : forall f intro b T k x T', valid_name k = true -> T = (map_intro b k ++ x) :: T' ->
  parse_entry (S f) (length intro) (intro :: T) b = parse_map f T b [].
Proof.
  intros f intro b T k x T' Hk ->. cbn [parse_entry]. rewrite Nat.eqb_refl. unfold map_intro.
  rewrite <- !app_assoc. rewrite has_prefix_app, skipn_spaces_app.
  destruct (valid_name_head k Hk) as [c [r [-> Hc]]]. destruct (lower_not_special c Hc) as [Hsp [Hda _]].
  cbn [app has_prefix]. rewrite (N.eqb_sym DASH c), Hda. cbn [andb]. rewrite Hsp. reflexivity.
Qed.

Lemma pl_step : forall f T b acc x T', T = (list_intro b ++ x) :: T' ->
  parse_list (S f) T b acc = match parse_entry f (length (list_intro b)) T (b + 2) with
                             | Ok (v, r) => parse_list f r b (acc ++ [v])
                             | Err => Err | Panic => Panic | OutOfFuel => OutOfFuel
                             end.
Proof. intros f T b acc x T' ->. cbn [parse_list]. rewrite has_prefix_app, list_intro_length. reflexivity. Qed.

Lemma pl_stop : forall f rest b acc, stops (b + 2) rest -> parse_list (S f) rest b acc = Ok (Lst acc, rest).
Proof.
  intros f [|r rest] b acc Hs; [reflexivity|]. cbn [parse_list]. cbn in Hs.
  destruct (has_prefix (list_intro b) r) eqn:E; [|reflexivity].
  unfold list_intro in E. replace [SP; SP; DASH] with (spaces 2 ++ [DASH]) in E by reflexivity.
  rewrite app_assoc in E. apply has_prefix_app_l in E. rewrite <- spaces_add in E. congruence.
Qed.

Lemma pm_step : forall f T b acc k x T', valid_name k = true -> T = (map_intro b k ++ x) :: T' ->
  parse_map (S f) T b acc = match parse_entry f (length (map_intro b k)) T (b + 2) with
                            | Ok (v, r) => if has_key k acc then Err else parse_map f r b (acc ++ [(k, v)])
                            | Err => Err | Panic => Panic | OutOfFuel => OutOfFuel
                            end.
Proof.
  intros f T b acc k x T' Hk ->. cbn [parse_map].
  assert (E : map_intro b k ++ x = spaces (b + 2) ++ k ++ COLON :: x) by (unfold map_intro; rewrite <- !app_assoc; reflexivity).
  assert (H1 : has_prefix (spaces (b + 2)) (map_intro b k ++ x) = true) by (rewrite E; apply has_prefix_app).
  assert (H2 : skipn (b + 2) (map_intro b k ++ x) = k ++ COLON :: x) by (rewrite E; apply skipn_spaces_app).
  rewrite H1, H2, (valid_name_index k x Hk), firstn_app_exact, Hk, map_intro_length. reflexivity.
Qed.

Lemma pm_stop : forall f rest b acc, stops (b + 2) rest -> parse_map (S f) rest b acc = Ok (Map acc, rest).
Proof. intros f [|r rest] b acc Hs; [reflexivity|]. cbn [parse_map]. cbn in Hs. rewrite Hs. reflexivity. Qed.

Lemma pt_step : forall f T acc k x T', valid_name k = true -> T = ((k ++ [COLON]) ++ x) :: T' ->
  parse_top (S f) T acc = match parse_entry f (length (k ++ [COLON])) T 0 with
                          | Ok (v, r) => if has_key k acc then Err else parse_top f r (acc ++ [(k, v)])
                          | Err => Err | Panic => Panic | OutOfFuel => OutOfFuel
                          end.
Proof.
  intros f T acc k x T' Hk ->. cbn [parse_top]. rewrite <- app_assoc. cbn [app].
  rewrite (valid_name_index k x Hk), firstn_app_exact, Hk, app_length. reflexivity.
Qed.

(* [r] is [x], unless the fuel ran out.  The round trip is followed in this form and counts nothing: that the fuel of
   parse_header_lines suffices is parse_total. *)
Definition yields {A : Type} (x : A) (r : res A) : Prop := r = Ok x \/ r = OutOfFuel.

Definition entry_ok (f : nat) : Prop :=
  forall v intro b rest, norm v = true -> stops (b + 2) rest ->
    yields (v, rest) (parse_entry f (length intro) (format_entry intro v b ++ rest) b).

(* What the three loops (list, map, top level) share.  Their input is a run of entries, each formatted at indentation
   n under an introduction of its own, followed by [rest].  The first line shows the introduction of the first entry,
   and parse_entry takes exactly that entry off the front: what follows it - the next entry, whose introduction is
   not indented beyond n + 2, or [rest] - does not continue it. *)
Section Entries.
  Context {A : Type} (intro : A -> bytes) (val : A -> hv) (okb : A -> bool) (n f : nat).
  Hypothesis okb_spec : forall e, okb e = true ->
    norm (val e) = true /\ forall x, has_prefix (spaces (n + 2)) (intro e ++ x) = false.
  Hypothesis IHe : entry_ok f.

  Let fmt := flat_map (fun e => format_entry (intro e) (val e) n).

  Lemma entries_step : forall e l rest, forallb okb (e :: l) = true -> stops (n + 2) rest ->
    exists x T', fmt (e :: l) ++ rest = (intro e ++ x) :: T' /\
      yields (val e, fmt l ++ rest) (parse_entry f (length (intro e)) (fmt (e :: l) ++ rest) n).
  Proof.
    intros e l rest Hok Hs. cbn in Hok. apply andb_true_iff in Hok as [Hoke Hokl].
    destruct (okb_spec e Hoke) as [Hne _]. destruct (format_head (val e) (intro e) n Hne) as [x [tl Hfmt]].
    unfold fmt. cbn [flat_map]. rewrite <- app_assoc. exists x, (tl ++ fmt l ++ rest).
    split; [rewrite Hfmt; reflexivity|]. apply (IHe _ _ _ _ Hne). destruct l as [|e2 l2]; [exact Hs|].
    cbn in Hokl. apply andb_true_iff in Hokl as [Hok2 _]. destruct (okb_spec e2 Hok2) as [Hn2 Hp2].
    destruct (format_head (val e2) (intro e2) n Hn2) as [x2 [tl2 Hf2]]. cbn [flat_map]. rewrite Hf2. apply Hp2.
  Qed.
End Entries.

Lemma keyed_spec : forall n (kv : bytes * hv), valid_name (fst kv) && norm (snd kv) = true ->
  norm (snd kv) = true /\ forall x, has_prefix (spaces (n + 2)) ((spaces n ++ fst kv ++ [COLON]) ++ x) = false.
Proof.
  intros n kv H. apply andb_true_iff in H as [Hk Hv]. split; [exact Hv|]. intro x.
  rewrite spaces_add, <- !app_assoc, has_prefix_app_both. apply no_prefix_name, Hk.
Qed.

(* Formatting and parsing in lockstep, by induction on the fuel as the parser itself recurses: an entry hands its
   lines to the loop of its kind at the same fuel, a loop hands one entry to parse_entry and goes on. *)
Lemma roundtrip_fuel : forall f,
  entry_ok f
  /\ (forall l acc b rest, forallb norm l = true -> stops (b + 2) rest ->
        yields (Lst (acc ++ l), rest)
          (parse_list f (flat_map (fun e => format_entry (list_intro b) e (b + 2)) l ++ rest) b acc))
  /\ (forall m acc b rest, forallb (fun kv => valid_name (fst kv) && norm (snd kv)) m = true ->
        keys_distinct (acc ++ m) = true -> stops (b + 2) rest ->
        yields (Map (acc ++ m), rest)
          (parse_map f (flat_map (fun kv => format_entry (map_intro b (fst kv)) (snd kv) (b + 2)) m ++ rest) b acc))
  /\ (forall h acc, forallb (fun kv => valid_name (fst kv) && norm (snd kv)) h = true ->
        keys_distinct (acc ++ h) = true -> yields (acc ++ h) (parse_top f (format_headers h) acc)).
Proof.
  unfold entry_ok. induction f as [|f (IHe & IHl & IHm & IHt)]; [repeat split; intros; right; reflexivity|].
  split; [|split; [|split]].
  - intros [ls|l|m] intro b rest Hn Hs; cbn in Hn.
    + left. destruct ls as [|l1 [|l2 ls]]; [discriminate|apply pe_line|].
      cbn [format_entry map app]. rewrite pe_text.
      change ((spaces (b + 4) ++ l1) :: (spaces (b + 4) ++ l2) :: map (fun l => spaces (b + 4) ++ l) ls ++ rest)
        with (map (fun l => spaces (b + 4) ++ l) (l1 :: l2 :: ls) ++ rest).
      unfold parse_text. rewrite take_text_map; [reflexivity|].
      replace (b + 4)%nat with (b + 2 + 2)%nat by lia. apply stops_mono, Hs.
    + apply andb_true_iff in Hn as [Hne Hnl]. destruct l as [|e l]; [discriminate|].
      assert (He : norm e = true) by (cbn in Hnl; apply andb_true_iff in Hnl; tauto).
      destruct (format_head e (list_intro b) (b + 2) He) as [x [tl Hfmt]]. cbn [format_entry app].
      rewrite (pe_list f intro b _ x (tl ++ flat_map (fun e => format_entry (list_intro b) e (b + 2)) l ++ rest))
        by (cbn [flat_map]; rewrite Hfmt, <- app_assoc; reflexivity).
      apply (IHl (e :: l) [] b rest Hnl Hs).
    + apply andb_true_iff in Hn as [Hn Hd]. apply andb_true_iff in Hn as [Hne Hnl].
      destruct m as [|[k v] m]; [discriminate|]. destruct (kvs_ok_cons k v m Hnl) as (Hk & Hv & _).
      destruct (format_head v (map_intro b k) (b + 2) Hv) as [x [tl Hfmt]]. cbn [format_entry app].
      rewrite (pe_map f intro b _ k x (tl ++ flat_map (fun kv => format_entry (map_intro b (fst kv)) (snd kv) (b + 2)) m ++ rest) Hk)
        by (cbn [flat_map fst snd]; rewrite Hfmt, <- app_assoc; reflexivity).
      apply (IHm ((k, v) :: m) [] b rest Hnl Hd Hs).
  - intros [|e l] acc b rest Hn Hs.
    + rewrite app_nil_r. left. apply pl_stop, Hs.
    + destruct (entries_step (fun _ => list_intro b) (fun e => e) norm (b + 2) f
                  (fun e He => conj He (no_prefix_list_intro b)) IHe e l rest Hn (stops_mono _ 2 _ Hs))
        as (x & T' & Esh & Epe). cbv beta in *.
      rewrite (pl_step f _ b acc x T' Esh). destruct Epe as [-> | ->]; [|right; reflexivity].
      cbn in Hn. apply andb_true_iff in Hn as [_ Hn].
      replace (acc ++ e :: l) with ((acc ++ [e]) ++ l) by (rewrite <- app_assoc; reflexivity).
      apply IHl; assumption.
  - intros [|[k v] m] acc b rest Hn Hd Hs.
    + rewrite app_nil_r. left. apply pm_stop, Hs.
    + destruct (entries_step (fun kv => map_intro b (fst kv)) snd _ (b + 2) f
                  (keyed_spec (b + 2)) IHe (k, v) m rest Hn (stops_mono _ 2 _ Hs))
        as (x & T' & Esh & Epe). cbn [fst snd] in *.
      apply kvs_ok_cons in Hn as (Hk & _ & Hn).
      rewrite (pm_step f _ b acc k x T' Hk Esh). destruct Epe as [-> | ->]; [|right; reflexivity].
      rewrite (has_key_distinct acc k v m Hd).
      replace (acc ++ (k, v) :: m) with ((acc ++ [(k, v)]) ++ m) in * by (rewrite <- app_assoc; reflexivity).
      apply IHm; assumption.
  - intros [|[k v] h] acc Hn Hd.
    + left. cbn. rewrite app_nil_r. reflexivity.
    + unfold format_headers. rewrite <- (app_nil_r (flat_map _ _)).
      destruct (entries_step (fun kv => fst kv ++ [COLON]) snd _ 0 f
                  (keyed_spec 0) IHe (k, v) h [] Hn I)
        as (x & T' & Esh & Epe). cbn [fst snd] in *.
      apply kvs_ok_cons in Hn as (Hk & _ & Hn).
      unfold bytes in *. rewrite (pt_step f _ acc k x T' Hk Esh). destruct Epe as [-> | ->]; [|right; reflexivity].
      rewrite (has_key_distinct acc k v h Hd), app_nil_r.
      replace (acc ++ (k, v) :: h) with ((acc ++ [(k, v)]) ++ h) in * by (rewrite <- app_assoc; reflexivity).
      apply IHt; assumption.
Qed.

Theorem roundtrip_lines : forall h, norm_headers h = true -> parse_header_lines (format_headers h) = Ok h.
Proof.
  intros h H. unfold norm_headers in H. apply andb_true_iff in H as [Hn Hd].
  destruct (proj2 (proj2 (proj2 (roundtrip_fuel (fuel_for (format_headers h))))) h [] Hn Hd) as [E|E]; [exact E|].
  destruct (parse_header_lines_total (format_headers h)) as [E'|[h' E']]; unfold parse_header_lines in E'; congruence.
Qed.

Lemma split_lines_nonempty : forall s, split_lines s <> [].
Proof.
  induction s as [|c r IH]; cbn; [discriminate|]. destruct (c =? NL); [discriminate|].
  destruct (split_lines r); [congruence|discriminate].
Qed.

Lemma split_no_nl : forall l, no_nl l = true -> split_lines l = [l].
Proof.
  induction l as [|c l IH]; intro H; cbn in *; [reflexivity|].
  apply andb_true_iff in H. destruct H as [H1 H2]. apply negb_true_iff in H1. rewrite H1. rewrite (IH H2). reflexivity.
Qed.

Lemma split_app_nl : forall l r, no_nl l = true -> split_lines (l ++ NL :: r) = l :: split_lines r.
Proof.
  induction l as [|c l IH]; intros r H; cbn in *.
  - reflexivity.
  - apply andb_true_iff in H. destruct H as [H1 H2]. apply negb_true_iff in H1. rewrite H1. rewrite (IH r H2). reflexivity.
Qed.

Theorem split_join : forall ls, ls <> [] -> forallb no_nl ls = true -> split_lines (join_lines ls) = ls.
Proof.
  induction ls as [|l ls IH]; intros Hne H; [congruence|].
  cbn in H. apply andb_true_iff in H. destruct H as [H1 H2].
  destruct ls as [|l2 ls2]; [cbn; apply split_no_nl; exact H1|].
  change (join_lines (l :: l2 :: ls2)) with (l ++ NL :: join_lines (l2 :: ls2)).
  rewrite (split_app_nl l _ H1). rewrite IH; [reflexivity|discriminate|exact H2].
Qed.

Lemma join_head : forall c l ls, join_lines ((c :: l) :: ls) = c :: join_lines (l :: ls).
Proof. intros c l [|l2 ls]; reflexivity. Qed.

Theorem join_split : forall s, join_lines (split_lines s) = s.
Proof.
  induction s as [|c r IH]; [reflexivity|]. cbn [split_lines].
  destruct (split_lines r) as [|l ls] eqn:Es; [destruct (split_lines_nonempty r Es)|].
  destruct (N.eqb_spec c NL) as [->|_].
  - rewrite <- IH. reflexivity.
  - rewrite join_head. f_equal. exact IH.
Qed.

Lemma format_headers_nonempty : forall h, norm_headers h = true -> h <> [] -> format_headers h <> [].
Proof.
  intros [|[k v] h] Hn Hne; [congruence|]. apply andb_true_iff in Hn as [Hn _]. apply kvs_ok_cons in Hn as (_ & Hv & _).
  destruct (format_head v (k ++ [COLON]) 0 Hv) as [x [tl Hf]]. unfold format_headers. cbn [flat_map fst snd].
  rewrite Hf. discriminate.
Qed.

Theorem roundtrip_bytes : forall h,
  norm_headers h = true -> h <> [] ->
  forallb no_nl (format_headers h) = true -> utf8_valid (join_lines (format_headers h)) = true ->
  parse_headers (join_lines (format_headers h)) = Ok h.
Proof.
  intros h Hn Hne Hl Hu. unfold parse_headers. rewrite Hu, split_join; [apply roundtrip_lines; exact Hn| |exact Hl].
  apply format_headers_nonempty; assumption.
Qed.

Lemma takeN_len_le_size : forall n s, lenN (takeN n s) <= n.
Proof. intros n s. unfold lenN, takeN. rewrite firstn_length. lia. Qed.

Lemma takeN_len_le_len : forall n s, lenN (takeN n s) <= lenN s.
Proof. intros n s. unfold lenN, takeN. rewrite firstn_length. lia. Qed.

Lemma peek_len : forall size d buf err d1, peek size d = (buf, err, d1) -> lenN buf <= size.
Proof.
  intros size d buf err d1 H. unfold peek in H. destruct (lenN (d_rem d) <? size) eqn:E.
  - inversion H; subst. lia.
  - inversion H; subst. apply takeN_len_le_size.
Qed.

Definition ru_buf (r : rures) : bytes := match r with RFound b => b | REof b => b | _ => [] end.

Lemma read_until_any_bound : forall fuel size maxSize d r d',
  read_until fuel size maxSize d = (r, d') -> lenN (ru_buf r) <= N.max size maxSize.
Proof.
  induction fuel as [|f IH]; intros size maxSize d r d' H; cbn [read_until] in H; [inversion H; cbn; lia|].
  destruct (peek size d) as [[b0 err] d1] eqn:Ep. apply peek_len in Ep.
  destruct (delim_end b0) as [e|].
  - inversion H; subst. cbn. pose proof (takeN_len_le_len e b0). lia.
  - destruct (err && (lenN b0 =? lenN (d_rem d1))); [inversion H; subst; cbn; lia|].
    destruct (maxSize <? size * 2) eqn:E; [inversion H; cbn; lia|].
    apply IH in H. lia.
Qed.

Lemma read_exact_len : forall size d buf d', read_exact size d = (Some buf, d') -> lenN buf = size.
Proof.
  intros size d buf d' H. unfold read_exact in H. destruct (peek size d) as [[b0 err] d1].
  destruct (lenN b0 =? size) eqn:E; inversion H; subst. apply N.eqb_eq in E. exact E.
Qed.

Lemma removelast_len : forall s : bytes, lenN (removelast s) <= lenN s.
Proof.
  intro s. unfold lenN. destruct s as [|c s]; [cbn; lia|].
  assert (c :: s <> []) by discriminate. rewrite (app_removelast_last 0 H) at 2. rewrite app_length. cbn. lia.
Qed.

Lemma cut_first_cons_none : forall c X, cut_first_nlnl (c :: X) = None ->
  has_prefix NLNL (c :: X) = false /\ cut_first_nlnl X = None.
Proof.
  intros c X H. cbn [cut_first_nlnl] in H. destruct (has_prefix NLNL (c :: X)); [discriminate|].
  split; [reflexivity|]. destruct (cut_first_nlnl X) as [[a b]|]; [discriminate|reflexivity].
Qed.

Lemma has_prefix_nlnl_firstn : forall c r k, has_prefix NLNL (c :: firstn (S k) r) = has_prefix NLNL (c :: r).
Proof. intros c r k. destruct r as [|x r]; reflexivity. Qed.

Lemma delim_end_cons : forall c r, has_prefix NLNL (c :: r) = false ->
  delim_end (c :: r) = match delim_end r with Some e => Some (1 + e) | None => None end.
Proof.
  intros c r H. unfold delim_end. cbn [cut_first_nlnl]. rewrite H.
  destruct (cut_first_nlnl r) as [[a b]|]; [|reflexivity]. unfold lenN. cbn [length]. f_equal. lia.
Qed.

Lemma overlap_nat : forall k s, cut_first_nlnl (firstn (S k) s) = None ->
  delim_end s = match delim_end (skipn (Nat.min k (length s)) s) with
                | Some e => Some (N.of_nat (Nat.min k (length s)) + e)
                | None => None
                end.
Proof.
  induction k as [|k IH]; intros s H.
  - cbn. destruct (delim_end s); reflexivity.
  - destruct s as [|c r]; [reflexivity|].
    change (firstn (S (S k)) (c :: r)) with (c :: firstn (S k) r) in H.
    apply cut_first_cons_none in H. destruct H as [Hp Hc]. rewrite has_prefix_nlnl_firstn in Hp.
    rewrite (delim_end_cons c r Hp). rewrite (IH r Hc). cbn [length]. rewrite <- Nat.succ_min_distr. cbn [skipn].
    destruct (delim_end (skipn (Nat.min k (length r)) r)); [f_equal; lia|reflexivity].
Qed.

Lemma delim_end_none : forall s, delim_end s = None <-> cut_first_nlnl s = None.
Proof. intro s. unfold delim_end. destruct (cut_first_nlnl s) as [[a b]|]; split; intro H; congruence. Qed.

Lemma firstn_min_length : forall (A : Type) n (s : list A), firstn (Nat.min n (length s)) s = firstn n s.
Proof.
  intros A n s. destruct (Nat.le_ge_cases n (length s)) as [L|L].
  - rewrite Nat.min_l by exact L. reflexivity.
  - rewrite Nat.min_r by exact L. rewrite firstn_all. symmetry. apply firstn_all2. exact L.
Qed.

Lemma takeN_firstn : forall n s, takeN n s = firstn (N.to_nat n) s.
Proof.
  intros n s. unfold takeN, lenN. rewrite <- (firstn_min_length _ (N.to_nat n) s). f_equal. lia.
Qed.

Lemma overlap_N : forall last s, delim_end (takeN (last + 1) s) = None -> delim_end_from last s = delim_end s.
Proof.
  intros last s H. apply delim_end_none in H. rewrite takeN_firstn in H.
  replace (N.to_nat (last + 1)) with (S (N.to_nat last)) in H by lia.
  rewrite (overlap_nat _ _ H). unfold delim_end_from, dropN, lenN.
  replace (N.to_nat (N.min last (N.of_nat (length s)))) with (Nat.min (N.to_nat last) (length s)) by lia.
  destruct (delim_end (skipn (Nat.min (N.to_nat last) (length s)) s)); [f_equal; lia|reflexivity].
Qed.

Lemma takeN_takeN : forall a b s, a <= b -> takeN a (takeN b s) = takeN a s.
Proof.
  intros a b s H. rewrite !takeN_firstn. rewrite firstn_firstn. f_equal. lia.
Qed.

Theorem read_until_overlap_gen : forall fuel last size maxSize d,
  1 <= size -> last + 1 <= size -> delim_end (takeN (last + 1) (d_rem d)) = None ->
  read_until_go fuel last size maxSize d = read_until fuel size maxSize d.
Proof.
  induction fuel as [|f IH]; intros last size maxSize d Hs Hl Hpre; [reflexivity|].
  cbn [read_until_go read_until]. unfold peek. destruct (lenN (d_rem d) <? size) eqn:Eshort.
  - rewrite (overlap_N last (d_rem d) Hpre). cbn [d_rem d_eof]. rewrite N.eqb_refl. cbn [andb].
    destruct (delim_end (d_rem d)); reflexivity.
  - assert (Hb : delim_end (takeN (last + 1) (takeN size (d_rem d))) = None)
      by (rewrite takeN_takeN by exact Hl; exact Hpre).
    rewrite (overlap_N last _ Hb).
    destruct (delim_end (takeN size (d_rem d))) as [e|] eqn:Ed; [reflexivity|].
    destruct (d_eof d && (lenN (takeN size (d_rem d)) =? lenN (d_rem d))); [reflexivity|].
    destruct (maxSize <? size * 2); [reflexivity|].
    apply IH; [lia|lia|]. replace (size - 1 + 1) with size by lia. exact Ed.
Qed.

Lemma delim_end_short : forall s, lenN s <= 1 -> delim_end s = None.
Proof.
  intros [|c [|c2 r]] H; try reflexivity.
  - unfold delim_end. cbn [cut_first_nlnl has_prefix NLNL]. rewrite andb_false_r. reflexivity.
  - unfold lenN in H. cbn [length] in H. lia.
Qed.

Lemma has_prefix_nlnl_cons : forall c r, has_prefix NLNL (c :: r) = (NL =? c) && has_prefix [NL] r.
Proof. reflexivity. Qed.

Lemma last_app : forall (a b : bytes) d, b <> [] -> last (a ++ b) d = last b d.
Proof.
  induction a as [|c a IH]; intros b d H; [reflexivity|]. cbn [app]. rewrite <- (IH b d H).
  destruct (a ++ b) eqn:E; [apply app_eq_nil in E; tauto|reflexivity].
Qed.

(* The search for the first blank line passes over a part that has none and does not end in a newline; what it then
   finds is what it finds in the rest. *)
Lemma cut_first_app : forall s t, cut_first_nlnl s = None -> last s 0 <> NL ->
  cut_first_nlnl (s ++ t) = match cut_first_nlnl t with Some (a, b) => Some (s ++ a, b) | None => None end.
Proof.
  induction s as [|c r IH]; intros t H Hl; [cbn [app]; destruct (cut_first_nlnl t) as [[a b]|]; reflexivity|].
  apply cut_first_cons_none in H as [Hp Hc].
  assert (Hp' : has_prefix NLNL (c :: r ++ t) = false).
  { destruct r as [|x r']; [|exact Hp]. rewrite has_prefix_nlnl_cons. destruct (N.eqb_spec NL c); [|reflexivity].
    cbn in Hl. congruence. }
  cbn [app cut_first_nlnl]. rewrite Hp', (IH t Hc); [destruct (cut_first_nlnl t) as [[a b]|]; reflexivity|].
  destruct r; [discriminate|exact Hl].
Qed.

Lemma cut_first_app_sep : forall s t, cut_first_nlnl s = None -> last s 0 <> NL ->
  cut_first_nlnl (s ++ NLNL ++ t) = Some (s, t).
Proof. intros s t H Hl. rewrite (cut_first_app s _ H Hl). cbn. rewrite app_nil_r. reflexivity. Qed.

Lemma cut_last_cons : forall c r,
  cut_last_nlnl (c :: r) = match cut_last_nlnl r with
                           | Some (a, b) => Some (c :: a, b)
                           | None => if has_prefix NLNL (c :: r) then Some ([], skipn 1 r) else None
                           end.
Proof. reflexivity. Qed.

Lemma cut_last_none : forall t, cut_first_nlnl t = None -> cut_last_nlnl t = None.
Proof.
  induction t as [|c r IH]; intro H; [reflexivity|]. apply cut_first_cons_none in H as [Hp Hc].
  rewrite cut_last_cons, (IH Hc), Hp. reflexivity.
Qed.

Lemma cut_last_app : forall s t a b, cut_last_nlnl t = Some (a, b) -> cut_last_nlnl (s ++ t) = Some (s ++ a, b).
Proof.
  induction s as [|c r IH]; intros t a b H; [exact H|]. cbn [app]. rewrite cut_last_cons, (IH _ _ _ H). reflexivity.
Qed.

Lemma cut_last_app_sep : forall s t, cut_first_nlnl t = None -> has_prefix [NL] t = false ->
  cut_last_nlnl (s ++ NLNL ++ t) = Some (s, t).
Proof.
  intros s t H Hh. rewrite <- (app_nil_r s) at 2. apply cut_last_app.
  assert (E : cut_last_nlnl (NL :: t) = None).
  { rewrite cut_last_cons, (cut_last_none t H), has_prefix_nlnl_cons, Hh. reflexivity. }
  cbn [app NLNL]. rewrite cut_last_cons, E. reflexivity.
Qed.

Lemma split_hd_nonempty : forall s l ls, split_lines s = l :: ls -> l <> [] -> s <> [] /\ has_prefix [NL] s = false.
Proof.
  intros [|c r] l ls E Hl; cbn in E; [congruence|]. split; [discriminate|]. cbn [has_prefix]. rewrite N.eqb_sym.
  destruct (c =? NL); [congruence|reflexivity].
Qed.

Lemma no_blank_line : forall s l0 ls, split_lines s = l0 :: ls -> Forall (fun l : line => l <> []) ls ->
  cut_first_nlnl s = None /\ last s 0 <> NL.
Proof.
  induction s as [|c r IH]; intros l0 ls E H; [split; [reflexivity|discriminate]|].
  cbn [split_lines] in E. cbn [cut_first_nlnl]. rewrite has_prefix_nlnl_cons, N.eqb_sym.
  destruct (split_lines r) as [|l ls'] eqn:Er; [destruct (split_lines_nonempty r Er)|]. destruct (N.eqb_spec c NL) as [->|Hc].
  - inversion E; subst. inversion H as [|? ? Hl H']; subst. destruct (split_hd_nonempty r l ls' Er Hl) as [Hr ->].
    destruct (IH l ls' eq_refl H') as [-> Hlast]. split; [reflexivity|]. destruct r; [congruence|exact Hlast].
  - inversion E; subst. destruct (IH l ls eq_refl H) as [-> Hlast]. split; [reflexivity|]. destruct r; [exact Hc|exact Hlast].
Qed.

Section hv_ind2.
  Variable P : hv -> Prop.
  Hypothesis HS : forall ls, P (Str ls).
  Hypothesis HL : forall l, Forall P l -> P (Lst l).
  Hypothesis HM : forall m, Forall (fun kv => P (snd kv)) m -> P (Map m).
  Fixpoint hv_ind2 (v : hv) : P v :=
    match v with
    | Str ls => HS ls
    | Lst l => HL l ((fix go (l : list hv) : Forall P l :=
                        match l with
                        | [] => Forall_nil _
                        | x :: r => Forall_cons x (hv_ind2 x) (go r)
                        end) l)
    | Map m => HM m ((fix go (m : list (bytes * hv)) : Forall (fun kv => P (snd kv)) m :=
                        match m with
                        | [] => Forall_nil _
                        | (k, x) :: r => Forall_cons (k, x) (hv_ind2 x) (go r)
                        end) m)
    end.
End hv_ind2.

Lemma format_lines_nonempty : forall v intro b, intro <> [] -> Forall (fun l : line => l <> []) (format_entry intro v b).
Proof.
  intro v. induction v as [ls|l IH|m IH] using hv_ind2; intros intro b Hi.
  - assert (Hx : forall x : bytes, intro ++ x <> []) by (intros x E; apply app_eq_nil in E; tauto).
    destruct ls as [|l1 [|l2 ls]]; cbn [format_entry].
    + constructor; [apply Hx|constructor].
    + constructor; [apply Hx|constructor].
    + constructor; [exact Hi|]. apply Forall_forall. intros x Hin. apply in_map_iff in Hin. destruct Hin as [y [<- _]].
      replace (b + 4)%nat with (S (b + 3)) by lia. cbn. discriminate.
  - destruct l as [|e l]; cbn [format_entry]; [constructor|]. constructor; [exact Hi|].
    apply Forall_flat_map, Forall_forall. intros x Hin. rewrite Forall_forall in IH. apply (IH x Hin).
    unfold list_intro. intro E. apply app_eq_nil in E. destruct E; discriminate.
  - destruct m as [|kv m]; cbn [format_entry]; [constructor|]. constructor; [exact Hi|].
    apply Forall_flat_map, Forall_forall. intros x Hin. rewrite Forall_forall in IH. apply (IH x Hin).
    unfold map_intro. replace (b + 2)%nat with (S (b + 1)) by lia. intro E. cbn in E. discriminate.
Qed.

(* the header text of an assertion has no blank line and does not end in a newline: the first blank line of a
   serialized assertion is the one after the headers *)
Lemma head_text_ok : forall h,
  norm_headers h = true -> h <> [] -> forallb no_nl (format_headers h) = true ->
  cut_first_nlnl (join_lines (format_headers h)) = None /\ last (join_lines (format_headers h)) 0 <> NL.
Proof.
  intros h Hn Hne Hl. pose proof (split_join _ (format_headers_nonempty h Hn Hne) Hl) as Es.
  assert (Hok : Forall (fun l : line => l <> []) (format_headers h)).
  { unfold format_headers. apply Forall_flat_map, Forall_forall. intros [k v] _. apply format_lines_nonempty.
    intro E. apply app_eq_nil in E. destruct E; discriminate. }
  destruct (format_headers h) as [|l0 ls]; [discriminate|]. inversion Hok; subst. eapply no_blank_line; eassumption.
Qed.

Theorem assertion_roundtrip : forall h body sig,
  norm_headers h = true -> h <> [] ->
  forallb no_nl (format_headers h) = true -> utf8_valid (join_lines (format_headers h)) = true ->
  cut_first_nlnl sig = None -> has_prefix [NL] sig = false ->
  decode_parts (encode_assertion h body sig) = Ok (mkParts h body sig (content_of (join_lines (format_headers h)) body)).
Proof.
  intros h body sig Hn Hne Hl Hu Hs1 Hs2.
  pose proof (roundtrip_bytes h Hn Hne Hl Hu) as Hrt. destruct (head_text_ok h Hn Hne Hl) as [Hc Hlast].
  unfold decode_parts, encode_assertion, encode. rewrite (cut_last_app_sep _ sig Hs1 Hs2).
  unfold content_of. destruct body as [|b0 body']; cbn [is_nil_b].
  - rewrite Hc, Hrt. reflexivity.
  - rewrite (cut_first_app_sep _ (b0 :: body') Hc Hlast), Hrt. reflexivity.
Qed.

Lemma peek_fill_spec : forall n chunks buf b chunks' hit,
  peek_fill n buf chunks = (b, chunks', hit) ->
  b ++ concat chunks' = buf ++ concat chunks /\
  (hit = false -> (n <= length b)%nat) /\ (hit = true -> chunks' = [] /\ (length b < n)%nat).
Proof.
  intros n. induction chunks as [|c r IH]; intros buf b chunks' hit H; cbn [peek_fill] in H.
  - inversion H; subst. split; [reflexivity|]. split; intro E.
    + apply Nat.ltb_ge in E. exact E.
    + apply Nat.ltb_lt in E. split; [reflexivity|exact E].
  - destruct (Nat.leb n (length buf)) eqn:L.
    + inversion H; subst. split; [reflexivity|]. split; [intros _; apply Nat.leb_le; exact L|discriminate].
    + apply IH in H. destruct H as [H1 H2]. split; [|exact H2]. rewrite H1. cbn [concat]. rewrite app_assoc. reflexivity.
Qed.

Theorem chunk_peek_flat : forall n buf chunks,
  chunk_peek n buf chunks =
  let flat := buf ++ concat chunks in
  if Nat.ltb (length flat) n then (flat, true) else (firstn n flat, false).
Proof.
  intros n buf chunks. unfold chunk_peek. destruct (peek_fill n buf chunks) as [[b chunks'] hit] eqn:E.
  apply peek_fill_spec in E. destruct E as [Hf [H0 H1]]. cbn zeta. rewrite <- Hf. destruct hit.
  - destruct (H1 eq_refl) as [-> Hlt]. cbn [concat]. rewrite app_nil_r.
    replace (Nat.ltb (length b) n) with true by (symmetry; apply Nat.ltb_lt; exact Hlt).
    rewrite firstn_all2 by lia. reflexivity.
  - specialize (H0 eq_refl).
    replace (Nat.ltb (length (b ++ concat chunks')) n) with false
      by (symmetry; apply Nat.ltb_ge; rewrite app_length; lia).
    rewrite firstn_app. replace (n - length b)%nat with 0%nat by lia. cbn [firstn]. rewrite app_nil_r. reflexivity.
Qed.

(* stream_decode is taken apart call by call; no step may unfold the ru_fuel rounds of read_until *)
Local Opaque ru_fuel read_until read_exact parse_headers body_length.

(* the signature a Decode call hands on is what one readUntil returned, less a final newline *)
Lemma sig_bound : forall fuel size maxSize d r d', read_until fuel size maxSize d = (r, d') ->
  lenN (if has_suffix_nlnl (ru_buf r) then removelast (ru_buf r) else ru_buf r) <= N.max size maxSize.
Proof.
  intros fuel size maxSize d r d' H. apply read_until_any_bound in H.
  destruct (has_suffix_nlnl (ru_buf r)); [eapply N.le_trans; [apply removelast_len|]|]; exact H.
Qed.

(* What one Decode call of the stream decoder model can return, whatever the stream and the limits: an assertion it
   hands on respects the body and signature limits, and it never panics - the header parser is total, and the capacity
   len(headAndSep)+length handed to make() is never negative once a negative body-length is rejected. *)
Definition decode_result_ok (lim : limits) (r : sres) : Prop :=
  match r with
  | SOk p => lenN (p_body p) <= l_body lim /\ lenN (p_sig p) <= N.max (l_buf lim) (l_sig lim)
  | SPanic => False
  | _ => True
  end.

Lemma stream_decode_ok : forall lim d, decode_result_ok lim (fst (stream_decode lim d)).
Proof.
  intros lim d. unfold stream_decode.
  destruct (read_until ru_fuel (l_buf lim) (l_headers lim) d) as [[buf|buf| |] d1]; try exact I.
  2:{ destruct (is_nil_b buf); exact I. }
  destruct (parse_headers_total (firstn (length buf - 2) buf)) as [E|[h E]]; rewrite E; [exact I|].
  destruct (body_length h) as [len|]; [|exact I].
  destruct (len <? 0)%Z eqn:Eneg; [exact I|].
  destruct (Z.of_N (l_body lim) <? len)%Z eqn:Elim; [exact I|].
  destruct (Z.of_N (lenN buf) + len <? 0)%Z eqn:En; [lia|].
  destruct (if (0 <? len)%Z then read_exact (Z.to_N len) d1 else (Some [], d1)) as [[body|] d2] eqn:Er; [|exact I].
  assert (Hb : lenN (if (0 <? len)%Z then body else []) <= l_body lim).
  { destruct (0 <? len)%Z; [apply read_exact_len in Er; lia|cbn; lia]. }
  destruct (read_until ru_fuel (l_buf lim) (l_sig lim) d2) as [r1 d3] eqn:E1. pose proof (sig_bound _ _ _ _ _ _ E1) as B1.
  destruct r1 as [b1|b1| |]; try exact I;
    (destruct (beq b1 NLNL); [|destruct (0 <? len)%Z; [exact I|split; [cbn; lia|exact B1]]]);
    destruct (read_until ru_fuel (l_buf lim) (l_sig lim) d3) as [r2 d4] eqn:E2;
    pose proof (sig_bound _ _ _ _ _ _ E2) as B; destruct r2; try exact I; (split; [exact Hb|exact B]).
Qed.

Theorem stream_never_panics : forall lim d, fst (stream_decode lim d) <> SPanic.
Proof. intros lim d H. pose proof (stream_decode_ok lim d) as Hok. rewrite H in Hok. exact Hok. Qed.

Theorem stream_all_never_panics : forall accepted lim d, ~ In SPanic (stream_all lim d accepted).
Proof.
  induction accepted as [|a acc IH]; intros lim d Hin; cbn [stream_all] in Hin; [contradiction|].
  pose proof (stream_never_panics lim d) as Hnp.
  destruct (stream_decode lim d) as [r d1]. cbn [fst] in Hnp.
  destruct r; try (destruct Hin as [Hin|[]]; congruence).
  destruct a.
  - destruct Hin as [Hin|Hin]; [discriminate|]. exact (IH lim d1 Hin).
  - destruct Hin as [Hin|[]]; discriminate.
Qed.
