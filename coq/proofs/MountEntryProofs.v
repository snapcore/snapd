(* C28 (codec part): proofs about models/MountEntry.v. A guarded entry prints as six words (non-empty, free of blank, tab
   and newline) joined by single blanks; FieldsFunc and ScanLines give such a line back word by word, and Atoi, unescape and
   Split undo %d, escape and Join on each word. *)
From Coq Require Import List NArith ZArith Bool Lia ZifyBool.
Import ListNotations.
Require Import V.lib.Bytes V.lib.Dec V.proofs.DecProofs V.proofs.ListFacts V.models.MountEntry.
Open Scope N_scope.

Lemma escape_byte_cases : forall c,
  (c = 32 /\ escape_byte c = [92; 48; 52; 48]) \/ (c = 9 /\ escape_byte c = [92; 48; 49; 49]) \/
  (c = 10 /\ escape_byte c = [92; 48; 49; 50]) \/ (c = 92 /\ escape_byte c = [92; 49; 51; 52]) \/
  (c <> 32 /\ c <> 9 /\ c <> 10 /\ c <> 92 /\ escape_byte c = [c]).
Proof.
  intro c. unfold escape_byte.
  destruct (c =? 32) eqn:E1; [left; split; [lia | reflexivity]|].
  destruct (c =? 9) eqn:E2; [right; left; split; [lia | reflexivity]|].
  destruct (c =? 10) eqn:E3; [right; right; left; split; [lia | reflexivity]|].
  destruct (c =? 92) eqn:E4; [right; right; right; left; split; [lia | reflexivity]|].
  right; right; right; right. repeat split; lia.
Qed.

Theorem unescape_escape : forall s, unescape (escape s) = s.
Proof.
  induction s as [|c s IH]; [reflexivity|].
  cbn [escape].
  destruct (escape_byte_cases c) as [[-> ->]|[[-> ->]|[[-> ->]|[[-> ->]|(H1 & H2 & H3 & H4 & ->)]]]];
    try (cbn; rewrite IH; reflexivity).
  cbn [app unescape]. replace (c =? 92) with false by lia. rewrite IH. reflexivity.
Qed.

Definition clean_byte (c : N) : bool := negb (c =? 32) && negb (c =? 9) && negb (c =? 10).

Lemma escape_clean : forall s, forallb clean_byte (escape s) = true.
Proof.
  induction s as [|c s IH]; [reflexivity|].
  cbn [escape]. rewrite forallb_app, IH, andb_true_r.
  destruct (escape_byte_cases c) as [[-> ->]|[[-> ->]|[[-> ->]|[[-> ->]|(H1 & H2 & H3 & H4 & ->)]]]]; try reflexivity.
  cbn. unfold clean_byte. lia.
Qed.

Lemma escape_nonempty : forall s, s <> [] -> escape s <> [].
Proof.
  intros [|c s] H; [congruence|]. cbn [escape].
  destruct (escape_byte_cases c) as [[-> ->]|[[-> ->]|[[-> ->]|[[-> ->]|(H1 & H2 & H3 & H4 & ->)]]]]; discriminate.
Qed.

Lemma escape_starts_hash : forall s, starts_hash (escape s) = starts_hash s.
Proof.
  intros [|c s]; [reflexivity|]. cbn [escape].
  destruct (escape_byte_cases c) as [[-> ->]|[[-> ->]|[[-> ->]|[[-> ->]|(H1 & H2 & H3 & H4 & ->)]]]]; reflexivity.
Qed.

(* one field of a printed entry *)
Definition word (w : bytes) : Prop := w <> [] /\ forallb clean_byte w = true.
Definition no_nl (w : bytes) : bool := forallb (fun c => negb (c =? 10)) w.

Lemma rev_nonempty : forall w : bytes, w <> [] -> exists c r, rev w = c :: r.
Proof.
  intros w H. destruct (rev w) as [|c r] eqn:E; [|eauto].
  destruct H. rewrite <- (rev_involutive w), E. reflexivity.
Qed.

Lemma fields_aux_word : forall w cur rest, forallb clean_byte w = true ->
  fields_aux cur (w ++ rest) = fields_aux (rev w ++ cur) rest.
Proof.
  induction w as [|c w IH]; intros cur rest H; [reflexivity|].
  cbn [forallb] in H. apply andb_true_iff in H as [H1 H2].
  cbn [app fields_aux]. replace (is_blank c) with false by (unfold clean_byte, is_blank in *; lia).
  rewrite IH by exact H2. cbn [rev]. rewrite <- app_assoc. reflexivity.
Qed.

Lemma fields_words : forall ws, Forall word ws -> fields (join 32 ws) = ws.
Proof.
  unfold fields. induction 1 as [|w ws W _ IH]; [reflexivity|].
  destruct W as [Hne W]. destruct (rev_nonempty w Hne) as (c & r & E).
  destruct ws as [|w' ws].
  - cbn [join]. rewrite <- (app_nil_r w) at 1. rewrite fields_aux_word, app_nil_r by exact W. cbn [fields_aux].
    rewrite E, <- E, rev_involutive. reflexivity.
  - change (join 32 (w :: w' :: ws)) with (w ++ 32 :: join 32 (w' :: ws)).
    rewrite fields_aux_word, app_nil_r by exact W. cbn [fields_aux]. replace (is_blank 32) with true by reflexivity.
    rewrite E, <- E, rev_involutive, IH. reflexivity.
Qed.

Lemma words_no_nl : forall ws, Forall word ws -> no_nl (join 32 ws) = true.
Proof.
  induction 1 as [|w ws [_ W] _ IH]; [reflexivity|].
  assert (N : no_nl w = true) by (revert W; apply forallb_impl; unfold clean_byte; lia).
  destruct ws as [|w' ws]; [exact N|].
  change (join 32 (w :: w' :: ws)) with (w ++ 32 :: join 32 (w' :: ws)).
  unfold no_nl in *. rewrite forallb_app, N. exact IH.
Qed.

Lemma drop_comment_id : forall ws, Forall (fun w => starts_hash w = false) ws -> drop_comment ws = ws.
Proof. induction 1 as [|w ws H _ IH]; [reflexivity|]. cbn [drop_comment]. rewrite H, IH. reflexivity. Qed.

Lemma digit_props : forall c, is_digit c = true ->
  clean_byte c = true /\ (c =? 45) = false /\ (c =? 43) = false /\ (c =? 35) = false /\ (c =? 13) = false.
Proof. unfold is_digit, clean_byte. intros. lia. Qed.

(* %d prints an optional minus sign and the decimal digits of the absolute value *)
Lemma zdec_split : forall z, exists s n, zdec z = s ++ dec n /\ (s = [] \/ s = [45]).
Proof.
  intros [|p|p]; cbn [zdec]; [exists [], (Z.to_N 0) | exists [], (Z.to_N (Z.pos p)) | exists [45], (N.pos p)]; auto.
Qed.

Lemma zdec_word : forall z, word (zdec z).
Proof.
  intro z. destruct (zdec_split z) as (s & n & -> & Hs). split.
  - intro H. apply app_eq_nil in H as [_ H]. exact (dec_nonempty n H).
  - rewrite forallb_app. rewrite (forallb_impl is_digit clean_byte (dec n)); [| apply digit_props | apply dec_digits].
    destruct Hs as [-> | ->]; reflexivity.
Qed.

Lemma zdec_no_hash : forall z, starts_hash (zdec z) = false.
Proof.
  intro z. destruct (zdec_split z) as (s & n & -> & [-> | ->]); [|reflexivity].
  destruct (dec_hd_digit n) as (c & r & -> & Hc). cbn [app starts_hash]. apply (digit_props c Hc).
Qed.

Lemma zdec_last_digit : forall z, exists c r, rev (zdec z) = c :: r /\ is_digit c = true.
Proof.
  intro z. destruct (zdec_split z) as (s & n & -> & _). rewrite rev_app_distr.
  destruct (rev_nonempty (dec n) (dec_nonempty n)) as (c & r & E). rewrite E.
  exists c, (r ++ rev s). split; [reflexivity|].
  pose proof (dec_digits n) as D. rewrite forallb_forall in D. apply D, in_rev. rewrite E. left. reflexivity.
Qed.

Lemma atoi_zdec : forall z, in_int z = true -> atoi (zdec z) = Some z.
Proof.
  intros [|p|p] Hz; cbn [zdec].
  - reflexivity.
  - destruct (dec_hd_digit (Z.to_N (Z.pos p))) as (c & r & E & Hc). rewrite E. cbn [atoi].
    destruct (digit_props c Hc) as (_ & -> & -> & _). rewrite <- E. unfold atoi_digits. rewrite undec_dec.
    replace (Z.of_N (Z.to_N (Z.pos p))) with (Z.pos p) by reflexivity. rewrite Hz. reflexivity.
  - cbn [atoi]. replace (45 =? 45) with true by reflexivity. unfold atoi_digits. rewrite undec_dec.
    replace (- Z.of_N (N.pos p))%Z with (Z.neg p) by reflexivity. rewrite Hz. reflexivity.
Qed.

Lemma split_on_nonempty : forall sep s, split_on sep s <> [].
Proof.
  induction s as [|c s IH]; cbn [split_on]; [discriminate|].
  destruct (c =? sep); [discriminate|]. destruct (split_on sep s); discriminate.
Qed.

Lemma split_on_piece_sep : forall a r, no_comma a = true -> split_on 44 (a ++ 44 :: r) = a :: split_on 44 r.
Proof.
  induction a as [|c a IH]; intros r H; [reflexivity|].
  cbn [no_comma forallb] in H. apply andb_true_iff in H as [H1 H2].
  cbn [app split_on]. destruct (c =? 44); [discriminate|]. rewrite (IH r H2). reflexivity.
Qed.

Lemma split_on_piece : forall a, no_comma a = true -> split_on 44 a = [a].
Proof.
  induction a as [|c a IH]; [reflexivity|]. cbn [no_comma forallb]. intros H.
  apply andb_true_iff in H as [H1 H2]. cbn [split_on]. destruct (c =? 44); [discriminate|].
  rewrite (IH H2). reflexivity.
Qed.

Lemma split_join : forall opts, opts <> [] -> forallb no_comma opts = true -> split_on 44 (join 44 opts) = opts.
Proof.
  induction opts as [|a opts IH]; intros Hne H; [congruence|].
  cbn [forallb] in H. apply andb_true_iff in H as [H1 H2].
  destruct opts as [|b opts]; [apply split_on_piece, H1|].
  change (join 44 (a :: b :: opts)) with (a ++ 44 :: join 44 (b :: opts)).
  rewrite split_on_piece_sep by exact H1. rewrite IH; [reflexivity | discriminate | exact H2].
Qed.

Lemma guard_parts : forall e, guard e = true ->
  field_ok (e_name e) = true /\ field_ok (e_dir e) = true /\ field_ok (e_type e) = true /\
  e_opts e <> [] /\ field_ok (join 44 (e_opts e)) = true /\ forallb no_comma (e_opts e) = true /\
  in_int (e_freq e) = true /\ in_int (e_pass e) = true.
Proof.
  intros e G. unfold guard in G. rewrite !andb_true_iff in G. destruct G as [[[[[[[H1 H2] H3] H4] H5] H6] H7] H8].
  repeat split; try assumption. destruct (e_opts e); discriminate.
Qed.

Lemma field_ok_escape : forall f, field_ok f = true ->
  or_none f = escape f /\ word (escape f) /\ starts_hash (escape f) = false.
Proof.
  intros f H. unfold field_ok in H. apply andb_true_iff in H as [H1 H2].
  rewrite escape_starts_hash. destruct f; [discriminate|].
  split; [reflexivity|]. split; [split; [apply escape_nonempty; discriminate | apply escape_clean] | apply negb_true_iff, H2].
Qed.

Definition printed_words (e : entry) : list bytes :=
  [escape (e_name e); escape (e_dir e); escape (e_type e); escape (join 44 (e_opts e)); zdec (e_freq e); zdec (e_pass e)].

Lemma guard_words : forall e, guard e = true ->
  entry_string e = join 32 (printed_words e) /\ Forall word (printed_words e) /\
  Forall (fun w => starts_hash w = false) (printed_words e).
Proof.
  intros e G. destruct (guard_parts e G) as (G1 & G2 & G3 & G4 & G5 & _).
  destruct (field_ok_escape _ G1) as (En & Wn & Hn). destruct (field_ok_escape _ G2) as (Ed & Wd & Hd).
  destruct (field_ok_escape _ G3) as (Et & Wt & Ht). destruct (field_ok_escape _ G5) as (_ & Wo & Ho).
  unfold printed_words. split; [|split].
  - unfold entry_string. rewrite En, Ed, Et. destruct (e_opts e); [congruence | reflexivity].
  - repeat (apply Forall_cons; [auto using zdec_word|]). apply Forall_nil.
  - repeat (apply Forall_cons; [auto using zdec_no_hash|]). apply Forall_nil.
Qed.

Theorem codec_roundtrip : forall e, guard e = true -> parse_entry (entry_string e) = Some e.
Proof.
  intros e G. destruct (guard_words e G) as (E & W & H).
  destruct (guard_parts e G) as (_ & _ & _ & G4 & _ & G6 & G7 & G8).
  unfold parse_entry. rewrite E, (fields_words _ W), (drop_comment_id _ H). unfold printed_words.
  rewrite !atoi_zdec by assumption. rewrite !unescape_escape.
  rewrite split_join; [destruct e; reflexivity | assumption | assumption].
Qed.

Definition bsl := bs.

Lemma lines_aux_word : forall w cur rest, no_nl w = true -> lines_aux cur (w ++ rest) = lines_aux (rev w ++ cur) rest.
Proof.
  induction w as [|c w IH]; intros cur rest H; [reflexivity|].
  cbn [no_nl forallb] in H. apply andb_true_iff in H as [H1 H2].
  cbn [app lines_aux]. destruct (c =? 10); [discriminate|].
  rewrite IH by exact H2. cbn [rev]. rewrite <- app_assoc. reflexivity.
Qed.

Lemma entry_string_rev : forall e, exists c r, rev (entry_string e) = c :: r /\ is_digit c = true.
Proof.
  intro e. unfold entry_string. destruct (zdec_last_digit (e_pass e)) as (c & r & E & Hc).
  repeat (rewrite rev_app_distr; cbn [rev]). rewrite E. cbn [app]. eauto.
Qed.

Lemma digit_suffix_len : forall c r, is_digit c = true -> space_suffix_len (c :: r) = 0%nat.
Proof.
  intros c r H. unfold is_digit in H. unfold space_suffix_len, ascii_space, in_2000_block.
  assert ((9 <=? c) && (c <=? 13) || (c =? 32) = false) as -> by lia.
  destruct r as [|d r2]; [reflexivity|].
  assert ((d =? 194) && ((c =? 133) || (c =? 160)) = false) as -> by lia.
  destruct r2 as [|e r3]; [reflexivity|].
  assert ((e =? 225) && (d =? 154) && (c =? 128) = false) as -> by lia.
  assert ((e =? 226) && (d =? 128) && ((128 <=? c) && (c <=? 138) || (c =? 168) || (c =? 169) || (c =? 175)) = false) as -> by lia.
  assert ((e =? 226) && (d =? 129) && (c =? 159) = false) as -> by lia.
  assert ((e =? 227) && (d =? 128) && (c =? 128) = false) as -> by lia.
  reflexivity.
Qed.

Lemma trim_left_id : forall n s, space_prefix_len s = 0%nat -> trim_left n s = s.
Proof. intros [|n] s H; [reflexivity|]. cbn [trim_left]. rewrite H. reflexivity. Qed.

Lemma trim_right_id : forall n s, space_suffix_len s = 0%nat -> trim_right_rev n s = s.
Proof. intros [|n] s H; [reflexivity|]. cbn [trim_right_rev]. rewrite H. reflexivity. Qed.

Lemma trim_space_line : forall e, name_untrimmed e = true -> trim_space (entry_string e) = entry_string e.
Proof.
  intros e H. unfold name_untrimmed in H. unfold trim_space.
  destruct (space_prefix_len (entry_string e)) eqn:E; [|discriminate].
  rewrite trim_left_id by exact E.
  destruct (entry_string_rev e) as (c & r & ER & Hc). rewrite ER.
  rewrite trim_right_id by (apply digit_suffix_len; exact Hc).
  rewrite <- ER. apply rev_involutive.
Qed.

Lemma lines_cons : forall e rest, guard e = true ->
  lines_aux [] (entry_string e ++ 10 :: rest) = entry_string e :: lines_aux [] rest.
Proof.
  intros e rest G. destruct (guard_words e G) as (E & W & _).
  rewrite lines_aux_word by (rewrite E; apply words_no_nl, W). rewrite app_nil_r.
  cbn [lines_aux]. replace (10 =? 10) with true by reflexivity.
  destruct (entry_string_rev e) as (c & r & ER & Hc). rewrite ER. unfold drop_cr.
  destruct (digit_props c Hc) as (_ & _ & _ & _ & ->). rewrite <- ER, rev_involutive. reflexivity.
Qed.

Lemma guard_line_props : forall e, guard e = true -> starts_hash (entry_string e) = false /\ is_nil_b (entry_string e) = false.
Proof.
  intros e G. destruct (guard_words e G) as (-> & W & H). unfold printed_words in *.
  apply Forall_inv in W as [Nn _]. apply Forall_inv in H.
  destruct (escape (e_name e)) as [|c r]; [congruence | auto].
Qed.

Theorem profile_roundtrip : forall es, forallb profile_guard es = true -> load_profile (profile_text es) = Some es.
Proof.
  unfold load_profile, lines.
  induction es as [|e es IH]; intros H; [reflexivity|].
  cbn [forallb] in H. apply andb_true_iff in H as [H1 H2]. unfold profile_guard in H1.
  apply andb_true_iff in H1 as [G U].
  cbn [profile_text]. rewrite lines_cons by exact G. cbn [parse_lines].
  rewrite trim_space_line by exact U.
  destruct (guard_line_props e G) as (-> & ->).
  rewrite codec_roundtrip by exact G. rewrite (IH H2). reflexivity.
Qed.

Lemma fields_aux_nonempty : forall s cur t, In t (fields_aux cur s) -> t <> [].
Proof.
  induction s as [|c s IH]; intros cur t H; cbn [fields_aux] in H.
  - destruct cur as [|x cur]; [destruct H|]. destruct H as [<- | []].
    destruct (rev_nonempty (x :: cur)) as (c' & r' & ->); discriminate.
  - destruct (is_blank c).
    + destruct cur as [|x cur]; [eapply IH; exact H|].
      destruct H as [<- | H]; [|eapply IH; exact H].
      destruct (rev_nonempty (x :: cur)) as (c' & r' & ->); discriminate.
    + eapply IH; exact H.
Qed.

Lemma drop_comment_In : forall fs t, In t (drop_comment fs) -> In t fs /\ starts_hash t = false.
Proof.
  induction fs as [|f fs IH]; intros t H; [destruct H|]. cbn [drop_comment] in H.
  destruct (starts_hash f) eqn:E; [destruct H|]. destruct H as [<- | H]; [auto with datatypes|].
  destruct (IH t H). auto with datatypes.
Qed.

Lemma esc_code_not_hash : forall d1 d2 d3 b, esc_code d1 d2 d3 = Some b -> (b =? 35) = false.
Proof.
  intros d1 d2 d3 b. unfold esc_code.
  repeat (destruct (_ && _ && _); [intro H; inversion H; reflexivity|]). discriminate.
Qed.

Lemma unescape_token : forall t, t <> [] -> starts_hash t = false -> field_ok (unescape t) = true.
Proof.
  intros [|c r] Hne Hh; [congruence|]. cbn [starts_hash] in Hh. unfold field_ok. cbn [unescape].
  destruct (c =? 92) eqn:E.
  - destruct r as [|d1 [|d2 [|d3 r']]]; try (cbn; rewrite Hh; reflexivity).
    destruct (esc_code d1 d2 d3) as [b|] eqn:EC; [|cbn; rewrite Hh; reflexivity].
    cbn. rewrite (esc_code_not_hash _ _ _ _ EC). reflexivity.
  - cbn. rewrite Hh. reflexivity.
Qed.

Lemma join_split : forall s, join 44 (split_on 44 s) = s.
Proof.
  induction s as [|c s IH]; [reflexivity|]. cbn [split_on].
  destruct (c =? 44) eqn:E.
  - apply N.eqb_eq in E. subst c. destruct (split_on 44 s) as [|p ps] eqn:S; [exfalso; eapply split_on_nonempty; exact S|].
    change (join 44 ([] :: p :: ps)) with ([] ++ 44 :: join 44 (p :: ps)). rewrite IH. reflexivity.
  - destruct (split_on 44 s) as [|p ps] eqn:S; [exfalso; eapply split_on_nonempty; exact S|].
    destruct ps as [|q qs].
    + cbn [join] in *. rewrite IH. reflexivity.
    + change (join 44 ((c :: p) :: q :: qs)) with ((c :: p) ++ 44 :: join 44 (q :: qs)).
      change (join 44 (p :: q :: qs)) with (p ++ 44 :: join 44 (q :: qs)) in IH. cbn [app]. rewrite IH. reflexivity.
Qed.

Lemma split_no_comma : forall s, forallb no_comma (split_on 44 s) = true.
Proof.
  induction s as [|c s IH]; [reflexivity|]. cbn [split_on].
  destruct (c =? 44) eqn:E; [cbn [forallb]; rewrite IH; reflexivity|].
  destruct (split_on 44 s) as [|p ps]; [cbn; rewrite E; reflexivity|].
  cbn [forallb] in *. apply andb_true_iff in IH as [H1 H2]. rewrite H2, andb_true_r.
  unfold no_comma in *. cbn [forallb]. rewrite E, H1. reflexivity.
Qed.

Lemma atoi_in_int : forall f z, atoi f = Some z -> in_int z = true.
Proof.
  intros f z. unfold atoi. destruct f as [|c r]; [discriminate|].
  assert (A : forall neg d, atoi_digits neg d = Some z -> in_int z = true).
  { intros neg d. unfold atoi_digits. destruct (undec d); [|discriminate].
    destruct (in_int (if neg then (- Z.of_N n)%Z else Z.of_N n)) eqn:I; [|discriminate]. intro H; inversion H; subst. exact I. }
  destruct (c =? 45); [apply A|]. destruct (c =? 43); apply A.
Qed.

Theorem parsed_meets_guard : forall s e, parse_entry s = Some e -> e_opts e <> [] -> guard e = true.
Proof.
  intros s e H Ho. unfold parse_entry in H.
  assert (T : forall t, In t (drop_comment (fields s)) -> field_ok (unescape t) = true).
  { intros t Ht. apply drop_comment_In in Ht as [Ht Hh]. apply unescape_token; [|exact Hh].
    eapply fields_aux_nonempty. exact Ht. }
  assert (G : forall n d t o fz pz, field_ok (unescape n) = true -> field_ok (unescape d) = true -> field_ok (unescape t) = true ->
              field_ok (unescape o) = true -> in_int fz = true -> in_int pz = true ->
              guard (mkEntry (unescape n) (unescape d) (unescape t) (split_on 44 (unescape o)) fz pz) = true).
  { intros n d t o fz pz H1 H2 H3 H4 H5 H6. unfold guard. cbn [e_name e_dir e_type e_opts e_freq e_pass].
    rewrite H1, H2, H3, join_split, H4, split_no_comma, H5, H6.
    destruct (split_on 44 (unescape o)) eqn:S; [exfalso; eapply split_on_nonempty; exact S | reflexivity]. }
  destruct (drop_comment (fields s)) as [|n [|d [|t [|o [|f [|p [|x r]]]]]]]; try discriminate.
  - inversion H; subst. cbn in Ho. congruence.
  - inversion H; subst. apply G; try reflexivity; apply T; cbn; auto.
  - destruct (atoi f) as [fz|] eqn:F; [|discriminate]. inversion H; subst.
    apply G; try reflexivity; try (apply T; cbn; auto). eapply atoi_in_int; exact F.
  - destruct (atoi f) as [fz|] eqn:F; [|discriminate]. destruct (atoi p) as [pz|] eqn:P; [|discriminate]. inversion H; subst.
    apply G; try (apply T; cbn; auto); eapply atoi_in_int; eassumption.
Qed.

