(* On models/TaskEngine.v (C03 / C01), settling. With handlers that return (nil or an error), no task waiting for a reboot and
   no delayed retry (okst), every round (Ensure ; finish every running handler) from an unsettled state raises the potential
   pot = (error count, rank sum) (round_progress), which is bounded in the number of tasks (pot_bound): settles. *)
From Coq Require Import List ZArith Lia.
Import ListNotations.
Require Import V.models.TaskEngine V.proofs.TaskEngineProofs V.proofs.TaskEngineStatus V.proofs.TaskEngineReady
               V.proofs.TaskEngineFuel V.proofs.TaskEngineDoing V.proofs.TaskEngineLive V.proofs.TaskEnginePass
               V.proofs.TaskEngineErr V.proofs.TaskEngineSettled.

(* the events of a round: Ensure, and handlers that return nil or an error *)
Definition okev (e : event) : Prop :=
  match e with Ensure _ => True | Finish _ OOk => True | Finish _ OErr => True | _ => False end.

Lemma wait_origin_step : forall s e u, inv s -> okev e -> st (step s e) u = Wait -> st s u = Wait.
Proof.
  intros s e u _ He. apply (step_ind (fun x => st x u = Wait -> st s u = Wait)); [|auto].
  intros x x' M Hx H.
  destruct (origin_move _ _ _ u Wait M (or_intror eq_refl) H) as [A|[(_ & _ & F)|[(b & -> & _)|(-> & _)]]];
    [auto | discriminate F | destruct He | destruct He].
Qed.

Definition at0 (s : state) : Prop := forall t, t_at (get s t) = 0%Z.

Lemma at0_tasks_upd : forall s t f, (forall tk, t_at (f tk) = t_at tk \/ t_at (f tk) = 0%Z) -> at0 s ->
  at0 (with_tasks s (upd (tasks s) t f)).
Proof.
  intros s t f Hf A u. unfold get; cbn [tasks with_tasks].
  destruct (nth_upd_cases (tasks s) t f u dummy) as [E|[_ E]]; rewrite E; [apply A|].
  destruct (Hf (nth u (tasks s) dummy)) as [E'|E']; rewrite E'; [apply A | reflexivity].
Qed.

Lemma at0_set_status : forall s t nw, at0 s -> at0 (set_status s t nw).
Proof. intros s t nw A u. rewrite at_set_status. apply A. Qed.
Lemma at0_try_undo : forall s t, at0 s -> at0 (try_undo s t).
Proof. intros s t A u. rewrite at_try_undo. apply A. Qed.
Lemma at0_abort_write : forall s t, at0 s -> at0 (abort_write s t).
Proof. intros s t A. rewrite abort_write_eq. destruct (abort_to _); [apply at0_tasks_upd|]; auto. Qed.
Lemma at0_abort_lanes_top : forall s lanes, at0 s -> at0 (abort_lanes_top s lanes).
Proof.
  intros s lanes A u. unfold abort_lanes_top, get. rewrite tasks_ready_detect.
  apply (abort_lanes_P at0); auto using at0_abort_write.
Qed.

Lemma at0_move : forall s e s', move s e s' -> okev e -> at0 s -> at0 s'.
Proof.
  intros s e s' M He A. destruct M; try destruct He.
  - apply at0_try_undo; exact A.
  - apply at0_set_status; exact A.
  - rewrite run_eq. apply at0_tasks_upd; auto. unfold run_write. destruct (st s t); auto using at0_set_status.
  - apply (at0_set_status (remove_running s t)). exact A.
  - exact A.
  - apply (at0_try_undo (remove_running s t)). exact A.
  - apply at0_set_status, (at0_abort_lanes_top (remove_running s t)). exact A.
Qed.

Lemma at0_step : forall s e, okev e -> at0 s -> at0 (step s e).
Proof. intros s e He. apply (step_ind at0). intros x x' M. apply (at0_move _ _ _ M He). Qed.
Lemma at0_gate : forall s t, at0 s -> gate_open s t = true.
Proof. intros s t A. unfold gate_open. rewrite (A t). reflexivity. Qed.

Record okst (rk : nat -> nat) (s : state) : Prop := mkOk {
  ok_inv : inv s; ok_sym : sym s; ok_rsym : rsym s; ok_kgood : kgood s; ok_oof : oof s = false;
  ok_rk : forall t w, In w (wts s t) -> rk w < rk t;
  ok_nowait : forall t, st s t <> Wait; ok_at : at0 s
}.

Lemma okst_step : forall rk s e, okev e -> okst rk s -> okst rk (step s e).
Proof.
  intros rk s e He [I Sy Rs K O Rk Nw A].
  pose proof (graph_step s e) as Fr.
  assert (Ga : e = UAbort -> cready s = false) by (intros ->; contradiction).
  assert (Wa : forall t, e = Finish t (OWait true) -> st s t <> Doing) by (intros t ->; contradiction).
  constructor.
  - apply inv_step; assumption.
  - eapply sym_graph; eauto.
  - eapply rsym_graph; eauto.
  - apply (kinv_step s e Wa I (conj Sy K)).
  - rewrite oof_step; assumption.
  - intros t w Hw. rewrite (wts_graph _ _ t Fr) in Hw. auto.
  - intros t F. apply (Nw t). eapply wait_origin_step; eauto.
  - apply at0_step; assumption.
Qed.

Lemma okst_run_events : forall rk es s, Forall okev es -> okst rk s -> okst rk (run_events s es).
Proof.
  unfold run_events. induction es; simpl; intros s F H; [assumption|]. inversion F; subst.
  apply IHes; [assumption | apply okst_step; assumption].
Qed.

Definition fin (oc : nat -> bool) (t : nat) : event := Finish t (if oc t then OErr else OOk).
Definition finish_all (s : state) (oc : nat -> bool) : state := run_events s (map (fin oc) (running s)).
Definition round (s : state) (order : list nat) (oc : nat -> bool) : state :=
  finish_all (ensure_pass s order) oc.

Lemma fin_okev : forall oc t, okev (fin oc t).
Proof. intros; unfold fin; destruct (oc t); exact I. Qed.
Lemma fin_all_okev : forall oc L, Forall okev (map (fin oc) L).
Proof. induction L; simpl; constructor; auto using fin_okev. Qed.

Lemma step_fin : forall s oc t, step s (fin oc t) = finish s t (if oc t then OErr else OOk).
Proof. reflexivity. Qed.

Lemma inv_fin : forall s oc t, inv s -> inv (step s (fin oc t)).
Proof. intros. apply inv_step; [unfold fin; discriminate | assumption]. Qed.

Lemma running_fin : forall s oc a x, inv s -> In x (running (step s (fin oc a))) -> In x (running s) /\ x <> a.
Proof.
  intros s oc a x I. rewrite step_fin. unfold finish. rewrite (i_np s I).
  destruct (memn a (running s)) eqn:Em; cbn [negb].
  - assert (R : forall y, running y = running (remove_running s a) -> In x (running y) -> In x (running s) /\ x <> a).
    { intros y -> H. apply filter_In in H. destruct H as [H N]. split; [exact H|]. intros ->. rewrite Nat.eqb_refl in N. discriminate. }
    destruct (oc a).
    + apply R. rewrite running_set_status. unfold abort_lanes_top. rewrite running_ready_detect.
      apply (qrel_abort_lanes _ _ [] [] (remove_running s a)).
    + destruct (st (remove_running s a) a); apply R; rewrite ?running_set_status; reflexivity.
  - intros H. split; [exact H|]. intros ->. apply memn_false in Em. contradiction.
Qed.

Lemma running_finish_list : forall oc L s x, inv s ->
  In x (running (run_events s (map (fin oc) L))) -> In x (running s) /\ ~ In x L.
Proof.
  unfold run_events. induction L as [|a L IH]; intros s x I H; cbn [map fold_left] in H; [tauto|].
  destruct (IH _ _ (inv_fin s oc a I) H) as [H1 H2]. destruct (running_fin _ _ _ _ I H1) as [H3 H4].
  split; [exact H3 | intros [<-|F]; auto].
Qed.

Lemma finish_all_no_tomb : forall s oc, inv s -> running (finish_all s oc) = [].
Proof.
  intros s oc I. destruct (running (finish_all s oc)) as [|x r] eqn:E; [reflexivity | exfalso].
  destruct (running_finish_list oc (running s) s x I) as [A B]; [|contradiction].
  unfold finish_all in E. rewrite E. left; reflexivity.
Qed.

Definition ec (s : state) : nat := length (filter (fun u => seqb (st s u) Error) (seq 0 (length (tasks s)))).

Lemma len_step : forall s e, length (tasks (step s e)) = length (tasks s).
Proof. intros. apply graph_len, graph_step. Qed.

Lemma ec_step_ge : forall s e, inv s -> ec s <= ec (step s e).
Proof.
  intros s e I. unfold ec. rewrite len_step. apply filter_length_mono.
  intros u H. apply seqb_eq in H. apply seqb_eq. apply error_final_step; assumption.
Qed.

Lemma ec_finish_err : forall s t, inv s -> In t (running s) -> ec s < ec (finish s t OErr).
Proof.
  intros s t I Hin. unfold ec. change (finish s t OErr) with (step s (Finish t OErr)). rewrite len_step.
  pose proof (i_run s I t Hin) as Ut.
  apply filter_length_lt with t.
  - intros u H. apply seqb_eq in H. apply seqb_eq. apply error_final_step; assumption.
  - apply in_seq. assert (t < length (tasks s)) by (apply in_range_st; intros E; rewrite E in Ut; discriminate). lia.
  - simpl step. destruct (finish_err_sets_error s t I Hin) as [E _]. rewrite E. reflexivity.
  - destruct (st s t); try discriminate Ut; reflexivity.
Qed.

Lemma rsum_bound : forall l, rsum l <= 5 * length l.
Proof.
  unfold rsum. induction l as [|a l IH]; simpl; [lia|]. destruct (t_st a); simpl; lia.
Qed.

Definition rs (s : state) : nat := rsum (tasks s).

(* the moves of an Ensure pass go along the order of the ranks *)
Lemma rs_move_ge : forall s order s', move s (Ensure order) s' -> rs s <= rs s'.
Proof.
  assert (W : forall s t nw, rank (st s t) <= rank nw -> rs s <= rs (set_status s t nw)).
  { intros s t nw H. pose proof (pm_set_status_ge s t nw H) as P. unfold pm in P. rewrite running_set_status in P.
    unfold rs. lia. }
  intros s order s' M. remember (Ensure order) as e eqn:Ee. destruct M; try discriminate Ee.
  - unfold try_undo. des_if; apply W; rewrite H1; simpl; lia.
  - apply W. rewrite H0. simpl. lia.
  - rewrite run_eq. unfold rs. cbn [launch tasks with_slog with_running with_tasks]. rewrite rsum_upd_irrel by reflexivity.
    unfold run_write. destruct (st s t) eqn:E; try lia; apply W; rewrite E; simpl; lia.
Qed.

Lemma rs_ensure_pass_ge : forall order s, rs s <= rs (ensure_pass s order).
Proof.
  intros order s. apply (ensure_fold_ind (fun x => rs s <= rs x) order); [|lia].
  intros x x' M H. pose proof (rs_move_ge _ _ _ M). lia.
Qed.

Lemma rs_finish_ok : forall s t, inv s -> In t (running s) -> rs s < rs (finish s t OOk).
Proof.
  intros s t I Hin. unfold finish. rewrite (i_np s I).
  assert (Em : memn t (running s) = true) by (apply memn_In; assumption). rewrite Em. simpl negb. cbv iota.
  pose proof (i_run s I t Hin) as Ut.
  set (s0 := remove_running s t).
  assert (L : t < length (tasks s0)) by (apply in_range_st; intros E; change (st s0 t) with (st s t) in E; rewrite E in Ut; discriminate).
  assert (G : forall nw, rank (st s0 t) < rank nw -> (nw = Done -> st s0 t <> Abort) -> rs s < rs (set_status s0 t nw)).
  { intros nw Hr Hd. pose proof (pm_set_status_gt s0 t nw (i_np s I) L Hr Hd) as P. unfold pm in P.
    rewrite running_set_status in P. unfold rs. change (tasks s0) with (tasks s) in P. lia. }
  change (st s0 t) with (st s t) in *. destruct (st s t) eqn:Es; try discriminate Ut.
  - apply G; [simpl; lia | discriminate].
  - apply G; [simpl; lia | discriminate].
  - apply G; [simpl; lia | discriminate].
Qed.

Lemma finish_list_potential : forall oc L s, inv s ->
  let s' := run_events s (map (fin oc) L) in
  ec s <= ec s' /\
  (ec s < ec s' \/ (rs s <= rs s' /\ ((exists t, In t L /\ In t (running s)) -> rs s < rs s'))).
Proof.
  unfold run_events. induction L as [|a L IH]; intros s I; cbn [map fold_left].
  - split; [lia|]. right. split; [lia|]. intros (t & [] & _).
  - pose proof (inv_fin s oc a I) as I1. destruct (IH _ I1) as (E1 & D1).
    pose proof (ec_step_ge s (fin oc a) I) as E0.
    split; [lia|].
    destruct (in_dec Nat.eq_dec a (running s)) as [Hin|Hnin].
    + rewrite step_fin in *. destruct (oc a).
      * left. pose proof (ec_finish_err s a I Hin). lia.
      * pose proof (rs_finish_ok s a I Hin) as R. destruct D1 as [D|[D _]]; [left; lia | right; split; [lia | intros _; lia]].
    + assert (Same : step s (fin oc a) = s).
      { rewrite step_fin. unfold finish. rewrite (i_np s I).
        assert (memn a (running s) = false) by (destruct (memn a (running s)) eqn:E; [apply memn_In in E; contradiction | reflexivity]).
        rewrite H. reflexivity. }
      rewrite Same in *. destruct D1 as [D|[D1 D2]]; [left; assumption|]. right. split; [assumption|].
      intros (t & [<-|Ht] & Hr); [contradiction|]. apply D2. exists t. split; assumption.
Qed.

Definition pot (s : state) : nat := ec s * (5 * length (tasks s) + 1) + rs s.

Lemma ec_bound : forall s, ec s <= length (tasks s).
Proof. intros. unfold ec. pose proof (filter_length_le _ (fun u => seqb (st s u) Error) (seq 0 (length (tasks s)))). rewrite seq_length in H. assumption. Qed.

Lemma pot_bound : forall s, pot s <= length (tasks s) * (5 * length (tasks s) + 1) + 5 * length (tasks s).
Proof.
  intros s. unfold pot, rs. pose proof (ec_bound s). pose proof (rsum_bound (tasks s)).
  pose proof (Nat.mul_le_mono_r _ _ (5 * length (tasks s) + 1) H). lia.
Qed.

Lemma pot_up : forall n e r e' r', r <= 5 * n ->
  (e < e' \/ (e <= e' /\ r < r')) -> e * (5 * n + 1) + r < e' * (5 * n + 1) + r'.
Proof.
  intros n e r e' r' Hr [H|[H1 H2]].
  - pose proof (Nat.mul_le_mono_r (S e) e' (5 * n + 1) H). simpl in H0. lia.
  - pose proof (Nat.mul_le_mono_r e e' (5 * n + 1) H1). lia.
Qed.

Lemma len_run_events : forall es s, length (tasks (run_events s es)) = length (tasks s).
Proof. intros. apply graph_len, graph_run_events. Qed.

Lemma ensure_pass_as_step : forall s order, ensure_pass s order = step s (Ensure order).
Proof. reflexivity. Qed.

(* an unsettled state without tombs has a task that can move (stuck_free), so the pass raises pm (pass_progress); the handlers
   it started then add an error or raise the rank sum (finish_list_potential) *)
Lemma round_progress : forall rk s order oc,
  okst rk s -> running s = [] -> all_ready (tasks s) = false ->
  (forall t, t < length (tasks s) -> In t order) ->
  pot s < pot (round s order oc).
Proof.
  intros rk s order oc [I Sy Rs K O Rk Nw A] Hr Hna Hall.
  destruct (stuck_free s rk I K Rs Rk Hr Nw (fun t => at0_gate s t A) Hna) as (t & Lt & F).
  assert (P : pm s < pm (ensure_pass s order)).
  { apply pass_progress with t; auto. rewrite Hr. intros []. }
  set (s1 := ensure_pass s order) in *.
  assert (I1 : inv s1) by (unfold s1; rewrite ensure_pass_as_step; apply inv_step; [intros F'; discriminate F' | assumption]).
  assert (L1 : length (tasks s1) = length (tasks s)) by (unfold s1; rewrite ensure_pass_as_step; apply len_step).
  assert (E1 : ec s <= ec s1) by (unfold s1; rewrite ensure_pass_as_step; apply ec_step_ge; assumption).
  assert (R1 : rs s <= rs s1) by apply rs_ensure_pass_ge.
  unfold pm in P. rewrite Hr in P. simpl in P. fold (rs s) in P. fold (rs s1) in P.
  unfold round. fold s1. unfold finish_all.
  destruct (finish_list_potential oc (running s1) s1 I1) as (E2 & D).
  set (s2 := run_events s1 (map (fin oc) (running s1))) in *.
  assert (L2 : length (tasks s2) = length (tasks s)) by (unfold s2; rewrite len_run_events; assumption).
  unfold pot. rewrite L2.
  apply pot_up.
  - unfold rs. apply rsum_bound.
  - destruct D as [D|[D1 D2]]; [left; lia|].
    destruct (running s1) as [|a r] eqn:Er.
    + right. split; [lia|]. simpl in P. lia.
    + assert (rs s1 < rs s2) by (apply D2; exists a; split; left; reflexivity). right. split; lia.
Qed.

Lemma okst_round : forall rk s order oc, okst rk s -> okst rk (round s order oc) /\ running (round s order oc) = [] /\
  length (tasks (round s order oc)) = length (tasks s).
Proof.
  intros rk s order oc H. unfold round.
  assert (H1 : okst rk (ensure_pass s order)) by (rewrite ensure_pass_as_step; apply okst_step; [exact I | assumption]).
  split; [|split].
  - unfold finish_all. apply okst_run_events; [apply fin_all_okev | assumption].
  - apply finish_all_no_tomb. apply (ok_inv rk _ H1).
  - unfold finish_all. rewrite len_run_events, ensure_pass_as_step. apply len_step.
Qed.

Lemma ensure_one_ready : forall s t, ready (st s t) = true -> ensure_one s t = s.
Proof.
  intros s t H. unfold ensure_one. destruct (panicked s); [reflexivity|]. destruct (memn t (running s)); [reflexivity|].
  assert (E : seqb (st s t) Abort = false) by (destruct (st s t); try discriminate H; reflexivity).
  rewrite E. unfold ensure_rest. rewrite H. reflexivity.
Qed.

Lemma ensure_pass_ready : forall order s, all_ready (tasks s) = true -> ensure_pass s order = s.
Proof.
  unfold ensure_pass. induction order; simpl; intros s A; [reflexivity|].
  rewrite (ensure_one_ready s a (all_ready_st s a A)). apply IHorder. assumption.
Qed.

Lemma round_ready : forall s order oc, all_ready (tasks s) = true -> running s = [] -> round s order oc = s.
Proof. intros s order oc A R. unfold round. rewrite (ensure_pass_ready order s A). unfold finish_all. rewrite R. reflexivity. Qed.

Fixpoint iter_rounds (rl : list (list nat * (nat -> bool))) (s : state) : state :=
  match rl with
  | [] => s
  | (o, oc) :: r => iter_rounds r (round s o oc)
  end.

Lemma iter_ready : forall rl s, all_ready (tasks s) = true -> running s = [] -> iter_rounds rl s = s.
Proof.
  induction rl as [|p r IH]; intros s A R; [reflexivity|]. destruct p as [o oc]. simpl.
  rewrite (round_ready s o oc A R). apply IH; assumption.
Qed.

Definition settle_bound (n : nat) : nat := n * (5 * n + 1) + 5 * n + 1.

Lemma iter_settles : forall rk k rl s,
  okst rk s -> running s = [] ->
  length (tasks s) * (5 * length (tasks s) + 1) + 5 * length (tasks s) - pot s < k -> k <= length rl ->
  (forall r, In r rl -> forall t, t < length (tasks s) -> In t (fst r)) ->
  all_ready (tasks (iter_rounds rl s)) = true /\ running (iter_rounds rl s) = [] /\ okst rk (iter_rounds rl s).
Proof.
  induction k; intros rl s H R Hk Hl Hcov; [lia|].
  destruct (all_ready (tasks s)) eqn:A.
  { rewrite (iter_ready rl s A R). auto. }
  destruct rl as [|[o oc] r]; [simpl in Hl; lia|]. simpl iter_rounds.
  destruct (okst_round rk s o oc H) as (H' & R' & L').
  pose proof (round_progress rk s o oc H R A (Hcov (o, oc) (or_introl eq_refl))) as P.
  pose proof (pot_bound (round s o oc)) as B. rewrite L' in B.
  apply IHk; auto.
  - rewrite L'. lia.
  - simpl in Hl. lia.
  - intros x Hx t Ht. rewrite L' in Ht. apply (Hcov x (or_intror Hx) t Ht).
Qed.

(* C03_settles: every tame history on a non-empty closed graph with acyclic wait edges that leaves no task in Wait and
   no task scheduled for later can be continued to a settled state: finish the running handlers (each returns nil or
   an error, as the oracle oc0 says), then run rounds  Ensure (any order visiting every task) ; finish every running
   handler (oracle of the round);  after settle_bound n = n(5n+1)+5n+1 rounds - whatever the orders and the
   oracles - every task is ready, no handler runs, the change is flagged ready, and it reports Error iff some task is
   in Error. *)
Theorem settles : forall (g : list tdesc) (rk : nat -> nat) (es : list event),
  g <> [] -> closed g -> (forall t w, In w (waits_g g t) -> rk w < rk t) ->
  tame (init_state g) es ->
  let s0 := run_events (init_state g) es in
  (forall t, st s0 t <> Wait) -> (forall t, t_at (get s0 t) = 0%Z) ->
  forall (oc0 : nat -> bool) (rl : list (list nat * (nat -> bool))),
  settle_bound (length g) <= length rl ->
  (forall r, In r rl -> forall t, t < length g -> In t (fst r)) ->
  let sF := iter_rounds rl (finish_all s0 oc0) in
  all_ready (tasks sF) = true /\ running sF = [] /\ cready sF = true /\
  (change_status (tasks sF) = Error <-> has_status (tasks sF) Error = true).
Proof.
  intros g rk es Hg Hc Hrk Ht s0 Hnw Hat oc0 rl Hlen Hcov sF.
  destruct (tame_reach g es Hg Hc Ht) as (I0 & Sy & Rs & K0 & Len & W & _). fold s0 in I0, Sy, Rs, K0, Len, W.
  assert (O0 : okst rk s0).
  { constructor; auto; [apply oof_never|]. intros t w Hw. rewrite W in Hw. exact (Hrk t w Hw). }
  set (s1 := finish_all s0 oc0).
  assert (O1 : okst rk s1) by (unfold s1, finish_all; apply okst_run_events; [apply fin_all_okev | assumption]).
  assert (R1 : running s1 = []) by (apply finish_all_no_tomb; assumption).
  assert (L1 : length (tasks s1) = length g) by (unfold s1, finish_all; rewrite len_run_events; assumption).
  destruct (iter_settles rk (settle_bound (length g)) rl s1 O1 R1) as (A & R & O); auto.
  - rewrite L1. unfold settle_bound. lia.
  - intros r Hr t Htl. rewrite L1 in Htl. apply (Hcov r Hr t Htl).
  - fold sF in A, R, O. split; [assumption|]. split; [assumption|]. split.
    + rewrite (i_rd sF (ok_inv rk sF O)). assumption.
    + apply settled_error_iff. assumption.
Qed.

