(* C35 — the structured (JSON object) form of an epoch reads back: for every valid epoch with uint32 entries the bytes
   MarshalJSON prints, and the structured form String prints, are read back by the model of UnmarshalJSON
   (models/RevEpoch.v: parse_struct + from_structured) as an Equal epoch. *)
From Coq Require Import List NArith ZArith Bool Lia.
Import ListNotations.
Require Import V.lib.Bytes V.proofs.BytesFacts V.lib.Dec V.models.RevEpoch V.proofs.DecProofs V.proofs.RevEpochProofs.
Open Scope N_scope.

Lemma strip_prefix_app : forall p s, strip_prefix p (p ++ s) = Some s.
Proof. induction p as [|x p IH]; intros s; cbn; [reflexivity|]. rewrite N.eqb_refl. apply IH. Qed.

Lemma split_on_none : forall c a, forallb (fun x => negb (x =? c)) a = true -> split_on c a = [a].
Proof.
  induction a as [|x a IH]; intros H; cbn; [reflexivity|].
  cbn in H. apply andb_prop in H. destruct H as [Hx Ha].
  destruct (x =? c); [discriminate|]. rewrite (IH Ha). reflexivity.
Qed.

Lemma split_on_app : forall c a s, forallb (fun x => negb (x =? c)) a = true ->
  split_on c (a ++ c :: s) = a :: split_on c s.
Proof.
  induction a as [|x a IH]; intros s H; cbn.
  - rewrite N.eqb_refl. reflexivity.
  - cbn in H. apply andb_prop in H. destruct H as [Hx Ha].
    destruct (x =? c); [discriminate|]. rewrite (IH s Ha). reflexivity.
Qed.

Lemma dec_no_byte : forall n k, (k < 48 \/ 57 < k) -> forallb (fun x => negb (x =? k)) (dec n) = true.
Proof.
  intros n k Hk. pose proof (dec_digits n) as H. rewrite forallb_forall in *. intros x Hx.
  specialize (H x Hx). rewrite (neqb_of_digit _ _ H Hk). reflexivity.
Qed.

Lemma join_dec_cons : forall x y l, join_dec (x :: y :: l) = dec x ++ 44 :: join_dec (y :: l).
Proof. reflexivity. Qed.

Lemma split_join_dec : forall l, l <> [] -> split_on 44 (join_dec l) = map dec l.
Proof.
  induction l as [|x l IH]; intros H; [congruence|].
  destruct l as [|y l].
  - cbn [join_dec map]. apply split_on_none. apply dec_no_byte. lia.
  - rewrite join_dec_cons. rewrite split_on_app by (apply dec_no_byte; lia).
    rewrite IH by discriminate. reflexivity.
Qed.

Lemma join_dec_no_byte : forall l k, (k < 44 \/ (44 < k /\ k < 48) \/ 57 < k) ->
  forallb (fun x => negb (x =? k)) (join_dec l) = true.
Proof.
  induction l as [|x l IH]; intros k Hk; [reflexivity|].
  destruct l as [|y l].
  - cbn [join_dec]. apply dec_no_byte. lia.
  - rewrite join_dec_cons. rewrite forallb_app. rewrite dec_no_byte by lia. cbn [forallb andb].
    destruct (N.eqb_spec 44 k); [lia|]. cbn [negb andb]. apply IH. exact Hk.
Qed.

Lemma join_dec_nonempty : forall l, l <> [] -> is_nil_b (join_dec l) = false.
Proof.
  intros [|x [|y l]] H; [congruence| |].
  - cbn [join_dec]. apply is_nil_b_dec.
  - rewrite join_dec_cons. destruct (dec x) eqn:E; [exfalso; eapply dec_nonempty; eauto|reflexivity].
Qed.

Lemma map_opt_parse_dec : forall l, Forall (fun n => n < two32) l -> map_opt parse_u32 (map dec l) = Some l.
Proof.
  induction l as [|x l IH]; intros H; [reflexivity|].
  inversion H as [|? ? Hx Hl]; subst. cbn [map map_opt]. rewrite (parse_u32_dec _ Hx). rewrite (IH Hl). reflexivity.
Qed.

Lemma parse_json_list_some : forall l rest, l <> [] -> Forall (fun n => n < two32) l ->
  parse_json_list (json_list (Some l) ++ rest) = Some (Some l, rest).
Proof.
  intros l rest Hne Hl. unfold json_list, parse_json_list.
  cbn [app]. change (strip_prefix null_b (91 :: (join_dec l ++ [93]) ++ rest)) with (@None bytes).
  replace ((join_dec l ++ [93]) ++ rest) with (join_dec l ++ 93 :: rest) by (rewrite <- app_assoc; reflexivity).
  cbv iota.
  rewrite (span_app_stop (fun c => negb (c =? 93)) (join_dec l) 93 rest).
  - rewrite (join_dec_nonempty _ Hne). rewrite (split_join_dec _ Hne). rewrite (map_opt_parse_dec _ Hl). reflexivity.
  - apply join_dec_no_byte. lia.
  - reflexivity.
Qed.

Lemma parse_struct_some : forall r w, r <> [] -> w <> [] ->
  Forall (fun n => n < two32) r -> Forall (fun n => n < two32) w ->
  parse_struct (json_struct (Some r) (Some w)) = Some (Some r, Some w).
Proof.
  intros r w Hr Hw Fr Fw. unfold parse_struct, json_struct.
  change [123; 34; 114; 101; 97; 100; 34; 58] with read_key.
  change [44; 34; 119; 114; 105; 116; 101; 34; 58] with write_key.
  rewrite strip_prefix_app.
  rewrite (parse_json_list_some r _ Hr Fr).
  rewrite strip_prefix_app.
  rewrite (parse_json_list_some w [125] Hw Fw).
  reflexivity.
Qed.

Lemma from_structured_valid : forall r w, r <> [] -> w <> [] ->
  validate (mkEpoch (Some r) (Some w)) = 0 ->
  from_structured (Some r) (Some w) = Some (mkEpoch (Some r) (Some w)).
Proof.
  intros r w Hr Hw Hv. unfold from_structured.
  destruct r as [|r0 r']; [congruence|]. destruct w as [|w0 w']; [congruence|].
  cbn [lst]. rewrite Hv. reflexivity.
Qed.

Lemma valid_nonzero_lists : forall e, validate e = 0 -> is_zero e = false ->
  exists r w, e = mkEpoch (Some r) (Some w) /\ r <> [] /\ w <> [].
Proof.
  intros [er ew] Hv Hz. destruct (validate_ok _ Hv) as (Er & Ew & [Z|(_ & _ & _ & _ & I)]); [congruence|].
  destruct (intersect_nonempty _ _ I) as [Nr Nw]. cbn [e_read e_write] in *.
  destruct er as [r|], ew as [w|]; cbn [lst] in *; try discriminate.
  exists r, w. split; [reflexivity|]. split; intros ->; discriminate.
Qed.

Lemma struct_roundtrip : forall r w, r <> [] -> w <> [] ->
  Forall (fun n => n < two32) r -> Forall (fun n => n < two32) w ->
  validate (mkEpoch (Some r) (Some w)) = 0 ->
  epoch_unmarshal_json (json_struct (Some r) (Some w)) = Some (mkEpoch (Some r) (Some w)).
Proof.
  intros r w Hr Hw Fr Fw Hv.
  change (match parse_struct (json_struct (Some r) (Some w)) with
          | Some (r', w') => from_structured r' w' | None => None end = Some (mkEpoch (Some r) (Some w))).
  rewrite (parse_struct_some r w Hr Hw Fr Fw). apply from_structured_valid; assumption.
Qed.

Lemma norm0_id : forall l, l <> [] -> norm0 l = l.
Proof. intros [|x l] H; [congruence|reflexivity]. Qed.

Theorem epoch_marshal_roundtrip : forall e, validate e = 0 -> wf32 e ->
  exists e', epoch_unmarshal_json (epoch_marshal_json e) = Some e' /\ epoch_equal e e' = true.
Proof.
  intros e Hv [Wr Ww]. unfold epoch_marshal_json. destruct (is_zero e) eqn:Hz.
  - (* prints {"read":[0],"write":[0]} *)
    exists (mkEpoch (Some [0]) (Some [0])). pose proof Hz as Z. unfold is_zero in Z. apply andb_prop in Z.
    rewrite (is_zero_list_norm _ (proj1 Z)), (is_zero_list_norm _ (proj2 Z)). split; [reflexivity|].
    unfold epoch_equal. rewrite Hz. reflexivity.
  - destruct (valid_nonzero_lists e Hv Hz) as (r & w & -> & Hr & Hw). cbn [e_read e_write lst] in *.
    rewrite (norm0_id _ Hr), (norm0_id _ Hw). exists (mkEpoch (Some r) (Some w)).
    split; [apply struct_roundtrip; assumption|apply epoch_equal_refl].
Qed.

Lemma is_short_neq : forall c t, c <> 123 -> is_short (c :: t) = true.
Proof.
  intros c t H. unfold is_short. destruct c as [|p]; [reflexivity|].
  do 7 (destruct p as [p|p|]; try reflexivity). exfalso; apply H; reflexivity.
Qed.

Lemma is_short_dec : forall n t, is_short (dec n ++ t) = true.
Proof.
  intros n t. pose proof (dec_hd_digit n) as (c & r & E & D). rewrite E. cbn [app].
  apply is_short_neq. intros ->. cbn in D. discriminate.
Qed.

(* the structured form printed by String (only valid non-zero epochs reach it) reads back as the same epoch *)
Theorem epoch_string_structured_roundtrip : forall e, validate e = 0 -> wf32 e ->
  is_short (epoch_string e) = false ->
  exists e', epoch_unmarshal_json (epoch_string e) = Some e' /\ epoch_equal e e' = true.
Proof.
  intros e Hv [Wr Ww] Hs. destruct (is_zero e) eqn:Hz.
  - unfold epoch_string in Hs. rewrite Hz in Hs. discriminate.
  - destruct (epoch_string_cases e Hz) as [(n & _ & _ & E)|[(m & n & _ & _ & _ & E)|E]]; rewrite E in *.
    + rewrite <- (app_nil_r (dec n)), is_short_dec in Hs. discriminate.
    + rewrite is_short_dec in Hs. discriminate.
    + destruct (valid_nonzero_lists e Hv Hz) as (r & w & -> & Hr & Hw). exists (mkEpoch (Some r) (Some w)).
      split; [apply struct_roundtrip; assumption|apply epoch_equal_refl].
Qed.

(* the monitor's independent statement of validity agrees with the model of Validate *)
Lemma valid_spec_is_validate : forall e, valid_spec e = (validate e =? 0).
Proof.
  intros [er ew]. unfold valid_spec, validate. cbn [e_read e_write].
  rewrite filter_mem_intersect, !Nat.ltb_antisym.
  destruct (explicit_empty er); [reflexivity|]. destruct (explicit_empty ew); [reflexivity|]. cbn [negb andb orb].
  destruct (is_zero _); [reflexivity|]. cbn [orb].
  destruct (length (lst er) <=? 10)%nat; [|reflexivity]. destruct (length (lst ew) <=? 10)%nat; [|reflexivity].
  destruct (is_increasing (lst er)); [|reflexivity]. destruct (is_increasing (lst ew)); [|reflexivity].
  destruct (intersect (lst er) (lst ew)); reflexivity.
Qed.
