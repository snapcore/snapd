(* C08 — proofs about models/Notices.v. add_server_shape says what a server-clock AddNotice does to the list of notices;
   the state invariants (good, lr_distinct), the invariant of a polling client (inv) and that of the waiting calls (winv)
   are preserved through it. *)
From Coq Require Import List NArith ZArith Bool Lia Sorting.Sorted Sorting.Permutation.
Import ListNotations.
Require Import V.lib.Bytes V.proofs.BytesFacts V.proofs.ListFacts V.models.Notices.
Open Scope Z_scope.

Lemma opt_n_eqb_eq : forall a b, opt_n_eqb a b = true <-> a = b.
Proof.
  destruct a as [x|], b as [y|]; cbn; rewrite ?N.eqb_eq; split; intro H; try reflexivity; try discriminate; congruence.
Qed.

Lemma same_key_iff : forall u t k n, same_key u t k n = true <-> key_of n = (u, t, k).
Proof.
  intros u t k n. unfold same_key, key_of. rewrite !andb_true_iff, opt_n_eqb_eq, !beq_true_iff.
  split; [intros [[-> ->] ->]; reflexivity | intro H; inversion H; auto].
Qed.

Lemma same_key_false : forall u t k n, same_key u t k n = false <-> key_of n <> (u, t, k).
Proof. intros. rewrite <- same_key_iff. symmetry. apply not_true_iff_false. Qed.

Lemma static_match_key : forall f n, static_match f n = key_static_match f (key_of n).
Proof. reflexivity. Qed.

Lemma matches_ext : forall f n m, key_of n = key_of m -> n_lr n = n_lr m -> matches f n = matches f m.
Proof. intros f n m Hk Hlr. unfold matches, after_ok. rewrite !static_match_key, Hk, Hlr. reflexivity. Qed.

Lemma bump_gt : forall c l, l < bump c (Some l).
Proof. intros c l. unfold bump. destruct (c >? l) eqn:E; lia. Qed.

Lemma find_none_key : forall u t k l,
  find (same_key u t k) l = None -> forall m, In m l -> key_of m <> (u, t, k).
Proof. intros u t k l H m Hm. apply same_key_false. eapply find_none; eauto. Qed.

Lemma find_key_split : forall u t k l n, find (same_key u t k) l = Some n ->
  exists l1 l2, l = l1 ++ n :: l2 /\ (forall m, In m l1 -> key_of m <> (u, t, k)) /\ key_of n = (u, t, k) /\
                forall n', replace_key u t k n' l = l1 ++ n' :: l2.
Proof.
  intros u t k. induction l as [|x l IH]; intros n H; [discriminate|]. cbn in H |- *.
  destruct (same_key u t k x) eqn:E.
  - injection H as <-. apply same_key_iff in E. exists [], l. repeat split; auto.
  - destruct (IH n H) as (l1 & l2 & -> & H1 & H2 & H3). exists (x :: l1), l2. repeat split; auto.
    + intros m [<-|Hm]; [apply same_key_false, E | apply H1, Hm].
    + intro n'. cbn. rewrite H3. reflexivity.
Qed.

Lemma find_key_elt : forall u t k l1 x l2,
  (forall m, In m l1 -> key_of m <> (u, t, k)) -> key_of x = (u, t, k) -> find (same_key u t k) (l1 ++ x :: l2) = Some x.
Proof.
  intros u t k. induction l1 as [|y l1 IH]; intros x l2 H Hx; cbn.
  - apply same_key_iff in Hx. rewrite Hx. reflexivity.
  - rewrite (proj2 (same_key_false u t k y)) by (apply H; left; reflexivity).
    apply IH; [|exact Hx]. intros m Hm. apply H. right. exact Hm.
Qed.

Lemma NoDup_map_ins : forall {A B} (g : A -> B) l1 l2 x,
  NoDup (map g (l1 ++ l2)) -> ~ In (g x) (map g (l1 ++ l2)) -> NoDup (map g (l1 ++ x :: l2)).
Proof.
  intros A B g l1 l2 x ND Hx. rewrite map_app in *. cbn.
  apply (proj2 (NoDup_Add (Add_app (g x) (map g l1) (map g l2)))). auto.
Qed.

Lemma NoDup_map_drop : forall {A B} (g : A -> B) l1 l2 x,
  NoDup (map g (l1 ++ x :: l2)) -> NoDup (map g (l1 ++ l2)) /\ ~ In (g x) (map g (l1 ++ l2)).
Proof. intros A B g l1 l2 x. rewrite !map_app. apply NoDup_remove. Qed.

Definition keys_unique (st : state) : Prop := NoDup (map key_of (s_notices st)).

(* every last-repeated time is at most lastNoticeTimestamp *)
Definition bounded (st : state) : Prop :=
  forall n, In n (s_notices st) -> exists L, s_last_ts st = Some L /\ n_lr n <= L.

Definition good (st : state) : Prop := keys_unique st /\ bounded st.

Definition lr_distinct (st : state) : Prop := NoDup (map n_lr (s_notices st)).

Lemma good_empty : good empty_state.
Proof. split; [constructor | intros n H; inversion H]. Qed.

(* a restart gives back the same notice state, provided every notice field is both written and restored *)
Lemma restart_id : persist_ok = true -> forall st, restart st = st.
Proof.
  intros H st. unfold persist_ok in H. rewrite !andb_true_iff in H. destruct H as [[[[[H1 H2] H3] H4] H5] H6].
  unfold restart, reload, persist. rewrite H1, H2, H3, H4, H5, H6. destruct st; reflexivity.
Qed.

Lemma bounded_lt_bump : forall st c m, bounded st -> In m (s_notices st) -> n_lr m < bump c (s_last_ts st).
Proof. intros st c m BD Hm. destruct (BD m Hm) as (L & -> & Hle). pose proof (bump_gt c L). lia. Qed.

(* what one server-clock AddNotice does: the state's notices are l1 ++ l2 without the notice of the call's key;
   afterwards that notice, n', stands between them *)
Lemma add_server_shape : forall st a st' flag id,
  keys_unique st -> a_time a = None -> add_notice st a = Some (st', flag, id) ->
  let T := bump (a_clock a) (s_last_ts st) in
  s_last_ts st' = Some T /\
  exists l1 l2 n', s_notices st' = l1 ++ n' :: l2 /\ key_of n' = akey a /\
    (forall m, In m (l1 ++ l2) -> In m (s_notices st) /\ key_of m <> akey a) /\
    (forall m, In m (s_notices st) -> key_of m = akey a \/ In m (l1 ++ l2)) /\
    ((s_notices st = l1 ++ l2 /\ flag = true /\ n_lr n' = T) \/
     exists n, s_notices st = l1 ++ n :: l2 /\ key_of n = akey a /\ n_lr n' = (if flag then T else n_lr n)).
Proof.
  intros st a st' flag id KU Ht H T. unfold add_notice in H. rewrite Ht in H.
  destruct (negb (validate a)); [discriminate|]. fold T in H.
  destruct (find (same_key (a_user a) (a_type a) (a_key a)) (s_notices st)) as [n|] eqn:F;
    injection H as <- <- <-; (split; [reflexivity|]); cbn [s_notices].
  - destruct (find_key_split _ _ _ _ _ F) as (l1 & l2 & E & _ & Hk & Hr). rewrite Hr.
    unfold keys_unique in KU. rewrite E in KU |- *. apply NoDup_map_drop in KU as [_ KU].
    eexists l1, l2, _. split; [reflexivity|]. split; [exact Hk|]. split; [|split].
    + intros m Hm. split; [rewrite !in_app_iff in *; cbn; tauto|].
      intro Hm'. apply KU. rewrite Hk. change (akey a) with (a_user a, a_type a, a_key a) in Hm'.
      rewrite <- Hm'. apply in_map, Hm.
    + intros m Hm. apply in_elt_inv in Hm as [<-|Hm]; auto.
    + right. exists n. split; [reflexivity|]. split; [exact Hk | reflexivity].
  - exists (s_notices st), [], (mkN (s_last_id st + 1)%N (a_user a) (a_type a) (a_key a) T T T 1%N (a_ra a)).
    rewrite app_nil_r. split; [reflexivity|]. split; [reflexivity|]. split; [|split; auto].
    intros m Hm. split; [exact Hm | apply (find_none_key _ _ _ _ F), Hm].
Qed.

Lemma add_server_stamp : forall st a st' id,
  keys_unique st -> a_time a = None -> add_notice st a = Some (st', true, id) ->
  exists n', find (same_key (a_user a) (a_type a) (a_key a)) (s_notices st') = Some n' /\
             n_lr n' = bump (a_clock a) (s_last_ts st).
Proof.
  intros st a st' id KU Ht H.
  destruct (add_server_shape _ _ _ _ _ KU Ht H) as (_ & l1 & l2 & n' & -> & Hk & Hoth & _ & Hold).
  exists n'. split.
  - apply find_key_elt; [|exact Hk]. intros m Hm. apply Hoth, in_or_app. left. exact Hm.
  - destruct Hold as [(_ & _ & Hlr)|(n & _ & _ & Hlr)]; exact Hlr.
Qed.

Lemma add_stamp_after_all : forall st a st' id,
  good st -> a_time a = None -> add_notice st a = Some (st', true, id) ->
  exists n', find (same_key (a_user a) (a_type a) (a_key a)) (s_notices st') = Some n' /\
             forall m, In m (s_notices st) -> n_lr m < n_lr n'.
Proof.
  intros st a st' id [KU BD] Ht HA. destruct (add_server_stamp _ _ _ _ KU Ht HA) as (n' & Hf & Hlr).
  exists n'. split; [exact Hf|]. intros m Hm. rewrite Hlr. apply bounded_lt_bump; assumption.
Qed.

Lemma add_good : forall st a st' flag id,
  good st -> a_time a = None -> add_notice st a = Some (st', flag, id) -> good st'.
Proof.
  intros st a st' flag id [KU BD] Ht H.
  destruct (add_server_shape _ _ _ _ _ KU Ht H) as (HL & l1 & l2 & n' & E' & Hk & Hoth & _ & Hold).
  pose proof (fun m => bounded_lt_bump st (a_clock a) m BD) as HB. split.
  - unfold keys_unique in *. rewrite E'. destruct Hold as [(E & _)|(n & E & Hkn & _)].
    + apply NoDup_map_ins; [rewrite <- E; exact KU|]. rewrite in_map_iff. intros (m & Hm1 & Hm2).
      apply (Hoth m Hm2). congruence.
    + rewrite E in KU. rewrite map_app in *. cbn in *. rewrite Hk, <- Hkn. exact KU.
  - intros m Hm. rewrite HL. eexists. split; [reflexivity|]. rewrite E' in Hm. apply in_elt_inv in Hm as [<-|Hm].
    + destruct Hold as [(_ & _ & ->)|(n & E & _ & ->)]; [lia|]. destruct flag; [lia|].
      apply Z.lt_le_incl, HB. rewrite E. apply in_elt.
    + apply Z.lt_le_incl, HB, Hoth, Hm.
Qed.

Lemma add_lr_distinct : forall st a st' flag id,
  good st -> lr_distinct st -> a_time a = None -> add_notice st a = Some (st', flag, id) -> lr_distinct st'.
Proof.
  intros st a st' flag id [KU BD] LD Ht H.
  destruct (add_server_shape _ _ _ _ _ KU Ht H) as (_ & l1 & l2 & n' & E' & _ & _ & _ & Hold).
  assert (Hfresh : ~ In (bump (a_clock a) (s_last_ts st)) (map n_lr (s_notices st))).
  { rewrite in_map_iff. intros (m & Hm1 & Hm2). pose proof (bounded_lt_bump st (a_clock a) m BD Hm2). lia. }
  unfold lr_distinct in *. rewrite E'. destruct Hold as [(E & _ & Hlr)|(n & E & _ & Hlr)]; rewrite E in *.
  - apply NoDup_map_ins; rewrite ?Hlr; assumption.
  - apply NoDup_map_drop in LD as [LD1 LD2]. apply NoDup_map_ins; [exact LD1|]. rewrite Hlr.
    destruct flag; [|exact LD2]. intro Hin. apply Hfresh. rewrite map_app, in_app_iff in *. cbn. tauto.
Qed.

Definition add_server_clock (a : addargs) : bool := match a_time a with None => true | Some _ => false end.

Lemma reach_good : forall l st, good st -> forallb add_server_clock l = true -> good (add_all st l).
Proof.
  induction l as [|a l IH]; intros st G SC; cbn; [exact G|].
  cbn in SC. apply andb_true_iff in SC. destruct SC as [SC1 SC2].
  unfold add_server_clock in SC1. destruct (a_time a) eqn:Ht; [discriminate|].
  destruct (add_notice st a) as [[[st' flag] id]|] eqn:HA; [|apply IH; assumption].
  apply IH; [|exact SC2]. apply (add_good _ _ _ _ _ G Ht HA).
Qed.

Lemma state_after_good : persist_ok = true -> forall l st,
  good st -> forallb ev_server_clock l = true -> good (state_after st l).
Proof.
  intros POK. induction l as [|e l IH]; intros st G SC; cbn [state_after]; [exact G|].
  cbn in SC. apply andb_true_iff in SC. destruct SC as [SC1 SC2].
  destruct e as [a| |]; [|apply IH; assumption|rewrite (restart_id POK); apply IH; assumption].
  cbn in SC1. destruct (a_time a) eqn:Ht; [discriminate|].
  destruct (add_notice st a) as [[[st' flag] id]|] eqn:HA; [|apply IH; assumption].
  apply IH; [|exact SC2]. apply (add_good _ _ _ _ _ G Ht HA).
Qed.

Lemma ins_perm : forall n l, Permutation (ins n l) (n :: l).
Proof.
  intros n l. induction l as [|m l IH]; cbn; [apply Permutation_refl|].
  destruct (n_lr n <? n_lr m); [apply Permutation_refl|].
  eapply Permutation_trans; [apply perm_skip; exact IH | apply perm_swap].
Qed.

Lemma sort_lr_perm : forall l, Permutation (sort_lr l) l.
Proof.
  induction l as [|n l IH]; cbn; [constructor|].
  eapply Permutation_trans; [apply ins_perm | apply perm_skip; exact IH].
Qed.

Definition le_lr (a b : notice) : Prop := n_lr a <= n_lr b.
Definition lt_lr (a b : notice) : Prop := n_lr a < n_lr b.

Lemma ins_sorted : forall n l, StronglySorted le_lr l -> StronglySorted le_lr (ins n l).
Proof.
  intros n l. induction l as [|m l IH]; cbn; intro S.
  - constructor; constructor.
  - inversion S as [|? ? S' F]; subst.
    destruct (n_lr n <? n_lr m) eqn:E.
    + constructor; [exact S|]. apply Z.ltb_lt in E. constructor; [unfold le_lr; lia|].
      eapply Forall_impl; [|exact F]. intros x Hx. unfold le_lr in *. lia.
    + apply Z.ltb_ge in E. constructor; [apply IH; exact S'|].
      rewrite Forall_forall. intros x Hx.
      eapply Permutation_in in Hx; [|apply ins_perm]. destruct Hx as [<-|Hx]; [exact E|].
      rewrite Forall_forall in F. apply F. exact Hx.
Qed.

Lemma sorted_strict : forall l, StronglySorted le_lr l -> NoDup (map n_lr l) -> StronglySorted lt_lr l.
Proof.
  induction l as [|n l IH]; intros S ND; [constructor|].
  inversion S as [|? ? S' F]; subst. cbn in ND. inversion ND as [|? ? Hn ND']; subst.
  constructor; [apply IH; assumption|].
  rewrite Forall_forall in *. intros x Hx. specialize (F x Hx). unfold le_lr, lt_lr in *.
  assert (n_lr n <> n_lr x) by (intro E; apply Hn; rewrite E; apply in_map; exact Hx). lia.
Qed.

Lemma notices_in : forall st f n, In n (notices st f) <-> In n (s_notices st) /\ matches f n = true.
Proof.
  intros st f n. unfold notices. rewrite <- filter_In.
  split; apply Permutation_in; [|apply Permutation_sym]; apply sort_lr_perm.
Qed.

Lemma notices_sorted : forall st f, StronglySorted le_lr (notices st f).
Proof.
  intros st f. unfold notices, sort_lr. induction (List.filter (matches f) (s_notices st)) as [|n l IH]; cbn;
    [constructor | apply ins_sorted; exact IH].
Qed.

Lemma notices_NoDup : forall {B} (g : notice -> B) st f, NoDup (map g (s_notices st)) -> NoDup (map g (notices st f)).
Proof.
  intros B g st f ND. unfold notices.
  eapply Permutation_NoDup; [apply Permutation_map, Permutation_sym, sort_lr_perm|]. apply NoDup_map_filter, ND.
Qed.

Lemma wait_enabled_iff : forall st f, wait_enabled st f = true <-> exists n, In n (s_notices st) /\ matches f n = true.
Proof.
  intros st f. unfold wait_enabled. setoid_rewrite <- notices_in.
  destruct (notices st f) as [|n r]; cbn; split; try discriminate; try reflexivity.
  - intros (n & []).
  - intros _. exists n. left. reflexivity.
Qed.

Lemma after_max_lr : forall r c n, after_ok (max_lr c r) n = true <->
  after_ok c n = true /\ forall m, In m r -> n_lr m < n_lr n.
Proof.
  unfold max_lr. induction r as [|x r IH]; intros c n; simpl.
  - split; [intro H; split; [exact H | intros m []] | tauto].
  - rewrite IH. destruct c as [a|]; simpl; rewrite ?Z.gtb_lt; split; intros [H1 H2].
    + split; [lia|]. intros m [<-|Hm]; [lia | apply H2, Hm].
    + pose proof (H2 x (or_introl eq_refl)). split; [lia | intros m Hm; apply H2; right; exact Hm].
    + split; [reflexivity|]. intros m [<-|Hm]; [exact H1 | apply H2, Hm].
    + split; [apply H2; left; reflexivity | intros m Hm; apply H2; right; exact Hm].
Qed.

(* whatever is stamped after lastNoticeTimestamp is after the cursor; among the notices matching the client's filter, those after the cursor are
   exactly those whose key is pending; and every pending key has its notice *)
Definition inv (f : nfilter) (st : state) (c : option Z) (pend : list nkey) : Prop :=
  good st /\ lr_distinct st /\
  (forall n, (forall L, s_last_ts st = Some L -> L < n_lr n) -> after_ok c n = true) /\
  (forall n, In n (s_notices st) -> static_match f n = true -> (after_ok c n = true <-> In (key_of n) pend)) /\
  (forall k, In k pend -> exists n, In n (s_notices st) /\ key_of n = k).

Lemma inv_init : forall f, inv f empty_state None [].
Proof.
  intro f. split; [apply good_empty|]. split; [constructor|]. split; [intros n _; reflexivity|].
  split; [intros n []|intros k []].
Qed.

Lemma inv_add : forall f st c pend a st' flag id,
  inv f st c pend -> a_time a = None -> add_notice st a = Some (st', flag, id) ->
  inv f st' c (if flag then akey a :: pend else pend).
Proof.
  intros f st c pend a st' flag id (G & LD & IC & ID & IE) Ht H.
  split; [exact (add_good _ _ _ _ _ G Ht H)|]. split; [exact (add_lr_distinct _ _ _ _ _ G LD Ht H)|].
  destruct (add_server_shape _ _ _ _ _ (proj1 G) Ht H) as (HL & l1 & l2 & n' & E' & Hk & Hoth & Hkeep & Hold).
  set (T := bump (a_clock a) (s_last_ts st)) in *. rewrite E'.
  assert (HT : forall L, s_last_ts st = Some L -> L < T) by (intros L HL0; unfold T; rewrite HL0; apply bump_gt).
  split; [|split].
  - intros n Hn. apply IC. intros L HL0. specialize (Hn T HL). specialize (HT L HL0). lia.
  - intros m Hm Hs. apply in_elt_inv in Hm as [<-|Hm].
    + rewrite Hk. destruct flag.
      * (* new or repeated: stamped after the cursor, and now pending *)
        split; [left; reflexivity | intros _; apply IC].
        destruct Hold as [(_ & _ & ->)|(n & _ & _ & ->)]; exact HT.
      * (* suppressed repeat: same key and last-repeated time as the notice it replaces *)
        destruct Hold as [(_ & Hf & _)|(n & E & Hkn & Hlr)]; [discriminate|].
        rewrite <- Hkn. unfold after_ok. rewrite Hlr. apply ID; [rewrite E; apply in_elt|].
        rewrite static_match_key, Hkn, <- Hk, <- static_match_key. exact Hs.
    + destruct (Hoth m Hm) as [Hm' Hne]. specialize (ID m Hm' Hs). destruct flag; [|exact ID].
      rewrite ID. split; [right; assumption|]. intros [E|Hp]; [symmetry in E; contradiction | exact Hp].
  - intros k Hk0.
    assert (Hk' : k = akey a \/ In k pend) by (destruct flag; [destruct Hk0; auto | auto]).
    destruct Hk' as [->|Hp]; [exists n'; split; [apply in_elt | exact Hk]|].
    destruct (IE k Hp) as (n & Hn1 & Hn2). destruct (Hkeep n Hn1) as [Hka|Hn].
    + exists n'. split; [apply in_elt | congruence].
    + exists n. split; [rewrite in_app_iff in *; cbn; tauto | exact Hn2].
Qed.

Definition poll_ok (f : nfilter) (out : list notice) (pend : list nkey) : Prop :=
  (forall n, In n out -> static_match f n = true /\ In (key_of n) pend) /\
  (forall k, In k pend -> key_static_match f k = true -> exists n, In n out /\ key_of n = k) /\
  NoDup (map key_of out) /\
  StronglySorted le_lr out.

Lemma inv_poll : forall f st c pend out c',
  inv f st c pend -> poll st f c = (out, c') ->
  poll_ok f out pend /\ StronglySorted lt_lr out /\ inv f st c' [].
Proof.
  intros f st c pend out c' (G & LD & IC & ID & IE) HP. unfold poll in HP. injection HP as Hout Hc'.
  assert (Hmem : forall n, In n out <-> In n (s_notices st) /\ static_match f n = true /\ after_ok c n = true).
  { intro n. rewrite <- Hout, notices_in. unfold matches. rewrite andb_true_iff. reflexivity. }
  assert (HS : StronglySorted le_lr out) by (rewrite <- Hout; apply notices_sorted).
  split; [|split].
  - split; [|split; [|split; [|exact HS]]].
    + intros n Hn. apply Hmem in Hn as (H1 & H2 & H3). split; [exact H2 | apply (ID n H1 H2), H3].
    + intros k Hk Hs. destruct (IE k Hk) as (n & Hn1 & <-). exists n. split; [|reflexivity].
      apply Hmem. repeat split; [exact Hn1 | exact Hs | apply (ID n Hn1 Hs), Hk].
    + rewrite <- Hout. apply notices_NoDup, G.
  - apply sorted_strict; [exact HS|]. rewrite <- Hout. apply notices_NoDup, LD.
  - rewrite Hout in Hc'. subst c'. split; [exact G|]. split; [exact LD|]. split; [|split; [|intros k []]].
    + intros n Hn. apply after_max_lr. split; [apply IC, Hn|]. intros m Hm. apply Hmem in Hm as [Hm _].
      destruct (proj2 G m Hm) as (L & HL & Hle). specialize (Hn L HL). lia.
    + (* nothing is after the new cursor: what was after the old one was returned *)
      intros n Hn Hs. split; [|intros []]. intro Ha. apply after_max_lr in Ha as [Ha Hlt].
      assert (Hin : In n out) by (apply Hmem; auto). specialize (Hlt n Hin). lia.
Qed.

Lemma hrun_ok : persist_ok = true -> forall f evs st c pend,
  inv f st c pend -> forallb ev_server_clock evs = true ->
  Forall (fun r => poll_ok f (fst r) (snd r) /\ StronglySorted lt_lr (fst r)) (hrun f st c pend evs).
Proof.
  intros POK f. induction evs as [|e evs IH]; intros st c pend I SC; cbn [hrun]; [constructor|].
  cbn in SC. apply andb_true_iff in SC. destruct SC as [SC1 SC2].
  destruct e as [a| |].
  - cbn in SC1. destruct (a_time a) eqn:Ht; [discriminate|].
    destruct (add_notice st a) as [[[st' flag] id]|] eqn:HA.
    + apply IH; [|exact SC2]. eapply inv_add; eassumption.
    + apply IH; assumption.
  - destruct (poll st f c) as [out c'] eqn:HP.
    destruct (inv_poll _ _ _ _ _ _ I HP) as (P1 & P2 & I').
    constructor; [split; assumption | apply IH; assumption].
  - rewrite (restart_id POK). apply IH; assumption.
Qed.

Lemma hrun_ok_init : persist_ok = true -> forall f evs out pend,
  forallb ev_server_clock evs = true -> In (out, pend) (hrun f empty_state None [] evs) ->
  poll_ok f out pend /\ StronglySorted lt_lr out.
Proof.
  intros POK f evs out pend SC H.
  pose proof (hrun_ok POK f evs empty_state None [] (inv_init f) SC) as F.
  rewrite Forall_forall in F. apply (F _ H).
Qed.

(* why the floor has to be restored: if lastNoticeTimestamp came back as zero after a restart, the first addition at a
   clock reading that is not later than the client's cursor would never be delivered *)
Definition lost_after_restart_evs : list event :=
  [EAdd (mkA 100 None (ty 1) (ky 0) 0 None); EAdd (mkA 100 None (ty 1) (ky 0) 0 None); EPoll; ERestart;
   EAdd (mkA 100 None (ty 1) (ky 1) 0 None); EPoll].

Fixpoint hrun_forgetful (f : nfilter) (st : state) (c : option Z) (pend : list nkey) (evs : list event)
  : list (list notice * list nkey) :=
  match evs with
  | [] => []
  | EAdd a :: r =>
      match add_notice st a with
      | None => hrun_forgetful f st c pend r
      | Some (st', flag, _) => hrun_forgetful f st' c (if flag then akey a :: pend else pend) r
      end
  | EPoll :: r => let '(out, c') := poll st f c in (out, pend) :: hrun_forgetful f st c' [] r
  | ERestart :: r => hrun_forgetful f (mkS (s_notices st) None (s_last_id st)) c pend r
  end.

Lemma flag_stamps_strict : persist_ok = true -> forall l st,
  good st -> forallb ev_server_clock l = true ->
  (forall L z, s_last_ts st = Some L -> In z (flag_stamps st l) -> L < z) /\
  StronglySorted Z.lt (flag_stamps st l).
Proof.
  intros POK. induction l as [|e l IH]; intros st G SC; cbn [flag_stamps]; [split; [intros ? ? ? []|constructor]|].
  cbn in SC. apply andb_true_iff in SC. destruct SC as [SC1 SC2].
  destruct e as [a| |]; [|apply IH; assumption|rewrite (restart_id POK); apply IH; assumption].
  cbn in SC1. destruct (a_time a) eqn:Ht; [discriminate|].
  destruct (add_notice st a) as [[[st' flag] id]|] eqn:HA; [|apply IH; assumption].
  destruct (IH st' (add_good _ _ _ _ _ G Ht HA) SC2) as [I1 I2].
  destruct (add_server_shape _ _ _ _ _ (proj1 G) Ht HA) as [HL _].
  assert (HT : forall L, s_last_ts st = Some L -> L < bump (a_clock a) (s_last_ts st)) by (intros L ->; apply bump_gt).
  (* every later stamp is after this call's bumped time, which is after the old lastNoticeTimestamp *)
  assert (I1' : forall L z, s_last_ts st = Some L -> In z (flag_stamps st' l) -> L < z).
  { intros L z HL0 Hz. specialize (HT L HL0). specialize (I1 _ z HL Hz). lia. }
  destruct flag; [|destruct (find _ _); split; assumption].
  destruct (add_server_stamp _ _ _ _ (proj1 G) Ht HA) as (n' & -> & ->). split.
  - intros L z HL0 [<-|Hz]; [apply HT, HL0 | apply (I1' L z HL0 Hz)].
  - constructor; [exact I2|]. rewrite Forall_forall. intros z Hz. apply (I1 _ z HL Hz).
Qed.

Theorem timestamps_strict : persist_ok = true -> forall l,
  forallb ev_server_clock l = true -> StronglySorted Z.lt (flag_stamps empty_state l).
Proof. intros POK l SC. apply (flag_stamps_strict POK); [apply good_empty | exact SC]. Qed.

Theorem repeat_after_rule : forall st a n st' flag id,
  a_time a = None -> add_notice st a = Some (st', flag, id) ->
  find (same_key (a_user a) (a_type a) (a_key a)) (s_notices st) = Some n ->
  let T := bump (a_clock a) (s_last_ts st) in
  flag = ((a_ra a =? 0) || (T >? n_lr n + a_ra a)) /\
  exists n', find (same_key (a_user a) (a_type a) (a_key a)) (s_notices st') = Some n' /\
             n_lr n' = (if flag then T else n_lr n) /\ n_occ n' = (n_occ n + 1)%N /\ n_id n' = n_id n /\ id = n_id n.
Proof.
  intros st a n st' flag id Ht H F T.
  unfold add_notice in H. rewrite Ht, F in H. destruct (negb (validate a)); [discriminate|].
  fold T in H. injection H as <- <- <-. split; [reflexivity|]. cbn [s_notices].
  destruct (find_key_split _ _ _ _ _ F) as (l1 & l2 & _ & H1 & Hk & Hr). rewrite Hr.
  eexists. split; [apply find_key_elt; [exact H1 | exact Hk]|]. cbn. auto.
Qed.

Theorem repeat_after_suppressed : forall st a n st' flag id,
  a_time a = None -> add_notice st a = Some (st', flag, id) ->
  find (same_key (a_user a) (a_type a) (a_key a)) (s_notices st) = Some n ->
  a_ra a <> 0 -> bump (a_clock a) (s_last_ts st) <= n_lr n + a_ra a ->
  flag = false /\
  exists n', find (same_key (a_user a) (a_type a) (a_key a)) (s_notices st') = Some n' /\
             n_lr n' = n_lr n /\ n_occ n' = (n_occ n + 1)%N.
Proof.
  intros st a n st' flag id Ht H F Hra Hle.
  destruct (repeat_after_rule _ _ _ _ _ _ Ht H F) as [Hf [n' [Hf' [Hlr [Hocc _]]]]].
  assert (Hff : flag = false).
  { rewrite Hf. apply orb_false_iff. split; [apply Z.eqb_neq; exact Hra|].
    rewrite Z.gtb_ltb. apply Z.ltb_ge. exact Hle. }
  clear Hf. rewrite Hff in Hlr. split; [exact Hff|]. exists n'. auto.
Qed.

Theorem notices_owner_only : forall st f u n,
  f_user f = Some u -> In n (notices st f) -> n_user n = None \/ n_user n = Some u.
Proof.
  intros st f u n Hu Hn. apply notices_in in Hn as [_ Hm]. unfold matches, static_match in Hm. rewrite Hu in Hm.
  destruct (n_user n) as [v|]; [|left; reflexivity].
  right. rewrite !andb_true_iff in Hm. destruct Hm as [[[Hm _] _] _]. apply N.eqb_eq in Hm. subst. reflexivity.
Qed.

Theorem api_filter_nonroot : forall q uid f,
  q_uid q = Some uid -> uid <> 0%N -> api_filter q = ApiFilter f ->
  f_user f = Some uid /\ q_user_id q = [] /\ q_users q = [].
Proof.
  intros q uid f Hq Hnz H. unfold api_filter in H. rewrite Hq in H.
  assert (E : (uid =? 0)%N = false) by (apply N.eqb_neq; exact Hnz). rewrite E in H. cbn [negb] in H.
  rewrite !andb_true_r in H.
  destruct (q_user_id q) as [|x xs]; [|cbn in H; discriminate]. cbn [is_nil_b negb] in H.
  destruct (q_users q) as [|y ys]; [|cbn in H; discriminate]. cbn in H.
  destruct (is_nil_b (dedup_valid [] (multi_comma_list (q_types q))) && negb (is_nil_b (multi_comma_list (q_types q))));
    [discriminate|].
  destruct (q_after q) as [[t|]|]; inversion H; subst; cbn; auto.
Qed.

(* an addition that is not new-or-repeated (no Broadcast) never turns a blocked waiter's condition true *)
Theorem no_missed_wakeup : forall st a st' id f,
  good st -> a_time a = None -> add_notice st a = Some (st', false, id) ->
  wait_enabled st f = false -> wait_enabled st' f = false.
Proof.
  intros st a st' id f [KU _] Ht HA Hw. apply not_true_iff_false. intro E. apply not_true_iff_false in Hw. apply Hw.
  apply wait_enabled_iff in E as (m & Hm1 & Hm2). apply wait_enabled_iff.
  destruct (add_server_shape _ _ _ _ _ KU Ht HA) as (_ & l1 & l2 & n' & E' & Hk & Hoth & _ & Hold).
  destruct Hold as [(_ & Hf & _)|(n & E & Hkn & Hlr)]; [discriminate|].
  rewrite E' in Hm1. apply in_elt_inv in Hm1 as [<-|Hm1].
  - exists n. split; [rewrite E; apply in_elt|]. rewrite <- Hm2. apply matches_ext; congruence.
  - exists m. split; [apply Hoth, Hm1 | exact Hm2].
Qed.

Definition none_enabled (st : state) (bl : list (N * nfilter)) : Prop :=
  Forall (fun w => wait_enabled st (snd w) = false) bl.

Definition winv (s : wsys) : Prop := good (w_state s) /\ none_enabled (w_state s) (w_blocked s).

Lemma recheck_eq : forall st bl,
  recheck st bl = (map (fun w => WReturned (fst w) (snd w) (notices st (snd w)))
                       (List.filter (fun w => wait_enabled st (snd w)) bl),
                   List.filter (fun w => negb (wait_enabled st (snd w))) bl).
Proof.
  intros st. induction bl as [|[id f] bl IH]; [reflexivity|].
  cbn. rewrite IH. destruct (wait_enabled st f); reflexivity.
Qed.

Lemma none_enabled_filter : forall st bl p, none_enabled st bl -> none_enabled st (List.filter p bl).
Proof.
  intros st bl p H. unfold none_enabled in *. rewrite Forall_forall in *. intros w Hw. apply filter_In in Hw. apply H. tauto.
Qed.

Lemma recheck_none_enabled : forall st bl, none_enabled st (snd (recheck st bl)).
Proof.
  intros st bl. rewrite recheck_eq. apply Forall_forall. intros w Hw. apply filter_In in Hw as [_ Hw].
  apply negb_true_iff, Hw.
Qed.

Lemma wstep_inv : persist_ok = true -> forall s e,
  winv s -> wev_server_clock e = true -> winv (snd (wstep s e)).
Proof.
  intros POK s e [G NE] SC. destruct e as [a|id f|id|]; cbn [wstep].
  - cbn in SC. destruct (a_time a) eqn:Ht; [discriminate|].
    destruct (add_notice (w_state s) a) as [[[st' flag] nid]|] eqn:HA; [|split; assumption].
    assert (G' : good st') by (apply (add_good _ _ _ _ _ G Ht HA)).
    destruct flag.
    + pose proof (recheck_none_enabled st' (w_blocked s)). destruct (recheck st' (w_blocked s)). split; assumption.
    + split; [exact G'|]. cbn. unfold none_enabled in *. rewrite Forall_forall in *. intros w Hw.
      apply (no_missed_wakeup (w_state s) a st' nid (snd w) G Ht HA), NE, Hw.
  - destruct (wait_enabled (w_state s) f) eqn:E; [split; assumption|].
    split; [exact G|]. apply Forall_app. split; [exact NE | constructor; [exact E | constructor]].
  - destruct (is_blocked id (w_blocked s)); [|split; assumption].
    pose proof (recheck_none_enabled (w_state s) (List.filter (fun w => negb (fst w =? id)%N) (w_blocked s))).
    destruct (recheck (w_state s) _). split; assumption.
  - split; [cbn; rewrite (restart_id POK); exact G | constructor].
Qed.

Lemma wrun_inv : persist_ok = true -> forall evs s,
  winv s -> forallb wev_server_clock evs = true -> winv (snd (wrun s evs)).
Proof.
  intros POK. induction evs as [|e evs IH]; intros s I SC; cbn [wrun]; [exact I|].
  cbn in SC. apply andb_true_iff in SC. destruct SC as [SC1 SC2].
  pose proof (wstep_inv POK s e I SC1) as I1. destruct (wstep s e) as [o1 s1].
  specialize (IH s1 I1 SC2). destruct (wrun s1 evs). exact IH.
Qed.

Lemma winv_empty : winv empty_wsys.
Proof. split; [apply good_empty | constructor]. Qed.

Lemma wrun_reach : persist_ok = true -> forall evs o s,
  forallb wev_server_clock evs = true -> wrun empty_wsys evs = (o, s) -> winv s.
Proof. intros POK evs o s SC H. pose proof (wrun_inv POK evs _ winv_empty SC) as I. rewrite H in I. exact I. Qed.

Lemma winv_blocked : forall s id f, winv s -> In (id, f) (w_blocked s) -> wait_enabled (w_state s) f = false.
Proof. intros s id f [_ NE] Hin. unfold none_enabled in NE. rewrite Forall_forall in NE. apply (NE (id, f) Hin). Qed.

(* from any state in which nobody is blocked with its condition true: an addition that makes the condition of a blocked
   call true was new-or-repeated (no_missed_wakeup), so it broadcast, and the call returns during it *)
Lemma wstep_add_returns : forall s a o1 s1 id f,
  winv s -> a_time a = None -> wstep s (WAdd a) = (o1, s1) -> In (id, f) (w_blocked s) ->
  wait_enabled (w_state s1) f = true ->
  In (WReturned id f (notices (w_state s1) f)) o1 /\ ~ In (id, f) (w_blocked s1).
Proof.
  intros s a o1 s1 id f I Ht W Hin He. pose proof (winv_blocked s id f I Hin) as Hd. destruct I as [G _].
  cbn [wstep] in W.
  destruct (add_notice (w_state s) a) as [[[st' flag] nid]|] eqn:HA; [|inversion W; subst; congruence].
  destruct flag.
  - rewrite recheck_eq in W. injection W as <- <-. cbn in He |- *. split.
    + apply (in_map (fun w => WReturned (fst w) (snd w) (notices st' (snd w))) _ (id, f)), filter_In. auto.
    + intro Hb. apply filter_In in Hb as [_ Hb]. cbn in Hb. rewrite He in Hb. discriminate.
  - inversion W; subst; clear W. cbn in He.
    rewrite (no_missed_wakeup _ _ _ _ f G Ht HA Hd) in He. discriminate.
Qed.

Lemma enabled_sound : forall st f, wait_enabled st f = true ->
  notices st f <> [] /\ forall n, In n (notices st f) -> matches f n = true.
Proof.
  intros st f E. split.
  - unfold wait_enabled in E. destruct (notices st f); discriminate.
  - intros n Hn. apply notices_in in Hn. tauto.
Qed.

Lemma recheck_sound : forall st bl id f l, In (WReturned id f l) (fst (recheck st bl)) ->
  l <> [] /\ forall n, In n l -> matches f n = true.
Proof.
  intros st bl id f l H. rewrite recheck_eq in H. apply in_map_iff in H as (w & E & Hw). apply filter_In in Hw as [_ Hw].
  injection E as <- <- <-. apply enabled_sound, Hw.
Qed.

Lemma wstep_sound : forall s e id f l,
  In (WReturned id f l) (fst (wstep s e)) -> l <> [] /\ forall n, In n l -> matches f n = true.
Proof.
  intros s e id f l Hin. destruct e as [a|wid wf|wid|]; cbn [wstep] in Hin.
  - destruct (add_notice (w_state s) a) as [[[st' flag] nid]|]; [|contradiction].
    destruct flag; [|contradiction].
    pose proof (recheck_sound st' (w_blocked s) id f l). destruct (recheck st' (w_blocked s)). auto.
  - destruct (wait_enabled (w_state s) wf) eqn:E; [|contradiction].
    destruct Hin as [Heq|[]]. injection Heq as <- <- <-. apply enabled_sound, E.
  - destruct (is_blocked wid (w_blocked s)); [|contradiction].
    pose proof (recheck_sound (w_state s) (List.filter (fun w => negb (fst w =? wid)%N) (w_blocked s)) id f l).
    destruct (recheck (w_state s) _). destruct Hin as [Heq|Hin]; [discriminate | auto].
  - contradiction.
Qed.

Theorem wait_returns_sound : forall evs s o s' id f l,
  wrun s evs = (o, s') -> In (WReturned id f l) o -> l <> [] /\ forall n, In n l -> matches f n = true.
Proof.
  induction evs as [|e evs IH]; intros s o s' id f l H Hin; cbn in H; [inversion H; subst; contradiction|].
  pose proof (wstep_sound s e id f l) as W. destruct (wstep s e) as [o1 s1].
  destruct (wrun s1 evs) as [o2 s2] eqn:R. inversion H; subst; clear H.
  apply in_app_iff in Hin. destruct Hin as [Hin|Hin]; [apply W, Hin | eapply IH; eassumption].
Qed.

