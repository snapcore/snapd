(* C17 -- proofs about models/Boot.v: inductive invariants of the UC20/grub machine and of the UC16/18 machine over
   EVERY event sequence (any length, power loss between any two writes). *)
From Coq Require Import List NArith Bool.
Import ListNotations.
Require Import V.gen.GrubKernelStatus V.models.Boot V.proofs.ListFacts.
Open Scope N_scope.

Lemma mem_In : forall r l, mem r l = true <-> In r l.
Proof. exact (existsb_eqb_In N.eqb N.eqb_eq). Qed.

Lemma fold_left_inv : forall (A E : Type) (step : A -> E -> A) (I : A -> Prop),
  (forall a e, I a -> I (step a e)) -> forall evs a, I a -> I (fold_left step evs a).
Proof. intros A E step I Hs. induction evs as [| e r IH]; simpl; auto. Qed.

Lemma status_eqb_eq : forall a b, status_eqb a b = true <-> a = b.
Proof. destruct a, b; simpl; split; intros; congruence. Qed.

Lemma status_eqb_neq : forall a b, status_eqb a b = false -> a <> b.
Proof. intros a b H <-. destruct a; discriminate. Qed.

Lemma status_eqb_sym : forall a b, status_eqb a b = status_eqb b a.
Proof. destruct a, b; reflexivity. Qed.

Lemma orev_eqb_eq : forall a b, orev_eqb a b = true -> a = b.
Proof. destruct a, b; simpl; intros H; try congruence. apply N.eqb_eq in H; congruence. Qed.

Lemma revs_eqb_eq : forall a b, revs_eqb a b = true -> a = b.
Proof.
  induction a; destruct b; simpl; intros H; try congruence.
  apply andb_true_iff in H; destruct H as [H1 H2]. apply N.eqb_eq in H1. f_equal; auto.
Qed.

Lemma menv_eqb_eq : forall a b, menv_eqb a b = true -> a = b.
Proof.
  intros [a1 a2 a3 a4] [b1 b2 b3 b4]; unfold menv_eqb; simpl; intros H.
  repeat (apply andb_true_iff in H; destruct H as [H ?]).
  apply N.eqb_eq in H. apply orev_eqb_eq in H2. apply status_eqb_eq in H1. apply revs_eqb_eq in H0. congruence.
Qed.

Lemma modeenv_write_cases : forall old new,
  (modeenv_write old new = [] /\ new = old) \/ modeenv_write old new = [WModeenv new].
Proof.
  intros; unfold modeenv_write; destruct (menv_eqb new old) eqn:E; [left | right]; auto.
  split; auto using menv_eqb_eq.
Qed.

(* what grub.cfg does with kernel_status, evaluated on the generated table: a change of grub.cfg that alters a row
   breaks this proof *)
Lemma grub_table : forall x, grub_step x = match x with
  | SDef => (SDef, false, false) | STry => (STrying, true, true)
  | STrying => (SDef, false, false) | SBad => (SDef, false, false) end.
Proof. destruct x; reflexivity. Qed.

Lemma grub_fallback_entry : fallback_entry_reboots = true.
Proof. reflexivity. Qed.

Lemma step_firmware : forall cf fx g m tb s' r, ph m = PhOff -> firmware_c cf tb (st m) = (s', r) ->
  step20 cf fx g m (EFirmware tb) =
  with_st m s' (match r with FwImage i => PhFw i | FwReboot => PhOff | FwStuck => PhDead end).
Proof. intros * Hp Hf. unfold step20. rewrite Hp, Hf. reflexivity. Qed.

Lemma step_reset : forall cf fx g m, g && in_window m = false -> step20 cf fx g m EReset = with_st m (st m) PhOff.
Proof. intros * Hw. unfold step20. rewrite Hw. destruct (ph m); reflexivity. Qed.

(* A trial is due when the status is try; the not-scriptable firmware also needs the tryboot flag for it. *)
Lemma trial_due_cases : forall cf tb s,
  (ks s <> STry \/ (cf = EnvNS /\ tb = false)) \/ (ks s = STry /\ (cf = Grub \/ tb = true)).
Proof. intros cf tb s. destruct (ks s), cf, tb; auto; left; left; discriminate. Qed.

Lemma firmware_settled : forall cf tb s, ks s <> STry \/ (cf = EnvNS /\ tb = false) ->
  firmware_c cf tb s = (apply20 (WStatus SDef) s, FwImage (kl s)).
Proof.
  intros cf tb s H. unfold firmware_c, firmware20, firmware_ns, ns_status. rewrite grub_table.
  destruct cf, tb, (ks s); simpl; try reflexivity; destruct H as [H | [H1 H2]]; congruence.
Qed.

(* without a try kernel the firmware reboots: grub has set the status to trying by then, piboot leaves it at try *)
Lemma firmware_trial : forall cf tb s, ks s = STry -> cf = Grub \/ tb = true ->
  match tkl s with
  | Some t => firmware_c cf tb s = (apply20 (WStatus STrying) s, FwImage t)
  | None => exists x, firmware_c cf tb s = (apply20 (WStatus x) s, FwReboot) /\ (x = STrying \/ cf = EnvNS)
  end.
Proof.
  intros cf tb [x l t m] Ek Hc. simpl in Ek. subst x. unfold firmware_c, firmware20, firmware_ns, ns_status. rewrite grub_table.
  destruct cf; [| destruct Hc as [Hc | ->]; [discriminate Hc |]]; destruct t; simpl; eauto.
Qed.

Section UC20.
Variable cf : conf.
Variables fx g : bool.
Hypothesis guard : fx || g = true.

Definition live (x : status) : bool := match x with STry | STrying => true | _ => false end.

(* crash-safe part: holds after every single write. try-kernel.efi / try_base only matter while the status is try or
   trying: a left-over link with status "" is never booted nor committed. *)
Definition Ist (gk gb ak ab : list rev) (s : st20) : Prop :=
  In (kl s) gk /\ In (m_base (me s)) gb /\
  (live (ks s) = true -> forall t, tkl s = Some t -> In t gk \/ In t ak) /\
  (live (m_bst (me s)) = true -> forall t, m_try (me s) = Some t -> In t gb \/ In t ab).

(* kernel.efi is trusted by the initramfs *)
Definition Trust (s : st20) : Prop := In (kl s) (m_ck (me s)).

(* what snapd may rely on when no operation is in progress, kernel k and base b being mounted *)
Definition Qb (k b : rev) (s : st20) : Prop :=
  (ks s = STrying -> forall t, tkl s = Some t -> t = k /\ In t (m_ck (me s))) /\
  (m_bst (me s) = STrying -> forall t, m_try (me s) = Some t -> t = b).

Definition Qf (gk gb ak ab : list rev) (k b : rev) (s : st20) : Prop :=
  Ist gk gb ak ab s /\ Trust s /\ Qb k b s.

Definition head_enable (ws : list write20) : Prop :=
  exists ws', (exists r, ws = WEnable r :: ws') \/ (exists a b c, ws = WEnv a b c :: ws').

(* at a point where writes ws remain: crash-safe, and trusted unless this is the window (only if the guard g is on) *)
Definition P (gk gb ak ab : list rev) (nt sk : bool) (k b : rev) (s : st20) (ws : list write20) : Prop :=
  Ist gk gb ak ab s /\ (Trust s \/ (g = true /\ nt = true /\ head_enable ws)) /\
  (* what a restarted snapd relies on when it re-enters the operations on this partial state *)
  (sk && status_eqb (ks s) STrying = false -> Qb k b s).

Fixpoint pend_ok (Pp : st20 -> list write20 -> Prop) (Pf : st20 -> Prop) (s : st20) (ws : list write20) : Prop :=
  match ws with
  | [] => Pf s
  | w :: r => Pp s ws /\ pend_ok Pp Pf (apply20 w s) r
  end.

Definition is_nt (c : option op20) : bool := match c with Some (SetK _ true) => true | _ => false end.
Definition cfin_ak (c : option op20) (s : st20) (a : list rev) := match c with Some o => fin_ak o s a | None => a end.
Definition cfin_ab (c : option op20) (s : st20) (a : list rev) := match c with Some o => fin_ab o s a | None => a end.

(* the image grub chainloaded is the one the initramfs is going to select *)
Definition fwc (i : rev) (s : st20) : Prop :=
  (ks s = SDef \/ ks s = STrying) /\ (ks s = STrying -> tkl s = Some i) /\ (ks s = SDef -> i = kl s).

Definition MI (m : mach) : Prop :=
  match ph m with
  | PhOff => pend m = [] /\ Ist (gk m) (gb m) (ak m) (ab m) (st m) /\ Trust (st m)
  | PhFw i => pend m = [] /\ Ist (gk m) (gb m) (ak m) (ab m) (st m) /\ Trust (st m) /\ fwc i (st m)
  | PhRun k b =>
      pend_ok (P (gk m) (gb m) (ak m) (ab m) (is_nt (cur m)) (is_setk (cur m)) k b)
              (fun s' => Qf (gk m) (gb m) (cfin_ak (cur m) s' (ak m)) (cfin_ab (cur m) s' (ab m)) k b s')
              (st m) (pend m) /\
      (pend m = [] -> cur m = None)
  | PhDead => False
  end.

Lemma Ist_mono : forall gk gb ak ab gk' gb' ak' ab' s,
  incl gk gk' -> incl gb gb' -> incl ak ak' -> incl ab ab' -> Ist gk gb ak ab s -> Ist gk' gb' ak' ab' s.
Proof.
  unfold Ist, incl; intros * Hk Hb Hak Hab (H1 & H2 & H3 & H4); repeat split; auto.
  - intros Hl t Ht; destruct (H3 Hl t Ht); auto.
  - intros Hl t Ht; destruct (H4 Hl t Ht); auto.
Qed.

Lemma Ist_weaken : forall gk gb ak ab s s',
  kl s' = kl s -> tkl s' = tkl s -> m_base (me s') = m_base (me s) -> m_try (me s') = m_try (me s) ->
  (live (ks s') = true -> live (ks s) = true) -> (live (m_bst (me s')) = true -> live (m_bst (me s)) = true) ->
  Ist gk gb ak ab s -> Ist gk gb ak ab s'.
Proof.
  unfold Ist; intros * -> -> -> -> Hk Hb (I1 & I2 & I3 & I4). repeat split; auto.
Qed.

Lemma st_eta : forall s, {| ks := ks s; kl := kl s; tkl := tkl s; me := me s |} = s.
Proof. destruct s; reflexivity. Qed.

Ltac splits := repeat match goal with |- _ /\ _ => split end.

(* the shape of every clause of Ist and Qb about a try link *)
Definition link (c : Prop) (t : option rev) (R : rev -> Prop) : Prop := c -> forall u, t = Some u -> R u.
Arguments link : simpl never.

Lemma link_off : forall (c : Prop) t R, ~ c -> link c t R.
Proof. intros c t R Hn Hc. contradiction. Qed.

Lemma link_not_trying : forall x t R, status_eqb x STrying = false -> link (x = STrying) t R.
Proof. intros x t R H. apply link_off, status_eqb_neq, H. Qed.

Lemma link_none : forall c R, link c None R.
Proof. intros c R _ u E. discriminate E. Qed.

Lemma link_some : forall (c : Prop) u (R : rev -> Prop), R u -> link c (Some u) R.
Proof. intros c u R H _ v [= <-]. exact H. Qed.

Lemma Ist_links : forall gk gb ak ab s, Ist gk gb ak ab s <->
  In (kl s) gk /\ In (m_base (me s)) gb /\
  link (live (ks s) = true) (tkl s) (fun u => In u gk \/ In u ak) /\
  link (live (m_bst (me s)) = true) (m_try (me s)) (fun u => In u gb \/ In u ab).
Proof. reflexivity. Qed.

Lemma Qb_links : forall k b s, Qb k b s <->
  link (ks s = STrying) (tkl s) (fun u => u = k /\ In u (m_ck (me s))) /\
  link (m_bst (me s) = STrying) (m_try (me s)) (fun u => u = b).
Proof. reflexivity. Qed.

Lemma head_enable_links : forall r ws, head_enable (WEnable r :: ws).
Proof. intros r ws. exists ws. left. exists r. reflexivity. Qed.

Lemma head_enable_env : forall x k t ws, head_enable (WEnv x k t :: ws).
Proof. intros x k t ws. exists ws. right. exists x, k, t. reflexivity. Qed.

Create HintDb boot.
#[local] Hint Resolve link_none link_some link_not_trying in_eq in_cons in_or_app head_enable_links head_enable_env : boot.
#[local] Hint Extern 1 (link _ _ _) => apply link_off; discriminate : boot.

(* the obligation at one point of an operation's write list (P) or at its end (Qf): three parts either way *)
Ltac op_point :=
  cbn [pend_ok]; unfold P, Qf, Trust; simpl; splits; [apply Ist_links | | intros; apply Qb_links]; simpl; splits; auto with boot.

(* what mark-successful commits is the fall-back or what is running after a trial boot: known-good once marked, and
   the kernel is one the initramfs trusts *)
Lemma mark_selects : forall gk gb ak ab k b s, Qf gk gb ak ab k b s ->
  In (mark_base_sn (me s)) (b :: gb) /\ In (mark_kernel_sn s) (k :: gk) /\ In (mark_kernel_sn s) (m_ck (me s)).
Proof.
  intros * ((I1 & I2 & _) & HT & Q3 & Q4). unfold mark_base_sn, mark_kernel_sn. split.
  - destruct (m_bst (me s)); try (right; exact I2). destruct (m_try (me s)) as [t |]; [| right; exact I2].
    left. symmetry. exact (Q4 eq_refl t eq_refl).
  - destruct (ks s); try (split; [right; exact I1 | exact HT]).
    destruct (tkl s) as [t |]; [| split; [right; exact I1 | exact HT]].
    destruct (Q3 eq_refl t eq_refl) as [-> Hck]. split; [left; reflexivity | exact Hck].
Qed.

(* A write that is left out because it would change nothing: the operation can be checked as if it were made. *)
Lemma pend_ok_skip : forall Pp Pf s w l ws,
  l = [w] \/ (l = [] /\ apply20 w s = s) -> pend_ok Pp Pf s (w :: ws) -> pend_ok Pp Pf s (l ++ ws).
Proof. intros * [-> | [-> E]] H; [exact H |]. destruct H as [_ H]. rewrite E in H. exact H. Qed.

Lemma skip_status : forall Pp Pf s c x ws, ks s = c ->
  pend_ok Pp Pf s (WStatus x :: ws) -> pend_ok Pp Pf s ((if status_eqb c x then [] else [WStatus x]) ++ ws).
Proof.
  intros * <-. apply pend_ok_skip. destruct (status_eqb (ks s) x) eqn:E; auto.
  right. apply status_eqb_eq in E. subst x. destruct s; auto.
Qed.

Lemma skip_enable : forall Pp Pf s c r ws, kl s = c ->
  pend_ok Pp Pf s (WEnable r :: ws) -> pend_ok Pp Pf s ((if N.eqb c r then [] else [WEnable r]) ++ ws).
Proof.
  intros * <-. apply pend_ok_skip. destruct (N.eqb (kl s) r) eqn:E; auto.
  right. apply N.eqb_eq in E. subst r. destruct s; auto.
Qed.

Lemma skip_modeenv : forall Pp Pf s old m ws, me s = old ->
  pend_ok Pp Pf s (WModeenv m :: ws) -> pend_ok Pp Pf s (modeenv_write old m ++ ws).
Proof.
  intros * <-. apply pend_ok_skip.
  destruct (modeenv_write_cases (me s) m) as [[-> ->] | ->]; auto. right. destruct s; auto.
Qed.

Lemma skip_env : forall Pp Pf s x k t (c : bool) ws, (c = false -> ks s = x /\ kl s = k /\ tkl s = t) ->
  pend_ok Pp Pf s (WEnv x k t :: ws) -> pend_ok Pp Pf s ((if c then [WEnv x k t] else []) ++ ws).
Proof.
  intros * H. apply pend_ok_skip. destruct c; auto.
  right. destruct (H eq_refl) as (<- & <- & <-). destruct s; auto.
Qed.

(* every operation, started in a quiescent state, keeps the crash-safe invariant after every write and ends quiescent
   (in the shape start_op uses) *)
Lemma op_all : forall gk gb ak ab k b s o,
  Qf gk gb ak ab k b s ->
  match o with SetK r true => In r gk | SetB r true => In r gb | _ => True end ->
  let gk' := match o with Mark => k :: gk | _ => gk end in
  let gb' := match o with Mark => b :: gb | _ => gb end in
  let ak1 := match o with SetK r false => if N.eqb r (kl s) then ak else r :: ak | _ => ak end in
  let ab1 := match o with SetB r false => if N.eqb r (m_base (me s)) then ab else r :: ab | _ => ab end in
  pend_ok (P gk' gb' ak1 ab1 (is_nt (Some o)) (is_setk (Some o)) k b)
          (fun s' => Qf gk' gb' (fin_ak o s' ak1) (fin_ab o s' ab1) k b s') s (writes20 cf fx o s).
Proof.
  intros * HQf Hen gk' gb' ak1 ab1. pose proof (mark_selects _ _ _ _ _ _ _ HQf) as Hm. destruct HQf as (HI & HT & HQ).
  assert (HI' : Ist gk' gb' ak1 ab1 s).
  { apply (Ist_mono gk gb ak ab); [.. | exact HI]; subst gk' gb' ak1 ab1; destruct o as [? [|] | ? [|] |];
      try destruct (N.eqb _ _); auto using incl_refl, incl_tl. }
  clear HI. destruct (proj1 (Ist_links _ _ _ _ _) HI') as (I1 & I2 & I3 & I4).
  destruct (proj1 (Qb_links _ _ _) HQ) as [Q3 Q4]. unfold Trust in HT.
  subst gk' gb' ak1 ab1.
  destruct o as [r [|] | r [|] |]; [destruct cf | destruct cf | | | destruct cf]; simpl in *.
  - (* undo, kernel links *)
    unfold set_next_kernel. rewrite <- (app_nil_r (if status_eqb (ks s) _ then _ else _)).
    destruct (N.eqb r (kl s)) eqn:E; cbn [negb andb app].
    + apply N.eqb_eq in E. subst r. rewrite andb_false_r.
      apply skip_modeenv; [reflexivity | split; [| split; [| apply skip_status; [reflexivity | split]]]].
      all: op_point.
    + (* the code as it is (fx = false, so the section's guard reads g = true) drops the running kernel from
         current_kernels: the window disjunct of P stands in for Trust until kernel.efi has moved *)
      rewrite andb_true_r. destruct fx; simpl in guard.
      all: apply skip_modeenv; [reflexivity | split; [| split; [| split; [| apply skip_status; [reflexivity | split]]]]].
      all: op_point.
  - (* undo, bootloader environment *)
    unfold set_next_kernel_env. rewrite <- (app_nil_r (if _ || _ then _ else _)).
    destruct (N.eqb r (kl s)) eqn:E; cbn [negb andb]; rewrite ?orb_true_r, ?orb_false_r.
    + apply N.eqb_eq in E. subst r. rewrite andb_false_r.
      apply skip_modeenv; [reflexivity | split; [| apply skip_env; [intros H; apply negb_false_iff, status_eqb_eq in H; auto | split]]].
      all: op_point.
    + rewrite andb_true_r. destruct fx; simpl in guard.
      all: apply skip_modeenv; [reflexivity | split; [| split]].
      all: op_point.
  - (* try a kernel, kernel links *)
    unfold set_next_kernel.
    rewrite (status_eqb_sym _ (ks s)), <- (app_nil_r (if status_eqb (ks s) _ then _ else _)).
    destruct (N.eqb r (kl s)) eqn:E; cbn [negb andb app].
    + apply skip_modeenv; [reflexivity | split; [| apply skip_status; [reflexivity | split]]]; simpl; rewrite ?E.
      all: op_point.
    + apply skip_modeenv; [reflexivity | split; [| split; [| apply skip_status; [reflexivity | split]]]]; simpl; rewrite ?E.
      all: op_point.
  - (* try a kernel, bootloader environment *)
    unfold set_next_kernel_env. rewrite <- (app_nil_r (if _ || _ then _ else _)).
    destruct (N.eqb r (kl s)) eqn:E; cbn [negb andb]; rewrite ?orb_true_r, ?orb_false_r.
    + apply skip_modeenv; [reflexivity | split; [| apply skip_env; [intros H; apply negb_false_iff, status_eqb_eq in H; auto | split]]]; simpl; rewrite ?E.
      all: op_point.
    + apply skip_modeenv; [reflexivity | split; [| split]]; simpl; rewrite ?E.
      all: op_point.
  - (* undo, base *)
    unfold set_next_base. rewrite <- (app_nil_r (modeenv_write _ _)).
    destruct (N.eqb r (m_base (me s))) eqn:E; cbn [negb andb].
    all: apply skip_modeenv; [reflexivity | split]; op_point.
  - (* try a base *)
    unfold set_next_base. rewrite <- (app_nil_r (modeenv_write _ _)).
    destruct (N.eqb r (m_base (me s))) eqn:E; cbn [negb andb].
    all: apply skip_modeenv; [reflexivity | split]; simpl; rewrite ?E; op_point.
  - (* mark successful, kernel links *)
    unfold mark20. revert Hm. generalize (mark_base_sn (me s)) (mark_kernel_sn s). intros bsn ksn (Hb & Hk & Hkt).
    rewrite <- (app_nil_r (modeenv_write _ _)).
    apply skip_status; [reflexivity | split; [| apply skip_enable; [reflexivity | split; [| split; [| apply skip_modeenv; [reflexivity | split]]]]]].
    all: op_point.
  - (* mark successful, bootloader environment *)
    unfold mark20_env. revert Hm. generalize (mark_base_sn (me s)) (mark_kernel_sn s). intros bsn ksn (Hb & Hk & Hkt).
    rewrite <- (app_nil_r (modeenv_write _ _)).
    apply skip_env; [| split; [| apply skip_modeenv; [reflexivity | split]]].
    { intros H. apply orb_false_iff in H. destruct H as [H H3]. apply orb_false_iff in H. destruct H as [H1 H2].
      apply negb_false_iff in H1, H2, H3. apply status_eqb_eq in H1. apply N.eqb_eq in H2.
      destruct (tkl s); [discriminate H3 | auto]. }
    all: op_point.
Qed.

Lemma firmware_ok : forall tb s s' r, firmware_c cf tb s = (s', r) ->
  kl s' = kl s /\ tkl s' = tkl s /\ me s' = me s /\ r <> FwStuck /\ (live (ks s') = true -> live (ks s) = true) /\
  (forall i, r = FwImage i -> fwc i s').
Proof.
  intros tb s s' r Hf. destruct (trial_due_cases cf tb s) as [Hs | [Ek Hc]].
  - rewrite (firmware_settled _ _ _ Hs) in Hf. injection Hf as <- <-.
    unfold fwc; simpl. repeat split; auto; try discriminate. congruence.
  - pose proof (firmware_trial _ _ _ Ek Hc) as Ht. rewrite Ek. destruct (tkl s) as [t |] eqn:Et.
    + rewrite Ht in Hf. injection Hf as <- <-.
      unfold fwc; simpl. repeat split; auto; try discriminate. congruence.
    + destruct Ht as (x & Ht & _). rewrite Ht in Hf. injection Hf as <- <-. simpl. repeat split; auto; discriminate.
Qed.

Lemma initramfs_base_ok : forall m m' b, initramfs_base m = (m', b) ->
  m_base m' = m_base m /\ m_try m' = m_try m /\ m_ck m' = m_ck m /\ (live (m_bst m') = true -> live (m_bst m) = true) /\
  (b = m_base m \/ (m_try m = Some b /\ m_bst m = STry)) /\
  (m_bst m' = STrying -> forall t, m_try m' = Some t -> t = b).
Proof.
  intros m m' b; unfold initramfs_base.
  destruct (m_bst m) eqn:Eb; try destruct (m_try m) eqn:Et; simpl; intros H; inversion H; subst; simpl;
    repeat split; simpl; rewrite ?Eb; simpl; auto; try (intros; congruence).
Qed.

(* the base selection leaves current_kernels alone, so the kernel is chosen as on the state before it *)
Lemma step_initramfs : forall m i, ph m = PhFw i ->
  step20 cf fx g m EInitramfs =
  with_st m (apply20 (WModeenv (fst (initramfs_base (me (st m))))) (st m))
    (match initramfs_kernel (st m) with
     | KMount k => PhRun k (snd (initramfs_base (me (st m)))) | KReboot => PhOff | KDead => PhDead end).
Proof.
  intros * Hp. unfold step20, initramfs20. rewrite Hp. destruct (initramfs_base (me (st m))) as [m' b] eqn:Eb.
  destruct (initramfs_base_ok _ _ _ Eb) as (_ & _ & B3 & _). unfold initramfs_kernel; simpl. rewrite B3. reflexivity.
Qed.

Lemma kernel_choice : forall i s, fwc i s -> Trust s ->
  initramfs_kernel s = KReboot \/
  initramfs_kernel s = KMount i /\ In i (m_ck (me s)) /\ (ks s = SDef /\ i = kl s \/ ks s = STrying /\ tkl s = Some i).
Proof.
  intros i s ([Ek | Ek] & Ht & Hd) HT; unfold initramfs_kernel; rewrite Ek.
  - rewrite (Hd Ek). right. apply mem_In in HT. rewrite HT. apply mem_In in HT. auto.
  - rewrite (Ht Ek). destruct (mem i (m_ck (me s))) eqn:Em; [right | left; reflexivity]. apply mem_In in Em. auto.
Qed.

Lemma initramfs_ok : forall m i, MI m -> ph m = PhFw i ->
  MI (step20 cf fx g m EInitramfs) /\
  forall k b, ph (step20 cf fx g m EInitramfs) = PhRun k b ->
    k = i /\ (In k (gk m) \/ In k (ak m)) /\ (In b (gb m) \/ In b (ab m)).
Proof.
  intros m i HM Hp. unfold MI in HM. rewrite Hp in HM. destruct HM as (_ & HI & HT & Hfw).
  rewrite (step_initramfs _ _ Hp). destruct (initramfs_base (me (st m))) as [m' b'] eqn:Eb. cbn [fst snd].
  destruct (initramfs_base_ok _ _ _ Eb) as (B1 & B2 & B3 & B4 & B5 & B6).
  assert (HI' : Ist (gk m) (gb m) (ak m) (ab m) (apply20 (WModeenv m') (st m))).
  { apply Ist_weaken with (st m); auto. }
  assert (HT' : Trust (apply20 (WModeenv m') (st m))).
  { unfold Trust; simpl. rewrite B3. exact HT. }
  destruct (kernel_choice _ _ Hfw HT) as [-> | (-> & Hck & Hk)].
  - split; [| discriminate]. unfold MI; simpl. auto.
  - destruct HI as (I1 & I2 & I3 & I4). split.
    + unfold MI; simpl. split; [| reflexivity]. split; [exact HI' | split; [exact HT' |]].
      unfold Qb; simpl. split; [| exact B6]. rewrite B3.
      intros Es t Et. destruct Hk as [[E _] | [_ E]]; [congruence |]. split; congruence.
    + simpl. intros k b E; inversion E; subst k b. split; [reflexivity |]. split.
      * destruct Hk as [[_ ->] | [Es Et]]; [left; exact I1 |]. apply I3; [rewrite Es; reflexivity | exact Et].
      * destruct B5 as [-> | [Et Es]]; [left; exact I2 |]. apply I4; [rewrite Es; reflexivity | exact Et].
Qed.

Lemma P_outside_window : forall m gk gb ak ab sk k b w ws,
  pend m = w :: ws -> g && in_window m = false ->
  P gk gb ak ab (is_nt (cur m)) sk k b (st m) (w :: ws) -> Trust (st m).
Proof.
  intros * Ep Ew (_ & [HT | (Hg & Hnt & ws' & Hh)] & _); [exact HT |].
  exfalso. unfold in_window in Ew. rewrite Ep, Hg in Ew. unfold is_nt in Hnt.
  destruct (cur m) as [[? [|] | |]|]; try discriminate Hnt.
  destruct Hh as [[r9 Hh] | (x & y & z & Hh)]; injection Hh as -> _; discriminate Ew.
Qed.

Lemma MI_safe : forall m, MI m ->
  Ist (gk m) (gb m) (ak m) (ab m) (st m) /\ (g && in_window m = false -> Trust (st m)).
Proof.
  intros m HM. unfold MI in HM. destruct (ph m); [split; intros; apply HM | split; intros; apply HM | | destruct HM].
  destruct HM as [HQ Hm]. destruct (pend m) eqn:Ep; simpl in HQ.
  - rewrite (Hm eq_refl) in HQ. destruct HQ as (HI & HT & _). auto.
  - destruct HQ as [HP _]. split; [apply HP | intros Hw; exact (P_outside_window _ _ _ _ _ _ _ _ _ _ Ep Hw HP)].
Qed.

Lemma MI_op : forall m o, MI m -> MI (step20 cf fx g m (EOp o)).
Proof.
  intros m o HM0. assert (HM := HM0). unfold MI in HM. unfold step20.
  destruct (ph m) as [| i | k b |] eqn:Eph; try exact HM0.
  destruct (pend m) eqn:Ep; [| exact HM0].
  destruct (op_enabled m o) eqn:Een; [| exact HM0].
  destruct HM as [HQ Hm]. simpl in HQ. rewrite (Hm eq_refl) in HQ. simpl in HQ.
  assert (Hen : match o with SetK r true => In r (gk m) | SetB r true => In r (gb m) | _ => True end).
  { destruct o as [r [|] | r [|] |]; simpl in *; auto; apply mem_In; auto. }
  pose proof (op_all _ _ _ _ _ _ _ o HQ Hen) as L. simpl in L.
  unfold MI, start_op; simpl. rewrite Eph.
  destruct (writes20 cf fx o (st m)) as [| w ws] eqn:Ew.
  - simpl in *. split; [exact L | reflexivity].
  - split; [exact L | discriminate].
Qed.

Lemma MI_write : forall m, MI m -> MI (step20 cf fx g m EWrite).
Proof.
  intros m HM0. assert (HM := HM0). unfold MI in HM. unfold step20.
  destruct (ph m) as [| i | k b |] eqn:Eph; try exact HM0.
  destruct (pend m) as [| w ws] eqn:Ep; [exact HM0 |].
  destruct HM as [[HP Hrest] _]. unfold MI; simpl. rewrite ?Eph.
  destruct ws as [| w2 ws2]; simpl in *.
  - split; [| reflexivity]. destruct (cur m); simpl in *; exact Hrest.
  - split; [| discriminate]. destruct (cur m); simpl in *; exact Hrest.
Qed.

Lemma MI_reset : forall m, MI m -> MI (step20 cf fx g m EReset).
Proof.
  intros m HM. destruct (g && in_window m) eqn:Ew.
  - unfold step20. rewrite Ew. destruct (ph m); exact HM.
  - rewrite (step_reset _ _ _ _ Ew). destruct (MI_safe _ HM) as [HI HT]. unfold MI; simpl. auto.
Qed.

Lemma MI_restart : forall m, MI m -> MI (step20 cf fx g m ERestart).
Proof.
  intros m HM0. assert (HM := HM0). unfold MI in HM. unfold step20.
  destruct (ph m) as [| i | k b |] eqn:Eph; try exact HM0.
  destruct (pend m) as [| w ws] eqn:Ep; [exact HM0 |].
  destruct ((g && in_window m) || negb (restart_ok m)) eqn:Ew; [exact HM0 |].
  apply Bool.orb_false_iff in Ew. destruct Ew as [Ew Er]. apply Bool.negb_false_iff in Er.
  unfold restart_ok in Er. apply Bool.negb_true_iff in Er.
  destruct HM as [[HP _] _]. pose proof (P_outside_window _ _ _ _ _ _ _ _ _ _ Ep Ew HP) as HT.
  destruct HP as (HI & _ & HQb).
  unfold MI; simpl. rewrite ?Eph. simpl. split; [| reflexivity].
  split; [exact HI |]. split; [exact HT | exact (HQb Er)].
Qed.

Lemma MI_firmware : forall m tb, MI m -> MI (step20 cf fx g m (EFirmware tb)).
Proof.
  intros m tb HM0. assert (HM := HM0). unfold MI in HM.
  destruct (ph m) as [| i | k b |] eqn:Eph; try (unfold step20; rewrite Eph; exact HM0).
  destruct HM as (_ & HI & HT).
  destruct (firmware_c cf tb (st m)) as [s' r] eqn:Ef. rewrite (step_firmware _ _ _ _ _ _ _ Eph Ef).
  destruct (firmware_ok _ _ _ _ Ef) as (E1 & E2 & E3 & Hns & E4 & Hfw).
  assert (HI' : Ist (gk m) (gb m) (ak m) (ab m) s').
  { apply Ist_weaken with (st m); auto; rewrite E3; auto. }
  assert (HT' : Trust s').
  { unfold Trust. rewrite E1, E3. exact HT. }
  destruct r; unfold MI; simpl; auto.
Qed.

Theorem MI_step : forall m e, MI m -> MI (step20 cf fx g m e).
Proof.
  intros m e HM. destruct e.
  - apply MI_op, HM.
  - apply MI_write, HM.
  - apply MI_reset, HM.
  - apply MI_restart, HM.
  - apply MI_firmware, HM.
  - destruct (ph m) eqn:Eph; try (unfold step20; rewrite Eph; exact HM).
    apply (initramfs_ok _ _ HM Eph).
Qed.

Lemma MI_init : forall k b, MI (init20 k b).
Proof.
  intros; unfold MI, init20, Ist, Trust; simpl. repeat split; auto; intros; discriminate.
Qed.

End UC20.

Lemma run_MI : forall cf fx g k0 b0 evs, fx || g = true -> MI g (run20 cf fx g (init20 k0 b0) evs).
Proof. intros * Hg. apply (fold_left_inv _ _ _ (MI g) (MI_step cf fx g Hg)), MI_init. Qed.

Lemma known_good_only_by_mark : forall cf fx g m e,
  (gk (step20 cf fx g m e) = gk m /\ gb (step20 cf fx g m e) = gb m) \/
  (exists k b, ph m = PhRun k b /\ e = EOp Mark /\
               gk (step20 cf fx g m e) = k :: gk m /\ gb (step20 cf fx g m e) = b :: gb m).
Proof.
  intros cf fx g m e. destruct e; unfold step20; simpl.
  - destruct (ph m) as [| i | k b |] eqn:Ep; auto. destruct (pend m); auto. destruct (op_enabled m o); auto.
    destruct o as [? ? | ? ? |]; simpl; auto. right; exists k, b; auto.
  - destruct (ph m); auto. destruct (pend m); auto.
  - destruct (g && in_window m); destruct (ph m); auto.
  - destruct (ph m); auto. destruct (pend m); auto. destruct ((g && in_window m) || negb (restart_ok m)); auto.
  - destruct (ph m); auto. destruct (firmware_c cf tb (st m)); auto.
  - destruct (ph m); auto. destruct (initramfs20 (st m)) as [[? ?] ?]; auto.
Qed.

Lemma running_ignores_boot : forall cf fx g m k b tb, ph m = PhRun k b -> run20 cf fx g m [EFirmware tb; EInitramfs] = m.
Proof.
  intros * Hp. unfold run20, fold_left.
  replace (step20 cf fx g m (EFirmware tb)) with m by (unfold step20; rewrite Hp; reflexivity).
  unfold step20. rewrite Hp. reflexivity.
Qed.

Lemma settled_boot : forall cf fx g m tb, ph m = PhOff -> Trust (st m) ->
  ks (st m) <> STry \/ (cf = EnvNS /\ tb = false) ->
  exists b, ph (run20 cf fx g m [EFirmware tb; EInitramfs]) = PhRun (kl (st m)) b.
Proof.
  intros * Hp HT Hs. unfold run20, fold_left.
  rewrite (step_firmware _ _ _ _ _ _ _ Hp (firmware_settled _ _ _ Hs)).
  erewrite step_initramfs by reflexivity.
  unfold initramfs_kernel; simpl. apply mem_In in HT. rewrite HT. eauto.
Qed.

(* a round either mounts something or leaves a state from which the next round, run without the tryboot flag, boots
   kernel.efi: a trial is attempted once *)
Lemma boot_round : forall cf fx g m tb, ph m = PhOff -> Trust (st m) ->
  let m' := run20 cf fx g m [EFirmware tb; EInitramfs] in
  (exists k b, ph m' = PhRun k b) \/
  (ph m' = PhOff /\ Trust (st m') /\ (ks (st m') <> STry \/ cf = EnvNS)).
Proof.
  intros * Hp HT m'. destruct (trial_due_cases cf tb (st m)) as [Hs | [Ek Hc]].
  { left. destruct (settled_boot cf fx g m tb Hp HT Hs) as [b Hb]. eauto. }
  subst m'. unfold run20, fold_left. pose proof (firmware_trial _ _ _ Ek Hc) as Ht.
  destruct (tkl (st m)) as [t |] eqn:Et.
  - rewrite (step_firmware _ _ _ _ _ _ _ Hp Ht).
    erewrite step_initramfs by reflexivity.
    destruct (initramfs_base_ok _ _ _ (surjective_pairing (initramfs_base (me (st m))))) as (_ & _ & B3 & _).
    unfold initramfs_kernel; simpl. rewrite Et.
    destruct (mem t (m_ck (me (st m)))); simpl; [eauto |].
    right. unfold Trust; simpl. rewrite B3. split; [reflexivity |]. split; [exact HT |]. left; discriminate.
  - destruct Ht as (x & Ht & Hx). rewrite (step_firmware _ _ _ _ _ _ _ Hp Ht). right. simpl.
    split; [reflexivity |]. split; [exact HT |]. destruct Hx as [-> | ->]; [left; discriminate | right; reflexivity].
Qed.

(* after a reset, unless a trial is due, the next round boots kernel.efi: so does a trial boot that failed or was
   interrupted (kernel_status still trying at the reset) *)
Lemma reset_boots_fallback : forall cf fx g m tb, Trust (st m) -> g && in_window m = false -> ks (st m) <> STry ->
  exists b, ph (run20 cf fx g m [EReset; EFirmware tb; EInitramfs]) = PhRun (kl (st m)) b.
Proof.
  intros * HT Hw Hk. unfold run20. cbn [fold_left]. rewrite (step_reset _ _ _ _ Hw).
  apply (settled_boot cf fx g (with_st m (st m) PhOff) tb eq_refl HT). left. exact Hk.
Qed.

(* a reset is followed by a mount within TWO firmware rounds (a try kernel that is missing or not trusted costs one
   extra round; there is no try loop) *)
Lemma two_rounds_mount : forall cf fx g m tb, Trust (st m) -> g && in_window m = false ->
  exists k b, ph (run20 cf fx g m [EReset; EFirmware tb; EInitramfs; EFirmware false; EInitramfs]) = PhRun k b.
Proof.
  intros * HT Hw.
  change (run20 cf fx g m [EReset; EFirmware tb; EInitramfs; EFirmware false; EInitramfs])
    with (run20 cf fx g (run20 cf fx g (step20 cf fx g m EReset) [EFirmware tb; EInitramfs]) [EFirmware false; EInitramfs]).
  rewrite (step_reset _ _ _ _ Hw).
  destruct (boot_round cf fx g (with_st m (st m) PhOff) tb eq_refl HT) as [(k & b & H1) | (Hp & HT' & Hs)].
  - rewrite (running_ignores_boot _ _ _ _ _ _ _ H1). eauto.
  - destruct (settled_boot cf fx g _ false Hp HT') as [b Hb]; [| eauto].
    destruct Hs as [Hs | Hs]; auto.
Qed.

Definition reach20 (cf : conf) (fx g : bool) (k0 b0 : rev) (m : mach) : Prop := exists evs, m = run20 cf fx g (init20 k0 b0) evs.

Lemma boot_terminates : forall cf fx g k0 b0 m, fx || g = true -> reach20 cf fx g k0 b0 m -> g && in_window m = false ->
  forall tb, exists k b,
    ph (run20 cf fx g m [EReset; EFirmware tb; EInitramfs; EFirmware false; EInitramfs]) = PhRun k b.
Proof. intros * Hg [evs ->] Hw tb. exact (two_rounds_mount _ _ _ _ tb (proj2 (MI_safe g _ (run_MI _ _ _ _ _ _ Hg)) Hw) Hw). Qed.

(* run with fx = false and g = false (the code as it is) this trace ends in PhDead: a power loss right after the modeenv
   write of a kernel-switching undo leaves kernel.efi on a kernel that current_kernels no longer lists; the initramfs stops *)
Definition dead_end_witness : list ev20 :=
  [EFirmware false; EInitramfs;
   EOp (SetK 2 false); EWrite; EWrite; EWrite; EReset; EFirmware true; EInitramfs;       (* try kernel 2, reboot into it *)
   EOp Mark; EWrite; EWrite; EWrite; EWrite;                                        (* kernel 2 is now known-good *)
   EOp (SetK 1 true); EWrite; EReset;                                               (* undo to 1, power loss after the modeenv *)
   EFirmware false; EInitramfs].

Definition I16 (m : mach16) : Prop :=
  let s := s16 m in
  In (sk s) (gk16 m) /\ In (sc s) (gc16 m) /\
  (forall t, stk s = Some t -> In t (gk16 m) \/ In t (ak16 m)) /\
  (forall t, stc s = Some t -> In t (gc16 m) \/ In t (ac16 m)) /\
  match ph16 m with
  | P16Off => True
  | P16Run k c =>
      (mode s = STrying -> (forall t, stk s = Some t -> t = k) /\ (forall t, stc s = Some t -> t = c))
  end.

(* The contract of the gadget's boot script (not in this repository), as the comment above boot.MarkBootSuccessful
   describes it: it only ever rewrites snap_mode; try -> trying and boots snap_try_* where set; trying -> "" and boots
   snap_*; otherwise boots snap_* (an invalid snap_mode may be left alone or cleared). *)
Definition fw16_ok (fw : st16 -> st16 * rev * rev) : Prop := forall s,
  sk (fst (fst (fw s))) = sk s /\ stk (fst (fst (fw s))) = stk s /\
  sc (fst (fst (fw s))) = sc s /\ stc (fst (fst (fw s))) = stc s /\
  match mode s with
  | STry => mode (fst (fst (fw s))) = STrying /\
            snd (fst (fw s)) = match stk s with Some t => t | None => sk s end /\
            snd (fw s) = match stc s with Some t => t | None => sc s end
  | STrying | SDef => mode (fst (fst (fw s))) = SDef /\ snd (fst (fw s)) = sk s /\ snd (fw s) = sc s
  | SBad => (mode (fst (fst (fw s))) = SBad \/ mode (fst (fst (fw s))) = SDef) /\
            snd (fst (fw s)) = sk s /\ snd (fw s) = sc s
  end.

Section UC16.
Variable fw : st16 -> st16 * rev * rev.
Hypothesis Hfw : fw16_ok fw.

Lemma I16_op : forall m o, I16 m -> I16 (step16 fw m (E16Op o)).
Proof.
  intros m o HI. unfold step16. destruct (ph16 m) as [| k c] eqn:Ep; [exact HI |].
  destruct (op16_enabled m o) eqn:Em; [| exact HI].
  destruct HI as (H1 & H2 & H3 & H4 & H5). rewrite Ep in H5. unfold I16; simpl. rewrite ?Ep.
  destruct o as [[|] r nt |]; simpl in Em |- *.
  (* kernel and core alike. Only the request that writes nothing can leave snap_mode at trying, and it leaves
     everything else too; the others set snap_mode to "" or try and name the fall-back, a known-good r (undo) or put
     r under trial. *)
  1, 2: unfold set_next16, trial16;
    destruct (N.eqb _ r) eqn:E; [destruct (status_eqb (mode (s16 m)) SDef) | destruct nt]; simpl in Em |- *;
    repeat split; auto; try discriminate; try (apply H5; assumption); try (apply mem_In, Em);
    intros t [= <-]; auto using in_eq.
  (* mark-successful commits snap_try_* only after a trial boot, when they are what is running *)
  unfold mark16. destruct (mode (s16 m)) eqn:Emd; simpl; repeat split; auto using in_cons; try discriminate.
  - destruct (stk (s16 m)) as [t |]; [left; symmetry; apply (H5 eq_refl); reflexivity | right; exact H1].
  - destruct (stc (s16 m)) as [t |]; [left; symmetry; apply (H5 eq_refl); reflexivity | right; exact H2].
Qed.

(* the script leaves snap_mode at trying only when it found try, and then it boots snap_try_* where set *)
Lemma firmware16_ok : forall m, I16 m -> ph16 m = P16Off ->
  I16 (step16 fw m E16Firmware) /\
  forall k c, ph16 (step16 fw m E16Firmware) = P16Run k c ->
    (In k (gk16 m) \/ In k (ak16 m)) /\ (In c (gc16 m) \/ In c (ac16 m)).
Proof.
  intros m (H1 & H2 & H3 & H4 & _) Hp. unfold step16. rewrite Hp.
  pose proof (Hfw (s16 m)) as F. destruct (fw (s16 m)) as [[s' k] c]. simpl in F.
  destruct F as (F1 & F2 & F3 & F4 & F5). split.
  - unfold I16; simpl. rewrite F1, F2, F3, F4. repeat split; auto.
    all: destruct (mode (s16 m)); try (destruct F5 as [F5 _]; try destruct F5 as [F5 | F5]; congruence).
    all: destruct F5 as (_ & -> & ->); intros t Et; rewrite Et; reflexivity.
  - simpl. intros k' c' [= <- <-].
    destruct (mode (s16 m)); destruct F5 as (_ & -> & ->); split; auto;
      try (destruct (stk (s16 m)) eqn:Ek; auto); try (destruct (stc (s16 m)) eqn:Ec; auto).
Qed.

Theorem I16_step : forall m e, I16 m -> I16 (step16 fw m e).
Proof.
  intros m e HI. destruct e.
  - apply I16_op, HI.
  - destruct HI as (H1 & H2 & H3 & H4 & _). unfold I16; simpl. auto.
  - destruct (ph16 m) eqn:Ep; [apply firmware16_ok; assumption | unfold step16; rewrite Ep; exact HI].
Qed.

End UC16.

Lemma I16_init : forall k c, I16 (init16 k c).
Proof. intros; unfold I16, init16; simpl; repeat split; auto; intros; discriminate. Qed.

Lemma run_I16 : forall fw k0 c0 evs, fw16_ok fw -> I16 (run16 fw (init16 k0 c0) evs).
Proof. intros * Hfw. apply (fold_left_inv _ _ _ I16 (I16_step fw Hfw)), I16_init. Qed.

Lemma failed_trial16_boots_fallback : forall fw m, fw16_ok fw -> mode (s16 m) = STrying ->
  ph16 (run16 fw m [E16Reset; E16Firmware]) = P16Run (sk (s16 m)) (sc (s16 m)).
Proof.
  intros * Hfw Hm. unfold run16, step16; simpl.
  pose proof (Hfw (s16 m)) as F. destruct (fw (s16 m)) as [[s' kk] cc]. simpl in F.
  rewrite Hm in F. destruct F as (_ & _ & _ & _ & _ & -> & ->). reflexivity.
Qed.

Lemma known_good16_only_by_mark : forall fw m e,
  (gk16 (step16 fw m e) = gk16 m /\ gc16 (step16 fw m e) = gc16 m) \/
  (exists k c, ph16 m = P16Run k c /\ e = E16Op Mark16 /\
               gk16 (step16 fw m e) = k :: gk16 m /\ gc16 (step16 fw m e) = c :: gc16 m).
Proof.
  intros fw m e. destruct e as [o | |]; unfold step16; simpl; auto.
  - destruct (ph16 m) as [| k c] eqn:Ep; auto. destruct (op16_enabled m o); auto.
    destruct o as [? ? ? |]; simpl; auto. right; exists k, c; auto.
  - destruct (ph16 m); auto. destruct (fw (s16 m)) as [[? ?] ?]; auto.
Qed.
