(* C23, about models/SyncDir.v. `write_loop_eq` reads the change phase of ensure_dir_state against the initial directory,
   `erase_loop_eq` the delete phase as filters; `fail_closed` and `eds_ok` are the two outcomes of a call with valid
   input, and the theorems (`success_exact`, `order_independent`, ...) are read off them. *)
From Coq Require Import List NArith Bool Lia ZifyBool Permutation Sorted.
Import ListNotations.
Require Import V.lib.Bytes V.models.SyncDir V.proofs.BytesFacts V.proofs.ListFacts.
Open Scope N_scope.

Lemma lookup_None : forall (A : Type) (d : list (bytes * A)) n, lookup d n = None <-> ~ In n (names d).
Proof.
  induction d as [|[k v] r IH]; intro n; cbn.
  - tauto.
  - destruct (beq k n) eqn:E.
    + apply beq_true_iff in E. subst. split; [discriminate | intro H; exfalso; apply H; left; reflexivity].
    + apply beq_false_iff in E. rewrite IH. tauto.
Qed.
Lemma lookup_Some_In : forall (A : Type) (d : list (bytes * A)) n v, lookup d n = Some v -> In (n, v) d.
Proof.
  induction d as [|[k w] r IH]; intros n v H; cbn in H; [discriminate|]. destruct (beq k n) eqn:E.
  - apply beq_true_iff in E. injection H as ->. subst. left. reflexivity.
  - right. apply IH. assumption.
Qed.
Lemma lookup_Some_names : forall (A : Type) (d : list (bytes * A)) n v, lookup d n = Some v -> In n (names d).
Proof. intros A d n v H. apply lookup_Some_In in H. apply (in_map fst) in H. exact H. Qed.
Lemma lookup_In : forall (A : Type) (d : list (bytes * A)) n v, NoDup (names d) -> (lookup d n = Some v <-> In (n, v) d).
Proof.
  intros A d n v ND. split; [apply lookup_Some_In|]. induction d as [|[k w] r IH]; cbn; [tauto|].
  inversion ND as [|? ? Hk ND']; subst. intros [H | H].
  - injection H as -> ->. rewrite beq_refl. reflexivity.
  - destruct (beq k n) eqn:E; [|exact (IH ND' H)]. apply beq_true_iff in E. subst k. exfalso. apply Hk, (in_map fst _ _ H).
Qed.

Lemma lookup_filter : forall (A : Type) (f : bytes * A -> bool) (d : list (bytes * A)) n, NoDup (names d) ->
  lookup (filter f d) n = match lookup d n with Some v => if f (n, v) then Some v else None | None => None end.
Proof.
  induction d as [|[k v] r IH]; intros n ND; [reflexivity|]. inversion ND as [|? ? Hk ND']; subst.
  cbn [filter lookup]. destruct (beq k n) eqn:B.
  - apply beq_true_iff in B. subst k. destruct (f (n, v)); cbn [lookup]; [now rewrite beq_refl|].
    rewrite (IH n ND'), (proj2 (lookup_None _ r n) Hk). reflexivity.
  - destruct (f (k, v)); cbn [lookup]; rewrite ?B; apply (IH n ND').
Qed.
Lemma In_names_filter : forall (A : Type) (f : bytes * A -> bool) (d : list (bytes * A)) n, NoDup (names d) ->
  (In n (names (filter f d)) <-> exists v, lookup d n = Some v /\ f (n, v) = true).
Proof.
  intros A f d n ND. rewrite in_map_iff. split.
  - intros [[k v] [<- I]]. apply filter_In in I as [I F]. exists v. split; [now apply lookup_In | exact F].
  - intros [v [L F]]. exists (n, v). split; [reflexivity|]. apply filter_In. split; [now apply lookup_In | exact F].
Qed.
Lemma lookup_filter_all : forall (A : Type) (f : bytes * A -> bool) (d : list (bytes * A)) n,
  (forall v, f (n, v) = true) -> lookup (filter f d) n = lookup d n.
Proof.
  intros A f d n H. induction d as [|[k v] r IH]; [reflexivity|]. cbn [filter lookup]. destruct (beq k n) eqn:B.
  - apply beq_true_iff in B. subst k. rewrite H. cbn [lookup]. rewrite beq_refl. reflexivity.
  - destruct (f (k, v)); cbn [lookup]; rewrite ?B; exact IH.
Qed.
Lemma mem_name_names : forall (A : Type) (c : list (bytes * A)) n,
  mem_name n (names c) = match lookup c n with Some _ => true | None => false end.
Proof.
  intros A c n. unfold mem_name. induction c as [|[k v] r IH]; cbn; [reflexivity|].
  rewrite (beq_sym n k), IH. destruct (beq k n); reflexivity.
Qed.

Lemma lookup_set_node : forall d n v n', lookup (set_node d n v) n' = if beq n n' then Some v else lookup d n'.
Proof.
  induction d as [|[k w] r IH]; intros n v n'; cbn.
  - reflexivity.
  - destruct (beq k n) eqn:E; cbn.
    + apply beq_true_iff in E. subst. destruct (beq n n'); reflexivity.
    + rewrite IH. destruct (beq k n') eqn:E2; [|reflexivity].
      apply beq_true_iff in E2. subst. rewrite beq_sym, E. reflexivity.
Qed.
Lemma names_set_node : forall d n v x, In x (names (set_node d n v)) <-> x = n \/ In x (names d).
Proof.
  induction d as [|[k w] r IH]; intros n v x; cbn.
  - intuition.
  - destruct (beq k n) eqn:E; cbn.
    + apply beq_true_iff in E. subst. intuition.
    + rewrite IH. intuition.
Qed.
Lemma NoDup_set_node : forall d n v, NoDup (names d) -> NoDup (names (set_node d n v)).
Proof.
  induction d as [|[k w] r IH]; intros n v ND; cbn.
  - constructor; [tauto | constructor].
  - inversion ND as [|? ? Hk ND']; subst. destruct (beq k n) eqn:E; cbn.
    + constructor; assumption.
    + constructor; [|apply IH; assumption]. rewrite names_set_node. apply beq_false_iff in E. intros [H | H]; [congruence | tauto].
Qed.

Lemma ble_cons : forall x a y b, ble (x :: a) (y :: b) = (x <? y) || ((x =? y) && ble a b).
Proof.
  intros x a y b. cbn [ble]. destruct (N.ltb_spec x y), (N.ltb_spec y x), (N.eqb_spec x y); try reflexivity; lia.
Qed.
Lemma ble_total : forall a b, ble a b = false -> ble b a = true.
Proof.
  induction a as [|x a IH]; intros [|y b]; try reflexivity; try discriminate.
  rewrite !ble_cons. specialize (IH b). lia.
Qed.
Lemma ble_antisym : forall a b, ble a b = true -> ble b a = true -> a = b.
Proof.
  induction a as [|x a IH]; intros [|y b]; try reflexivity; try discriminate.
  rewrite !ble_cons. intros H1 H2. assert (x = y /\ ble a b = true /\ ble b a = true) as (-> & H3 & H4) by lia.
  f_equal. apply IH; assumption.
Qed.
Lemma ble_trans : forall a b c, ble a b = true -> ble b c = true -> ble a c = true.
Proof.
  induction a as [|x a IH]; intros [|y b] [|z c]; try reflexivity; try discriminate.
  rewrite !ble_cons. specialize (IH b c). lia.
Qed.

Definition le (a b : bytes) : Prop := ble a b = true.

Lemma insert_perm : forall x l, Permutation (insert x l) (x :: l).
Proof.
  induction l as [|y r IH]; cbn; [apply Permutation_refl|].
  destruct (ble x y); [apply Permutation_refl|].
  eapply perm_trans; [apply perm_skip; exact IH | apply perm_swap].
Qed.
Lemma sort_perm : forall l, Permutation (sort l) l.
Proof.
  induction l as [|x r IH]; cbn; [constructor|].
  eapply perm_trans; [apply insert_perm | apply perm_skip; exact IH].
Qed.
Lemma sort_In : forall l x, In x (sort l) <-> In x l.
Proof. intros l x. split; apply Permutation_in; [|apply Permutation_sym]; apply sort_perm. Qed.
Lemma sort_NoDup : forall l, NoDup l -> NoDup (sort l).
Proof. intros l H. eapply Permutation_NoDup; [apply Permutation_sym; apply sort_perm | assumption]. Qed.

Lemma insert_sorted : forall x l, StronglySorted le l -> StronglySorted le (insert x l).
Proof.
  induction l as [|y r IH]; intro S; cbn.
  - constructor; constructor.
  - inversion S as [|? ? S' F]; subst. destruct (ble x y) eqn:E.
    + constructor; [assumption|]. constructor; [exact E|].
      rewrite Forall_forall in *. intros z Hz. eapply ble_trans; [exact E | apply F; assumption].
    + constructor; [apply IH; assumption|].
      rewrite Forall_forall in *. intros z Hz.
      apply (Permutation_in _ (insert_perm x r)) in Hz. destruct Hz as [Hz | Hz].
      * subst. apply ble_total. assumption.
      * apply F. assumption.
Qed.
Lemma sort_sorted : forall l, StronglySorted le (sort l).
Proof. induction l as [|x r IH]; cbn; [constructor | apply insert_sorted; assumption]. Qed.

(* a sorted list is determined by its elements: the heads are each below the other *)
Lemma sorted_perm_eq : forall l l', StronglySorted le l -> StronglySorted le l' -> Permutation l l' -> l = l'.
Proof.
  induction l as [|x r IH]; intros l' S S' P.
  - apply Permutation_nil in P. auto.
  - destruct l' as [|y r']; [apply Permutation_sym, Permutation_nil in P; discriminate|].
    inversion S as [|? ? Sr F]; inversion S' as [|? ? Sr' F']; subst. rewrite Forall_forall in F, F'.
    assert (x = y).
    { destruct (Permutation_in x P (or_introl eq_refl)) as [|Hx]; [auto|].
      destruct (Permutation_in y (Permutation_sym P) (or_introl eq_refl)) as [|Hy]; [auto|].
      apply ble_antisym; [apply F, Hy | apply F', Hx]. }
    subst y. f_equal. apply IH; try assumption. eapply Permutation_cons_inv; eassumption.
Qed.
Lemma sort_ext : forall l l', NoDup l -> NoDup l' -> (forall x, In x l <-> In x l') -> sort l = sort l'.
Proof.
  intros l l' N1 N2 H. apply sorted_perm_eq; try apply sort_sorted.
  eapply perm_trans; [apply sort_perm|]. eapply perm_trans; [apply NoDup_Permutation; eassumption|].
  apply Permutation_sym, sort_perm.
Qed.

Definition is_err (r : fres) : bool := match r with FErr => true | _ => false end.
Definition is_wrote (r : fres) : bool := match r with FWrote _ => true | _ => false end.

(* what os.Remove cannot take away *)
Definition stuck (o : option node) : option node :=
  match o with Some v => if removable v then None else Some v | None => None end.

Lemma written_removable : forall um ds, removable (written um ds) = true.
Proof. intros um [c m f|t f|f]; reflexivity. Qed.

Section Loop.
Variables (um : N) (out : list (bytes * onode)).

(* what makes one entry fail: any of its three State() calls, an unsupported type, or a directory in the way *)
Lemma efs_fails : forall cur ds,
  (failat ds = 1 \/ failat ds = 2 \/ (exists f, ds = DBad f) \/ (exists e, cur = Some (Dir e))
   \/ (failat ds = 3 /\ in_state out cur ds = false)) -> efs um out cur ds = FErr.
Proof.
  intros cur ds H. unfold efs, in_state in *.
  destruct (failat ds =? 1) eqn:F1; [reflexivity|].
  destruct ds as [c m f|t f|f]; [| |reflexivity]; cbn [failat] in *.
  - destruct (f =? 2) eqn:F2; [reflexivity|].
    destruct H as [H | [H | [[f' H] | [[e H] | [H1 H2]]]]]; try lia; try discriminate.
    + subst cur. reflexivity.
    + destruct (node_same out cur (DReg c m f)) as [[|]|]; try discriminate; try reflexivity.
      subst f. reflexivity.
  - destruct (f =? 2) eqn:F2; [reflexivity|].
    destruct H as [H | [H | [[f' H] | [[e H] | [H1 H2]]]]]; try lia; try discriminate.
    + subst cur. cbn. destruct (f =? 3); reflexivity.
    + destruct (node_same out cur (DSym t f)) as [[|]|]; try discriminate; try reflexivity.
      subst f. reflexivity.
Qed.

Lemma efs_eq : forall cur ds, efs um out cur ds = FErr \/
  efs um out cur ds = if in_state out cur ds then FSame else FWrote (written um ds).
Proof.
  intros cur ds. unfold efs, in_state. destruct (failat ds =? 1); [now left|].
  destruct ds as [c m f|t f|f]; [| |now left]; cbn [failat]; destruct (f =? 2); try now left.
  - destruct (node_same out cur (DReg c m f)) as [[|]|]; [now right | | now left]. destruct (f =? 3); [now left | now right].
  - destruct (node_same out cur (DSym t f)) as [[|]|]; [now right | | now left]. destruct (f =? 3); [now left|].
    destruct cur as [[c' m'|t'|e]|]; auto.
Qed.

Lemma in_state_Some : forall cur ds, in_state out cur ds = true -> exists v, cur = Some v.
Proof. intros [v|] ds H; [eauto|]. destruct ds; discriminate H. Qed.

(* a written entry is removable and did not replace a directory: a directory in the way is an error *)
Lemma efs_wrote : forall cur ds v, efs um out cur ds = FWrote v -> stuck (Some v) = stuck cur.
Proof.
  intros cur ds v H. destruct (efs_eq cur ds) as [E | E]; rewrite E in H; [discriminate|].
  destruct (in_state out cur ds); [discriminate|]. injection H as <-. unfold stuck. rewrite written_removable.
  destruct cur as [[c m|t|e]|]; try reflexivity.
  rewrite efs_fails in E by (right; right; right; left; eexists; reflexivity). discriminate.
Qed.

Definition wl_fail (d : list (bytes * node)) (content : list (bytes * dstate)) : bool :=
  existsb (fun e => is_err (efs um out (lookup d (fst e)) (snd e))) content.

Definition after_write (d : list (bytes * node)) (content : list (bytes * dstate)) (n : bytes) : option node :=
  match lookup content n with
  | Some ds => match efs um out (lookup d n) ds with FWrote v => Some v | _ => lookup d n end
  | None => lookup d n
  end.
Definition wrote_names (d : list (bytes * node)) (content : list (bytes * dstate)) : list bytes :=
  names (filter (fun e => is_wrote (efs um out (lookup d (fst e)) (snd e))) content).

Lemma wl_fail_iff : forall d content,
  wl_fail d content = true <-> exists n ds, In (n, ds) content /\ efs um out (lookup d n) ds = FErr.
Proof.
  intros d content. unfold wl_fail. rewrite existsb_exists. split.
  - intros [[n ds] [I E]]. exists n, ds. split; [assumption|]. cbn in E. now destruct (efs um out (lookup d n) ds).
  - intros [n [ds [I E]]]. exists (n, ds). split; [assumption|]. cbn. now rewrite E.
Qed.

Lemma efs_of_entry : forall d content n ds, NoDup (names content) -> wl_fail d content = false ->
  lookup content n = Some ds ->
  efs um out (lookup d n) ds = if in_state out (lookup d n) ds then FSame else FWrote (written um ds).
Proof.
  intros d content n ds ND WF L. destruct (efs_eq (lookup d n) ds) as [Hf | E]; [|exact E]. apply lookup_In in L; [|assumption].
  assert (X : wl_fail d content = true) by (apply wl_fail_iff; eauto). congruence.
Qed.

Lemma after_write_entry : forall d content n ds, NoDup (names content) -> wl_fail d content = false ->
  lookup content n = Some ds ->
  after_write d content n = if in_state out (lookup d n) ds then lookup d n else Some (written um ds).
Proof.
  intros d content n ds ND WF L. unfold after_write. rewrite L, (efs_of_entry d content n ds ND WF L).
  destruct (in_state out (lookup d n) ds); reflexivity.
Qed.

Lemma after_write_other : forall d content n, lookup content n = None -> after_write d content n = lookup d n.
Proof. intros d content n L. unfold after_write. rewrite L. reflexivity. Qed.

Lemma In_wrote_names : forall d content n, NoDup (names content) -> wl_fail d content = false ->
  (In n (wrote_names d content) <-> exists ds, lookup content n = Some ds /\ in_state out (lookup d n) ds = false).
Proof.
  intros d content n ND WF. unfold wrote_names. rewrite In_names_filter by assumption. cbn [fst snd].
  split; intros [ds [L H]]; exists ds; (split; [assumption|]); rewrite (efs_of_entry d content n ds ND WF L) in *;
    now destruct (in_state out (lookup d n) ds).
Qed.

Lemma NoDup_wrote_names : forall d content, NoDup (names content) -> NoDup (wrote_names d content).
Proof. intros d content ND. apply NoDup_map_filter. assumption. Qed.

Lemma set_node_other : forall r d n v, ~ In n (names r) ->
  wl_fail (set_node d n v) r = wl_fail d r /\ wrote_names (set_node d n v) r = wrote_names d r.
Proof.
  intros r d n v Hn.
  assert (L : forall e, In e r -> lookup (set_node d n v) (fst e) = lookup d (fst e)).
  { intros e He. rewrite lookup_set_node. destruct (beq n (fst e)) eqn:B; [|reflexivity].
    apply beq_true_iff in B. subst n. exfalso. apply Hn, in_map, He. }
  split.
  - apply existsb_ext_in. intros e He. rewrite (L e He). reflexivity.
  - unfold wrote_names. f_equal. apply filter_ext_in. intros e He. rewrite (L e He). reflexivity.
Qed.

(* The change phase against the initial directory: it fails iff some entry does, and each name ends with the node
   after_write gives it or, when the phase stopped before reaching it, with its initial one. *)
Lemma write_loop_eq : forall content d ch, NoDup (names content) ->
  exists d', write_loop um out d content ch
             = (d', if wl_fail d content then [] else ch ++ wrote_names d content, wl_fail d content)
             /\ (forall n, lookup d' n = after_write d content n \/ wl_fail d content = true /\ lookup d' n = lookup d n)
             /\ (NoDup (names d) -> NoDup (names d')).
Proof.
  induction content as [|[n ds] r IH]; intros d ch ND.
  - exists d. cbn. rewrite app_nil_r. repeat split; auto.
  - inversion ND as [|? ? Hn ND']; subst.
    assert (Ln : lookup r n = None) by (apply lookup_None; assumption).
    change (wl_fail d ((n, ds) :: r)) with (is_err (efs um out (lookup d n) ds) || wl_fail d r).
    cbn [write_loop]. unfold wrote_names, after_write. cbn [filter fst snd lookup].
    destruct (efs um out (lookup d n) ds) eqn:E; cbn [is_err is_wrote orb].
    + destruct (IH d ch ND') as [d' [H1 [H2 H3]]]. exists d'. split; [exact H1|]. split; [|exact H3].
      intro x. specialize (H2 x). unfold after_write in H2. destruct (beq n x) eqn:B; [|exact H2].
      apply beq_true_iff in B. subst x. rewrite Ln in H2. rewrite E. left. destruct H2 as [H | [_ H]]; exact H.
    + destruct (set_node_other r d n n0 Hn) as [W F'].
      destruct (IH (set_node d n n0) (ch ++ [n]) ND') as [d' [H1 [H2 H3]]]. rewrite W, F' in H1. rewrite W in H2. exists d'.
      cbn [names map fst]. split; [|split].
      * rewrite H1. destruct (wl_fail d r); [reflexivity|]. rewrite <- app_assoc. reflexivity.
      * intro x. specialize (H2 x). unfold after_write in H2. rewrite !lookup_set_node in H2. destruct (beq n x) eqn:B; [|exact H2].
        apply beq_true_iff in B. subst x. rewrite Ln in H2. rewrite E. left. destruct H2 as [H | [_ H]]; exact H.
      * intro NDd. apply H3. apply NoDup_set_node. assumption.
    + exists d. repeat split; auto.
Qed.

Lemma write_loop_keeps : forall d content d' n,
  lookup d' n = after_write d content n \/ wl_fail d content = true /\ lookup d' n = lookup d n ->
  stuck (lookup d' n) = stuck (lookup d n) /\ (lookup d n <> None -> lookup d' n <> None)
  /\ (lookup content n = None -> lookup d' n = lookup d n).
Proof.
  intros d content d' n [E | [_ E]]; rewrite E; [|tauto]. unfold after_write. destruct (lookup content n) as [ds|]; [|tauto].
  destruct (efs um out (lookup d n) ds) eqn:W; try tauto. split; [exact (efs_wrote _ _ _ W) | split; discriminate].
Qed.
End Loop.

Definition fst3 {A B C : Type} (x : A * B * C) : A := fst (fst x).
Definition snd3 {A B C : Type} (x : A * B * C) : B := snd (fst x).
Definition thd3 {A B C : Type} (x : A * B * C) : C := snd x.

Lemma erase_loop_eq : forall mt keep d,
  let gone := fun e : bytes * node => mt (fst e) && negb (mem_name (fst e) keep) && removable (snd e) in
  erase_loop mt keep d =
  (filter (fun e => negb (gone e)) d, names (filter gone d),
   existsb (fun e => mt (fst e) && negb (mem_name (fst e) keep) && negb (removable (snd e))) d).
Proof.
  intros mt keep d gone. subst gone. induction d as [|[n v] r IH]; [reflexivity|]. cbn [erase_loop]. rewrite IH. cbn.
  destruct (mt n && negb (mem_name n keep)), (removable v); reflexivity.
Qed.

Lemma erase_loop_names : forall mt keep d x, In x (names (fst3 (erase_loop mt keep d))) -> In x (names d).
Proof.
  intros mt keep d x. rewrite erase_loop_eq. unfold fst3. cbn [fst]. rewrite !in_map_iff.
  intros [e [E I]]. exists e. apply filter_In in I. tauto.
Qed.

Lemma erase_all_lookup : forall mt d n,
  let d' := fst3 (erase_loop mt [] d) in
  (mt n = false -> lookup d' n = lookup d n) /\ (mt n = true -> forall v, lookup d' n = Some v -> removable v = false).
Proof.
  intros mt d n. cbv zeta. rewrite erase_loop_eq. unfold fst3. cbn [fst mem_name existsb negb]. split.
  - intro M. apply lookup_filter_all. intro v. cbn [fst]. rewrite M. reflexivity.
  - intros M v L. apply lookup_Some_In, filter_In in L as [_ L]. cbn [fst snd] in L. rewrite M in L.
    now destruct (removable v).
Qed.

Lemma erase_loop_spec : forall mt keep d, NoDup (names d) ->
  let r := erase_loop mt keep d in
  (forall n, lookup (fst3 r) n =
             if mt n && negb (mem_name n keep) then stuck (lookup d n) else lookup d n)
  /\ (forall n, In n (snd3 r) <-> mt n = true /\ mem_name n keep = false /\ exists v, lookup d n = Some v /\ removable v = true)
  /\ (thd3 r = true <-> exists n v, mt n = true /\ mem_name n keep = false /\ lookup d n = Some v /\ removable v = false)
  /\ NoDup (snd3 r).
Proof.
  intros mt keep d ND. cbv zeta. rewrite erase_loop_eq. unfold fst3, snd3, thd3. cbn [fst snd].
  assert (M : forall n, mt n && negb (mem_name n keep) = true <-> mt n = true /\ mem_name n keep = false)
    by (intro n; rewrite andb_true_iff, negb_true_iff; tauto).
  split; [|split; [|split]].
  - intro n. rewrite lookup_filter by assumption. unfold stuck. cbn [fst snd].
    destruct (lookup d n) as [v|], (mt n && negb (mem_name n keep)); try reflexivity. now destruct (removable v).
  - intro n. rewrite In_names_filter by assumption. cbn [fst snd]. split.
    + intros [v [L C]]. apply andb_true_iff in C as [C R]. apply M in C. destruct C. eauto.
    + intros (H1 & H2 & v & L & R). exists v. now rewrite (proj2 (M n) (conj H1 H2)), R.
  - rewrite existsb_exists. split.
    + intros [[k v] [I C]]. cbn [fst snd] in C. apply andb_true_iff in C as [C R]. apply M in C. apply negb_true_iff in R.
      apply lookup_In in I; [|assumption]. exists k, v. tauto.
    + intros (n & v & H1 & H2 & L & R). exists (n, v). split; [now apply lookup_In|].
      cbn [fst snd]. now rewrite (proj2 (M n) (conj H1 H2)), R.
  - now apply NoDup_map_filter.
Qed.

Section Main.
Variables (mt : bytes -> bool) (um : N) (out : list (bytes * onode)).

Definition valid_input (content : list (bytes * dstate)) : bool := forallb (fun n => valid_base n && mt n) (names content).

Lemma valid_input_mt : forall content n, valid_input content = true -> In n (names content) -> mt n = true.
Proof.
  intros content n V I. unfold valid_input in V. rewrite forallb_forall in V. specialize (V n I).
  apply andb_true_iff in V. tauto.
Qed.

Definition eds := ensure_dir_state mt um out.

Theorem bad_input_no_effect : forall d content, valid_input content = false ->
  eds d content = mkResult d [] [] true false.
Proof. intros d content V. unfold eds, ensure_dir_state. fold (valid_input content). rewrite V. reflexivity. Qed.

Lemma eds_nil_dir : forall d, r_dir (eds d []) = fst3 (erase_loop mt [] d).
Proof. intro d. unfold eds, ensure_dir_state. cbn. destruct (erase_loop mt [] d) as [[a b] c]. reflexivity. Qed.

Lemma eds_wfail_iff : forall d content, NoDup (names content) ->
  (r_wfail (eds d content) = true <-> valid_input content = true /\ wl_fail um out d content = true).
Proof.
  intros d content NDc. unfold eds, ensure_dir_state. fold (valid_input content). destruct (valid_input content); cbn [negb].
  2:{ cbn. split; [discriminate | intros [H _]; discriminate]. }
  destruct (write_loop_eq um out content d [] NDc) as [d1 [-> _]]. destruct (erase_loop mt _ d1) as [[a b] c]. cbn. tauto.
Qed.

(* fail closed: a failure in the change phase (any entry, any of its State() calls, a directory in the way ...) leaves
   nothing under the managed names except non-empty directories that were already there, reports nothing changed *)
Theorem fail_closed : forall d content, NoDup (names d) -> NoDup (names content) ->
  let r := eds d content in
  r_wfail r = true ->
  r_err r = true /\ r_changed r = []
  /\ (forall n, lookup (r_dir r) n = if mt n then stuck (lookup d n) else lookup d n)
  /\ (forall n, In n (r_removed r) -> mt n = true /\ lookup (r_dir r) n = None)
  /\ (forall n, mt n = true -> lookup d n <> None -> lookup (r_dir r) n = None -> In n (r_removed r))
  /\ StronglySorted le (r_removed r) /\ NoDup (r_removed r).
Proof.
  intros d content NDd NDc r WF. subst r. apply eds_wfail_iff in WF; try assumption. destruct WF as [V WF].
  destruct (write_loop_eq um out content d [] NDc) as [d1 [H1 [AW ND1]]]. rewrite WF in H1. specialize (ND1 NDd).
  assert (K := fun n => write_loop_keeps um out d content d1 n (AW n)).
  assert (E : eds d content = mkResult (fst3 (erase_loop mt [] d1)) [] (sort (snd3 (erase_loop mt [] d1))) true true).
  { unfold eds, ensure_dir_state. fold (valid_input content). rewrite V. cbn [negb]. rewrite H1.
    destruct (erase_loop mt [] d1) as [[a b] c]. reflexivity. }
  rewrite E. cbn [r_dir r_changed r_removed r_err].
  destruct (erase_loop_spec mt [] d1 ND1) as [S1 [S2 [S3 S4]]].
  assert (FIN : forall n, lookup (fst3 (erase_loop mt [] d1)) n = if mt n then stuck (lookup d n) else lookup d n).
  { intro n. rewrite S1. cbn [mem_name existsb negb]. rewrite andb_true_r. destruct (mt n) eqn:M.
    - apply K.
    - apply K, lookup_None. intro I. rewrite (valid_input_mt content n V I) in M. discriminate. }
  repeat split; try reflexivity; try apply sort_sorted; try (apply sort_NoDup; assumption).
  - exact FIN.
  - apply (proj1 (sort_In _ _)) in H. apply (proj1 (S2 _)) in H. tauto.
  - apply (proj1 (sort_In _ _)) in H. apply (proj1 (S2 _)) in H. destruct H as [M [_ [v [L R]]]]. rewrite FIN, M, <- (proj1 (K n)), L. cbn. rewrite R. reflexivity.
  - intros n M NN FN. apply sort_In. apply S2. split; [assumption|]. split; [reflexivity|].
    destruct (K n) as [ST [KEEP _]]. specialize (KEEP NN). destruct (lookup d1 n) as [v|] eqn:L; [|congruence]. exists v. split; [reflexivity|].
    rewrite FIN, M, <- ST in FN. cbn in FN. destruct (removable v); [reflexivity | discriminate].
Qed.

Lemma eds_ok : forall d content, NoDup (names d) -> NoDup (names content) ->
  valid_input content = true -> wl_fail um out d content = false ->
  let r := eds d content in
  (forall n, lookup (r_dir r) n =
     if mt n then match lookup content n with
                  | Some ds => if in_state out (lookup d n) ds then lookup d n else Some (written um ds)
                  | None => stuck (lookup d n)
                  end
     else lookup d n)
  /\ r_changed r = sort (wrote_names um out d content)
  /\ (exists rm, r_removed r = sort rm /\ NoDup rm /\
        forall n, In n rm <-> mt n = true /\ lookup content n = None /\ exists v, lookup d n = Some v /\ removable v = true)
  /\ (r_err r = true <-> exists n v, mt n = true /\ lookup content n = None /\ lookup d n = Some v /\ removable v = false)
  /\ r_wfail r = false.
Proof.
  intros d content NDd NDc V WF r. subst r.
  destruct (write_loop_eq um out content d [] NDc) as [d1 [H1 [AW' ND1]]]. rewrite WF in H1. specialize (ND1 NDd).
  assert (AW : forall n, lookup d1 n = after_write um out d content n) by (intro n; destruct (AW' n) as [E | [E _]]; [exact E | congruence]).
  assert (E : eds d content = mkResult (fst3 (erase_loop mt (names content) d1)) (sort (wrote_names um out d content))
                (sort (snd3 (erase_loop mt (names content) d1))) (thd3 (erase_loop mt (names content) d1)) false).
  { unfold eds, ensure_dir_state. fold (valid_input content). rewrite V. cbn [negb]. rewrite H1. cbn [app].
    destruct (erase_loop mt (names content) d1) as [[a b] c]. reflexivity. }
  rewrite E. cbn [r_dir r_changed r_removed r_err r_wfail].
  destruct (erase_loop_spec mt (names content) d1 ND1) as [S1 [S2 [S3 S4]]].
  (* the delete phase only looks at names outside content, and the change phase left those alone *)
  assert (INC : forall n, lookup content n = None -> lookup d1 n = lookup d n)
    by (intros n L; rewrite AW; apply after_write_other; assumption).
  split; [|split; [reflexivity | split; [|split; [|reflexivity]]]].
  - intro n. rewrite S1, mem_name_names, AW. destruct (lookup content n) as [ds|] eqn:L; cbn [negb].
    + rewrite andb_false_r, (after_write_entry um out d content n ds NDc WF L),
        (valid_input_mt content n V (lookup_Some_names _ _ _ _ L)). reflexivity.
    + rewrite andb_true_r, (after_write_other um out d content n L). reflexivity.
  - exists (snd3 (erase_loop mt (names content) d1)). split; [reflexivity|]. split; [exact S4|]. intro n.
    rewrite S2, mem_name_names. destruct (lookup content n) eqn:L.
    + split; intros (_ & [=] & _).
    + rewrite (INC n L). split; intros (M & _ & H); auto.
  - rewrite S3. split; intros (n & v & M & K & L & R); exists n, v.
    + rewrite mem_name_names in K. destruct (lookup content n) eqn:LC; [discriminate|]. rewrite <- (INC n LC). auto.
    + rewrite mem_name_names, K, (INC n K). auto.
Qed.

Lemma success_ok : forall d content, NoDup (names d) -> NoDup (names content) -> r_err (eds d content) = false ->
  valid_input content = true /\ wl_fail um out d content = false.
Proof.
  intros d content NDd NDc Herr. destruct (valid_input content) eqn:V.
  2:{ rewrite (bad_input_no_effect d content V) in Herr. discriminate. }
  split; [reflexivity|]. destruct (wl_fail um out d content) eqn:WF; [|reflexivity].
  assert (W : r_wfail (eds d content) = true) by (apply eds_wfail_iff; auto).
  destruct (fail_closed d content NDd NDc W) as [E _]. congruence.
Qed.

(* success: managed names are exactly the desired ones, unrelated names untouched, lists exact and sorted *)
Theorem success_exact : forall d content, NoDup (names d) -> NoDup (names content) ->
  let r := eds d content in
  r_err r = false ->
  (forall n, mt n = false -> lookup (r_dir r) n = lookup d n)
  /\ (forall n, mt n = true ->
        match lookup content n with
        | None => lookup (r_dir r) n = None
        | Some ds => exists v, lookup (r_dir r) n = Some v /\
                     ((lookup d n = Some v /\ in_state out (Some v) ds = true) \/
                      (v = written um ds /\ in_state out (lookup d n) ds = false))
        end)
  /\ (forall n, In n (r_changed r) <-> exists ds, lookup content n = Some ds /\ in_state out (lookup d n) ds = false)
  /\ (forall n, In n (r_removed r) <-> mt n = true /\ lookup content n = None /\ lookup d n <> None)
  /\ StronglySorted le (r_changed r) /\ NoDup (r_changed r)
  /\ StronglySorted le (r_removed r) /\ NoDup (r_removed r).
Proof.
  intros d content NDd NDc r Herr. subst r. destruct (success_ok d content NDd NDc Herr) as [V WF].
  destruct (eds_ok d content NDd NDc V WF) as [D [C [[rm [RM [NDrm INrm]]] [ER _]]]]. rewrite C, RM.
  (* the delete phase reported no error: whatever it had to delete was removable *)
  assert (NOSTUCK : forall n v, mt n = true -> lookup content n = None -> lookup d n = Some v -> removable v = true).
  { intros n v M K L. destruct (removable v) eqn:R; [reflexivity|]. rewrite (proj2 ER) in Herr; [discriminate|]. exists n, v. auto. }
  split; [|split; [|split; [|split]]].
  - intros n M. rewrite D, M. reflexivity.
  - intros n M. rewrite D, M. destruct (lookup content n) as [ds|] eqn:L.
    + destruct (in_state out (lookup d n) ds) eqn:IS.
      * destruct (in_state_Some out _ _ IS) as [v Hv]. exists v. rewrite Hv in *. auto.
      * exists (written um ds). auto.
    + destruct (lookup d n) as [v|] eqn:Ld; [|reflexivity]. cbn. rewrite (NOSTUCK n v M L Ld). reflexivity.
  - intro n. rewrite sort_In. apply In_wrote_names; assumption.
  - intro n. rewrite sort_In, INrm. split.
    + intros (M & K & v & L & _). rewrite L. repeat split; auto. discriminate.
    + intros (M & K & NN). destruct (lookup d n) as [v|] eqn:L; [|congruence].
      repeat split; auto. exists v. split; [reflexivity | apply (NOSTUCK n v M K L)].
  - repeat split; try apply sort_sorted; apply sort_NoDup; [apply NoDup_wrote_names|]; assumption.
Qed.

(* with a umask that does not clear any desired permission bit, a freshly written entry is in the desired state *)
Lemma written_in_state : forall ds, (match ds with DReg _ m _ => N.land (perm m) um = 0 | DSym _ _ => True | DBad _ => False end) ->
  in_state out (Some (written um ds)) ds = true.
Proof.
  intros [c m f|t f|f] H; unfold in_state; cbn.
  - unfold same_reg. rewrite beq_refl. replace (perm (N.ldiff (perm m) um)) with (perm m); [rewrite N.eqb_refl; reflexivity|].
    unfold perm in *. apply N.bits_inj. intro i. rewrite !N.land_spec, N.ldiff_spec, N.land_spec.
    assert (X : N.testbit (N.land (N.land m 511) um) i = false) by (rewrite H; apply N.bits_0).
    rewrite !N.land_spec in X. destruct (N.testbit m i), (N.testbit 511 i), (N.testbit um i); cbn in *; congruence.
  - rewrite beq_refl. reflexivity.
  - contradiction.
Qed.

Lemma nonmatching_untouched : forall d content, NoDup (names d) -> NoDup (names content) ->
  forall n, mt n = false -> lookup (r_dir (eds d content)) n = lookup d n.
Proof.
  intros d c NDd NDc n M.
  destruct (valid_input c) eqn:V; [|rewrite bad_input_no_effect by assumption; reflexivity].
  destruct (wl_fail um out d c) eqn:WF.
  - assert (W : r_wfail (eds d c) = true) by (apply eds_wfail_iff; auto).
    destruct (fail_closed d c NDd NDc W) as [_ [_ [A3 _]]]. rewrite A3, M. reflexivity.
  - destruct (eds_ok d c NDd NDc V WF) as [D _]. rewrite D, M. reflexivity.
Qed.

Lemma perm_lookup : forall (A : Type) (c c' : list (bytes * A)), Permutation c c' -> NoDup (names c) ->
  forall n, lookup c n = lookup c' n.
Proof.
  intros A c c' P ND n. assert (ND' : NoDup (names c')) by (eapply Permutation_NoDup; [apply Permutation_map; exact P | assumption]).
  destruct (lookup c n) as [v|] eqn:L.
  - symmetry. apply lookup_In; [assumption|]. apply (Permutation_in _ P). apply lookup_In; assumption.
  - symmetry. apply lookup_None. apply lookup_None in L. intro I. apply L.
    apply (Permutation_in _ (Permutation_sym (Permutation_map fst P))). assumption.
Qed.
Lemma perm_forallb : forall (A : Type) (f : A -> bool) l l', Permutation l l' -> forallb f l = forallb f l'.
Proof. induction 1; cbn; try congruence. rewrite !andb_assoc, (andb_comm (f y)). reflexivity. Qed.
Lemma perm_existsb : forall (A : Type) (f : A -> bool) l l', Permutation l l' -> existsb f l = existsb f l'.
Proof. induction 1; cbn; try congruence. rewrite !orb_assoc, (orb_comm (f y)). reflexivity. Qed.

Theorem order_independent : forall d content content', NoDup (names d) -> NoDup (names content) ->
  Permutation content content' ->
  let r := eds d content in let r' := eds d content' in
  (forall n, lookup (r_dir r) n = lookup (r_dir r') n)
  /\ r_changed r = r_changed r' /\ r_err r = r_err r' /\ r_wfail r = r_wfail r'
  /\ (r_wfail r = false -> r_removed r = r_removed r').
Proof.
  intros d content content' NDd NDc P r r'. subst r r'.
  assert (NDc' : NoDup (names content')) by (eapply Permutation_NoDup; [apply Permutation_map; exact P | assumption]).
  assert (PV : valid_input content = valid_input content') by (apply perm_forallb; apply Permutation_map; assumption).
  assert (PW : wl_fail um out d content = wl_fail um out d content') by (apply perm_existsb; assumption).
  destruct (valid_input content) eqn:V.
  2:{ rewrite !bad_input_no_effect by congruence. cbn. tauto. }
  symmetry in PV. destruct (wl_fail um out d content) eqn:WF; symmetry in PW.
  - pose proof (fail_closed d content NDd NDc) as F. pose proof (fail_closed d content' NDd NDc') as F'. cbn zeta in F, F'.
    assert (W : r_wfail (eds d content) = true) by (apply eds_wfail_iff; auto).
    assert (W' : r_wfail (eds d content') = true) by (apply eds_wfail_iff; auto).
    destruct (F W) as [A1 [A2 [A3 _]]]. destruct (F' W') as [B1 [B2 [B3 _]]].
    split; [intro n; rewrite A3, B3; reflexivity|]. rewrite A1, A2, B1, B2, W, W'. repeat split. discriminate.
  - destruct (eds_ok d content NDd NDc V WF) as [D [C [[rm [RM [NDrm INrm]]] [ER W]]]].
    destruct (eds_ok d content' NDd NDc' PV PW) as [D' [C' [[rm' [RM' [NDrm' INrm']]] [ER' W']]]].
    pose proof (perm_lookup _ content content' P NDc) as LK.
    split; [|split; [|split; [|split]]].
    + intro n. rewrite D, D', LK. reflexivity.
    + rewrite C, C'. apply sort_ext; try (apply NoDup_wrote_names; assumption).
      intro x. rewrite !In_wrote_names, LK by assumption. reflexivity.
    + apply eq_true_iff_eq. rewrite ER, ER'. setoid_rewrite LK. reflexivity.
    + congruence.
    + intros _. rewrite RM, RM'. apply sort_ext; try assumption. intro x. rewrite INrm, INrm', LK. reflexivity.
Qed.
End Main.

Theorem success_desired_state : forall mt um out d content, NoDup (names d) -> NoDup (names content) ->
  umask_ok um content = true -> r_err (eds mt um out d content) = false ->
  forall n ds, lookup content n = Some ds ->
  exists v, lookup (r_dir (eds mt um out d content)) n = Some v /\ reads_as out v ds = true.
Proof.
  intros mt um out d content NDd NDc UM Herr n ds L.
  destruct (success_ok mt um out d content NDd NDc Herr) as [V WF].
  destruct (success_exact mt um out d content NDd NDc Herr) as [_ [B _]].
  assert (M : mt n = true) by (eapply valid_input_mt; [eassumption | eapply lookup_Some_names; eassumption]).
  specialize (B n M). rewrite L in B. destruct B as [v [Lv [[_ IS] | [W IS]]]]; exists v; (split; [assumption|]); [exact IS|].
  subst v. unfold reads_as. apply written_in_state.
  unfold umask_ok in UM. rewrite forallb_forall in UM. apply (lookup_In _ content n ds NDc) in L. specialize (UM (n, ds) L). cbn in UM.
  destruct ds as [c m f|t f|f]; [apply N.eqb_eq; assumption | exact I |].
  (* a DBad entry never succeeds *)
  exfalso. rewrite (proj2 (wl_fail_iff um out d content)) in WF; [discriminate|].
  exists n, (DBad f). split; [assumption|]. apply efs_fails. eauto.
Qed.

Theorem failure_points : forall mt um out d content, NoDup (names content) -> valid_input mt content = true ->
  (r_wfail (eds mt um out d content) = true <->
   exists n ds, In (n, ds) content /\ efs um out (lookup d n) ds = FErr).
Proof.
  intros mt um out d content NDc V. rewrite eds_wfail_iff, wl_fail_iff by assumption. tauto.
Qed.

(* C23's clause "none of the snap's managed files remain (provided removal itself succeeds)": if nothing in the directory is a non-empty
   directory, a failed change phase leaves NO entry under the managed names *)
Theorem fail_closed_all_gone : forall mt um out d content, NoDup (names d) -> NoDup (names content) ->
  (forall n v, lookup d n = Some v -> removable v = true) ->
  r_wfail (eds mt um out d content) = true ->
  forall n, mt n = true -> lookup (r_dir (eds mt um out d content)) n = None.
Proof.
  intros mt um out d content NDd NDc REM W n M.
  destruct (fail_closed mt um out d content NDd NDc W) as [_ [_ [A3 _]]]. rewrite A3, M. unfold stuck.
  destruct (lookup d n) as [v|] eqn:L; [|reflexivity]. rewrite (REM n v L). reflexivity.
Qed.

(* permissions: a file with the right content but other permission bits is rewritten with the desired bits and reported
   changed; with the same permission bits and content it is left alone and not reported *)
Theorem mode_only_difference : forall mt um out d content n c m m' f, NoDup (names d) -> NoDup (names content) ->
  r_err (eds mt um out d content) = false ->
  lookup content n = Some (DReg c m f) -> lookup d n = Some (Reg c m') ->
  (perm m <> perm m' ->
     In n (r_changed (eds mt um out d content)) /\ lookup (r_dir (eds mt um out d content)) n = Some (Reg c (N.ldiff (perm m) um)))
  /\ (perm m = perm m' ->
     ~ In n (r_changed (eds mt um out d content)) /\ lookup (r_dir (eds mt um out d content)) n = Some (Reg c m')).
Proof.
  intros mt um out d content n c m m' f NDd NDc Herr LC LD.
  destruct (success_ok mt um out d content NDd NDc Herr) as [V _].
  assert (M : mt n = true) by (eapply valid_input_mt; [eassumption | eapply lookup_Some_names; eassumption]).
  destruct (success_exact mt um out d content NDd NDc Herr) as [_ [B [C _]]].
  specialize (B n M). rewrite LC in B. destruct B as [v [Lv B]].
  assert (IS : in_state out (lookup d n) (DReg c m f) = ((perm m =? perm m') && true)).
  { rewrite LD. unfold in_state. cbn. unfold same_reg. rewrite beq_refl. destruct (perm m =? perm m'); reflexivity. }
  split; intro P.
  - assert (IS' : in_state out (lookup d n) (DReg c m f) = false).
    { rewrite IS. apply N.eqb_neq in P. rewrite P. reflexivity. }
    split; [apply C; exists (DReg c m f); tauto|].
    destruct B as [[E IS2] | [E _]]; [|rewrite Lv, E; reflexivity].
    rewrite LD in E. inversion E; subst v. rewrite <- LD in IS2. congruence.
  - assert (IS' : in_state out (lookup d n) (DReg c m f) = true).
    { rewrite IS. rewrite P, N.eqb_refl. reflexivity. }
    split.
    + intro I. apply C in I. destruct I as [ds [L2 I]]. rewrite LC in L2. inversion L2; subst ds. congruence.
    + destruct B as [[E _] | [_ IS2]]; [rewrite Lv, <- E; assumption | congruence].
Qed.

(* when every entry is removable (files and symlinks, empty directories), an error can only come from the change phase *)
Lemma err_is_wfail : forall mt um out d content, NoDup (names d) -> NoDup (names content) ->
  (forall n v, lookup d n = Some v -> removable v = true) ->
  r_err (eds mt um out d content) = true -> valid_input mt content = true -> r_wfail (eds mt um out d content) = true.
Proof.
  intros mt um out d content NDd NDc REM E V. apply eds_wfail_iff; try assumption. split; [assumption|].
  destruct (wl_fail um out d content) eqn:WF; [reflexivity|]. exfalso.
  destruct (eds_ok mt um out d content NDd NDc V WF) as [_ [_ [_ [ER _]]]]. apply ER in E. destruct E as (n & v & _ & _ & L & R).
  rewrite (REM n v L) in R. discriminate.
Qed.
