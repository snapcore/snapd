(* C32, on models/Snapshot.v (overlord/snapshotstate/backend). Restore: restore_failure_identity (Revert undoes a restore that
   failed anywhere), restore_success. Import: import_inside (every written path is below the snapshots directory),
   import_writes_overlay, failed_import_commits_nothing. Reader.Check: check_iff. export_import_roundtrip. *)
From Coq Require Import List NArith Bool Arith Lia.
Import ListNotations.
Require Import V.lib.Bytes V.models.Snapshot V.proofs.BytesFacts.
Open Scope N_scope.

Lemma lookup_remove : forall k n d, lookup k (remove n d) = if n =? k then None else lookup k d.
Proof.
  intros k n d. unfold remove. induction d as [|[a t] d IH]; cbn [filter lookup fst].
  - now destruct (n =? k).
  - destruct (a =? n) eqn:E1; cbn [negb lookup].
    + apply N.eqb_eq in E1. subst a. rewrite IH. destruct (n =? k); reflexivity.
    + rewrite IH. destruct (a =? k) eqn:E2; [|reflexivity].
      apply N.eqb_eq in E2. subst a. rewrite N.eqb_sym in E1. now rewrite E1.
Qed.

Lemma lookup_set : forall k n t d, lookup k (set n t d) = if n =? k then Some t else lookup k d.
Proof.
  intros k n t d. unfold set. cbn [lookup]. destruct (n =? k) eqn:E; [reflexivity|].
  rewrite lookup_remove. now rewrite E.
Qed.

Lemma lookup_rename_back : forall k m d, lookup k (rename_back d m) =
  match lookup m d, lookup (orig m) d with
  | Some t, None => if orig m =? k then Some t else if m =? k then None else lookup k d
  | _, _ => lookup k d
  end.
Proof.
  intros k m d. unfold rename_back. destruct (lookup m d), (lookup (orig m) d); try reflexivity.
  rewrite lookup_set, lookup_remove. reflexivity.
Qed.

Lemma remove_remove : forall n m d, remove n (remove m d) = remove m (remove n d).
Proof.
  intros n m d. unfold remove. induction d as [|[a t] d IH]; [reflexivity|]. cbn [filter fst].
  destruct (a =? m) eqn:E1, (a =? n) eqn:E2; cbn [negb filter fst]; rewrite ?E1, ?E2; cbn [negb]; now rewrite IH.
Qed.

Lemma remove_fresh : forall n d, lookup n d = None -> remove n d = d.
Proof.
  intros n d. unfold remove. induction d as [|[a t] d IH]; cbn [lookup filter fst]; [reflexivity|].
  destruct (a =? n); [discriminate|]. intro H. cbn [negb]. now rewrite IH.
Qed.

(* as lists, not only as maps: a removal can be pushed inside the term that built the directory *)
Lemma remove_set : forall n m t d, remove n (set m t d) = if m =? n then remove n d else set m t (remove n d).
Proof.
  intros n m t d. unfold set. unfold remove at 1. cbn [filter fst]. fold (remove n (remove m d)).
  destruct (N.eqb_spec m n) as [->|]; cbn [negb].
  - apply remove_fresh. rewrite lookup_remove. now rewrite N.eqb_refl.
  - now rewrite remove_remove.
Qed.

Lemma rename_back_moved : forall d m t, lookup m d = Some t -> lookup (orig m) d = None ->
  rename_back d m = set (orig m) t (remove m d).
Proof. intros d m t H1 H2. unfold rename_back. now rewrite H1, H2. Qed.

Definition undo_dir (d : dir) (lg : rlog) : dir :=
  fold_left rename_back (l_moved lg) (fold_left (fun d n => remove n d) (l_created lg) d).

Definition deq (a b : dir) : Prop := forall k, lookup k a = lookup k b.

(* the four ways moveFile can end: nothing done (a failed stat, or nothing to move and success), the old tree moved
   aside and then failure, both renames done, or a plain rename into a free place *)
Lemma move_file_cases : forall d lg tmp file f d' lg' ok f',
  move_file d lg tmp file f = (d', lg', ok, f') ->
  (d' = d /\ lg' = lg /\ (ok = true -> lookup file tmp = None)) \/
  (exists old, lookup file d = Some old /\ ok = false /\
     d' = set (bk file) old (remove file d) /\ lg' = add_moved lg (bk file)) \/
  (exists old t, lookup file tmp = Some t /\ lookup file d = Some old /\ ok = true /\
     d' = set file t (set (bk file) old (remove file d)) /\ lg' = add_created (add_moved lg (bk file)) file) \/
  (exists t, lookup file tmp = Some t /\ lookup file d = None /\ ok = true /\ d' = set file t d /\ lg' = add_created lg file).
Proof.
  intros d lg tmp file f d' lg' ok f' H. unfold move_file in H.
  destruct (tick f) as [f1|]; [|injection H as <- <- <- <-; left; repeat split; discriminate].
  destruct (lookup file tmp) as [t|]; [|injection H as <- <- <- <-; auto].
  destruct (tick f1) as [f2|]; [|injection H as <- <- <- <-; left; repeat split; discriminate].
  destruct (lookup file d) as [old|].
  - destruct (tick f2) as [f3|]; [|injection H as <- <- <- <-; left; repeat split; discriminate].
    destruct (tick f3) as [f4|]; injection H as <- <- <- <-.
    + right; right; left. exists old, t. auto.
    + right; left. exists old. auto.
  - destruct (tick f2) as [f3|]; injection H as <- <- <- <-.
    + right; right; right. exists t. auto.
    + left; repeat split; discriminate.
Qed.

(* A real name other than `common` is even and not 0, that is N.pos p~0, and its backup name is N.pos p~1. The names the
   two moves of one entry touch (0, 1, p~0, p~1) and any further name, taken by cases, are then told apart by evaluating
   the comparisons. `look` does that under lookups, `push_remove` on the directory term itself. *)
Ltac names :=
  unfold common, bk, orig; cbn [N.eqb Pos.eqb N.add Pos.add N.sub Pos.sub_mask]; rewrite ?Pos.eqb_refl.
Ltac look := repeat (rewrite ?lookup_set, ?lookup_remove; names; cbv iota beta).
Ltac push_remove := repeat (rewrite remove_set; names; cbv iota).

Lemma even_name_pos : forall n, n <> 0 -> (exists h, n = 2 * h) -> exists p, n = N.pos p~0.
Proof. intros [|[p|p|]] H0 [h Hh]; [contradiction | lia | now exists p | lia]. Qed.

(* the two moves of one entry, then Revert: the directory is as before, whatever failed *)
Lemma moves_undo : forall d tmp revdir f lp d6 lg6 ok6 f6,
  revdir <> 0 -> (exists h, revdir = 2 * h) ->
  lookup 1 d = None -> lookup (revdir + 1) d = None ->
  move_file d {| l_parent := lp; l_created := []; l_moved := [] |} tmp common f = (d6, lg6, ok6, f6) ->
  (l_parent lg6 = lp /\ deq (undo_dir d6 lg6) d) /\
  forall d7 lg7 ok7 f7, move_file d6 lg6 tmp revdir f6 = (d7, lg7, ok7, f7) ->
    l_parent lg7 = lp /\ deq (undo_dir d7 lg7) d.
Proof.
  intros d tmp revdir f lp d6 lg6 ok6 f6 Hr0 Hev Hf1 Hf2 H6.
  destruct (even_name_pos revdir Hr0 Hev) as [p ->]. apply move_file_cases in H6. revert Hf2 H6. names. intros Hf2 H6.
  destruct H6 as [(-> & -> & _) | [(old & Hl & -> & -> & ->) | [(old & t & _ & Hl & -> & -> & ->) | (t & _ & Hl & -> & -> & ->)]]].
  all: split; [split; [reflexivity|] |
    intros d7 lg7 ok7 f7 H7; apply move_file_cases in H7; revert H7; look; intro H7;
    destruct H7 as [(-> & -> & _) | [(old2 & Hl2 & -> & -> & ->) | [(old2 & t2 & _ & Hl2 & -> & -> & ->) | (t2 & _ & Hl2 & -> & -> & ->)]]];
    (split; [reflexivity|])].
  all: intro k; unfold undo_dir; cbn [l_created l_moved add_created add_moved app fold_left].
  (* Revert as a computation on the directory term: the removals of the created names cancel the `set`s of the second
     renames and move inwards, which brings each backup to the front, where its rename back fires; comparing lookups with
     d is left for the end, on a term that mentions d once *)
  all: push_remove.
  all: try (erewrite (rename_back_moved _ 1) by (look; reflexivity); push_remove).
  all: try (erewrite (rename_back_moved _ (N.pos p~1)) by (look; reflexivity); push_remove).
  all: look; rewrite ?Hl, ?Hl2, ?Hf1, ?Hf2.
  all: try reflexivity.
  all: destruct k as [|[q|q|]]; names; try reflexivity; try congruence.
  all: destruct (Pos.eqb_spec p q) as [<-|]; congruence.
Qed.

(* what the parent directory holds after both moves succeeded, and after Cleanup *)
Definition moves_spec (d0 tmp : dir) (revdir : name) (cleaned : bool) (n : name) : option tree :=
  if n =? 0 then match lookup 0 tmp with Some t => Some t | None => lookup 0 d0 end
  else if n =? revdir then match lookup revdir tmp with Some t => Some t | None => lookup revdir d0 end
  else if n =? 1 then (if cleaned then None else match lookup 0 tmp with Some _ => lookup 0 d0 | None => None end)
  else if n =? revdir + 1 then (if cleaned then None else match lookup revdir tmp with Some _ => lookup revdir d0 | None => None end)
  else lookup n d0.

Lemma moves_success : forall d tmp revdir f lp d6 lg6 f6 d7 lg7 f7,
  revdir <> 0 -> (exists h, revdir = 2 * h) ->
  lookup 1 d = None -> lookup (revdir + 1) d = None ->
  move_file d {| l_parent := lp; l_created := []; l_moved := [] |} tmp common f = (d6, lg6, true, f6) ->
  move_file d6 lg6 tmp revdir f6 = (d7, lg7, true, f7) ->
  (forall n, lookup n d7 = moves_spec d tmp revdir false n) /\
  (forall n, lookup n (fold_left (fun d n => remove n d) (l_moved lg7) d7) = moves_spec d tmp revdir true n).
Proof.
  intros d tmp revdir f lp d6 lg6 f6 d7 lg7 f7 Hr0 Hev Hf1 Hf2 H6 H7.
  destruct (even_name_pos revdir Hr0 Hev) as [p ->].
  apply move_file_cases in H6. apply move_file_cases in H7. revert Hf2 H6 H7. names. intros Hf2 H6 H7.
  destruct H6 as [(-> & -> & Ht) | [(? & _ & [=] & _) | [(old & t & Ht & Hl & _ & -> & ->) | (t & Ht & Hl & _ & -> & ->)]]];
  destruct H7 as [(-> & -> & Ht2) | [(? & _ & [=] & _) | [(old2 & t2 & Ht2 & Hl2 & _ & -> & ->) | (t2 & Ht2 & Hl2 & _ & -> & ->)]]].
  all: try specialize (Ht eq_refl); try specialize (Ht2 eq_refl); try (revert Hl2; look; intro Hl2).
  all: split; intro n; unfold moves_spec; cbn [l_created l_moved add_created add_moved app fold_left].
  all: look; rewrite ?Ht, ?Ht2, ?Hl, ?Hl2.
  all: destruct n as [|[q|q|]]; names; try reflexivity; try congruence.
  all: rewrite ?(Pos.eqb_sym q); destruct (Pos.eqb_spec p q) as [<-|]; congruence.
Qed.

Definition peq (a b : pstate) : Prop :=
  match a, b with
  | None, None => True
  | Some x, Some y => deq x y
  | _, _ => False
  end.

Lemma peq_refl : forall a, peq a a.
Proof. intros [d|]; cbn; [intro k; reflexivity | exact I]. Qed.

Lemma wf_name_pos : forall n, wf_name n = true -> exists p, n = N.pos p~0.
Proof. intros [|[p|p|]] H; try discriminate H. now exists p. Qed.

Definition odd_free (d : dir) : Prop := forall n, N.even n = false -> lookup n d = None.

Lemma wf_dir_fresh : forall d, forallb (fun kv : name * tree => even_name (fst kv)) d = true -> odd_free d.
Proof.
  induction d as [|[a t] d IH]; intros H n Hn; cbn [lookup]; [reflexivity|].
  cbn [forallb fst] in H. apply andb_true_iff in H as [Ha Hd].
  destruct (N.eqb_spec a n) as [->|_]; [unfold even_name in Ha; congruence | now apply IH].
Qed.

Definition content (st : pstate) : dir := match st with Some d => d | None => [] end.
Definition start_log (st : pstate) : rlog :=
  {| l_parent := match st with Some _ => false | None => true end; l_created := []; l_moved := [] |}.

Lemma restore_one_cases : forall cur st e f r, restore_one cur st e f = r ->
  r = (st, empty_log, false, O) \/ exists f2, r = restore_in cur (content st) (start_log st) e f2.
Proof.
  intros cur st e f r <-. unfold restore_one. destruct (tick f) as [f1|]; [|now left].
  destruct st as [d|]; [right; now exists f1|]. destruct (tick f1) as [f2|]; [right; now exists f2 | now left].
Qed.

Lemma wf_content_fresh : forall st, wf_pstate st = true -> odd_free (content st).
Proof. intros [d|] H; [now apply wf_dir_fresh | intros n _; reflexivity]. Qed.

(* one entry, from os.MkdirTemp on: either it stops before anything is moved, or `common` is moved and then -- unless that
   failed -- the revision directory, under the name revdir of the current revision; tmp is the temporary directory after the
   revision directory was renamed to that name *)
Lemma restore_in_cases : forall cur d lg e f2 st' lg' ok f',
  match cur with Some c => wf_name c | None => true end = true -> wf_name (e_rev e) = true ->
  restore_in cur d lg e f2 = (st', lg', ok, f') ->
  (st' = Some d /\ lg' = lg /\ ok = false) \/
  exists tmp p f5 d6 lg6 ok6 f6,
    N.pos p~0 = match cur with Some c => c | None => e_rev e end /\
    lookup 0 tmp = lookup 0 (e_extracted e) /\ lookup (N.pos p~0) tmp = lookup (e_rev e) (e_extracted e) /\
    move_file d lg tmp common f5 = (d6, lg6, ok6, f6) /\
    if ok6 then exists d7, st' = Some d7 /\ move_file d6 lg6 tmp (N.pos p~0) f6 = (d7, lg', ok, f')
    else st' = Some d6 /\ lg' = lg6 /\ ok = false.
Proof.
  intros cur d lg e f2 st' lg' ok f' Hc Hrev H. unfold restore_in in H.
  destruct (tick f2) as [f3|]; [|injection H as <- <- <- _; auto].
  destruct (tick f3) as [f4|]; [|injection H as <- <- <- _; auto].
  destruct (negb (e_extract_ok e)); [injection H as <- <- <- _; auto|].
  destruct (negb (e_digest_ok e)); [injection H as <- <- <- _; auto|].
  cbv zeta in H. destruct (wf_name_pos _ Hrev) as [pv Hpv].
  match type of H with match ?r5 with _ => _ end = _ => destruct r5 as [[[tmp revdir] f5]|] eqn:E5 end;
    [|injection H as <- <- <- _; auto].
  right.
  assert (Hfacts : exists p, revdir = N.pos p~0 /\ revdir = match cur with Some c => c | None => e_rev e end /\
            lookup 0 tmp = lookup 0 (e_extracted e) /\ lookup revdir tmp = lookup (e_rev e) (e_extracted e)).
  { destruct cur as [c|]; [|injection E5 as <- <- _; eauto].
    destruct (N.eqb_spec c (e_rev e)) as [->|Hne]; [injection E5 as <- <- _; eauto|].
    destruct (tick f4); [|discriminate].
    destruct (lookup (e_rev e) (e_extracted e)) as [t|]; [|discriminate].
    destruct (lookup c (e_extracted e)); [discriminate|]. injection E5 as <- <- _.
    destruct (wf_name_pos _ Hc) as [pc ->]. exists pc. repeat split.
    - rewrite Hpv in *. now look.
    - rewrite lookup_set, N.eqb_refl. reflexivity. }
  destruct Hfacts as (p & -> & Hrd & H0 & Hr).
  destruct (move_file d lg tmp common f5) as [[[d6 lg6] ok6] f6] eqn:E6.
  exists tmp, p, f5, d6, lg6, ok6, f6. repeat split; try assumption.
  destruct ok6; cbn [negb] in H.
  - destruct (move_file d6 lg6 tmp (N.pos p~0) f6) as [[[d7 lg7] ok7] f7]. injection H as <- <- <- <-. now exists d7.
  - injection H as <- <- <- _. auto.
Qed.

Lemma revert_empty_log : forall st, peq (revert_one (st, empty_log)) st.
Proof. intros [d|]; cbn; [intro k; reflexivity | exact I]. Qed.

Lemma restore_one_revert : forall cur st e f st' lg ok f',
  match cur with Some c => wf_name c | None => true end = true ->
  wf_pstate st = true -> wf_name (e_rev e) = true ->
  restore_one cur st e f = (st', lg, ok, f') ->
  peq (revert_one (st', lg)) st.
Proof.
  intros cur st e f st' lg ok f' Hc Hst Hrev H.
  assert (Hu : forall d' lg, l_parent lg = l_parent (start_log st) -> deq (undo_dir d' lg) (content st) ->
                 peq (revert_one (Some d', lg)) st).
  { intros d' lg0 Hp Hu. cbn [revert_one]. rewrite Hp. destruct st; [exact Hu | exact I]. }
  apply restore_one_cases in H as [[= -> -> _ _] | [f2 H]]; [apply revert_empty_log|].
  symmetry in H. apply restore_in_cases in H; [|assumption..].
  destruct H as [(-> & -> & _) | (tmp & p & f5 & d6 & lg6 & ok6 & f6 & _ & _ & _ & E6 & H)].
  { apply Hu; [reflexivity | intro k; reflexivity]. }
  pose proof (wf_content_fresh st Hst) as Hfresh.
  destruct (moves_undo _ tmp (N.pos p~0) _ _ _ _ _ _ ltac:(discriminate) (ex_intro _ (N.pos p) eq_refl)
              (Hfresh 1 eq_refl) (Hfresh (N.pos p~1) eq_refl) E6) as [[Hp6 Hu6] H7].
  destruct ok6.
  - destruct H as (d7 & -> & E7). destruct (H7 _ _ _ _ E7). now apply Hu.
  - destruct H as (-> & -> & _). now apply Hu.
Qed.

Inductive all_peq : list pstate -> list pstate -> Prop :=
| ap_nil : all_peq [] []
| ap_cons : forall a b l m, peq a b -> all_peq l m -> all_peq (a :: l) (b :: m).

Lemma wf_case_cons : forall cur st e r, wf_case cur ((st, e) :: r) = true ->
  match cur with Some c => wf_name c | None => true end = true /\ wf_pstate st = true /\ wf_name (e_rev e) = true /\
  wf_case cur r = true.
Proof.
  intros cur st e r H. unfold wf_case in *. cbn [forallb fst snd] in H.
  apply andb_true_iff in H as [Hc H]. apply andb_true_iff in H as [H Hr]. apply andb_true_iff in H as [Hs He].
  rewrite Hc, Hr. auto.
Qed.

Lemma revert_untouched : forall r, all_peq (map revert_one (map (fun se : pstate * rentry => (fst se, empty_log)) r)) (map fst r).
Proof.
  induction r as [|[st e] r IH]; cbn [map fst]; constructor; [apply revert_empty_log | exact IH].
Qed.

(* all entries: after Revert every parent directory is as it was, wherever (and whether) the restore failed *)
Theorem restore_all_revert : forall cur es f,
  wf_case cur es = true ->
  all_peq (map revert_one (fst (restore_all cur es f))) (map fst es).
Proof.
  intros cur es. induction es as [|[st e] r IH]; intros f Hwf; cbn [restore_all].
  - constructor.
  - apply wf_case_cons in Hwf. destruct Hwf as (Hc & Hst & Hrev & Hr).
    destruct (restore_one cur st e f) as [[[st' lg] ok] f'] eqn:E1.
    pose proof (restore_one_revert _ _ _ _ _ _ _ _ Hc Hst Hrev E1) as H1.
    destruct ok.
    + specialize (IH f' Hr). destruct (restore_all cur r f') as [rest ok'].
      cbn [fst map]. constructor; assumption.
    + cbn [fst map]. constructor; [assumption | apply revert_untouched].
Qed.

Theorem restore_failure_identity : forall cur es f a,
  wf_case cur es = true ->
  fst (restore cur es f a) = false \/ a = ARevert ->
  all_peq (snd (restore cur es f a)) (map fst es).
Proof.
  intros cur es f a Hwf H. pose proof (restore_all_revert cur es f Hwf) as HR.
  unfold restore in *. destruct (restore_all cur es f) as [res ok]. cbn [fst] in HR.
  destruct ok; cbn [fst snd] in *.
  - destruct H as [H | ->]; [discriminate | exact HR].
  - exact HR.
Qed.

Lemma restore_in_bad : forall cur d lg e f,
  e_extract_ok e = false \/ e_digest_ok e = false -> restore_in cur d lg e f = (Some d, lg, false, O).
Proof.
  intros cur d lg e f Hbad. unfold restore_in.
  destruct (tick f) as [f3|]; [|reflexivity]. destruct (tick f3) as [f4|]; [|reflexivity].
  destruct Hbad as [-> | ->]; [reflexivity | destruct (negb (e_extract_ok e)); reflexivity].
Qed.

(* size / digest mismatch or extraction failure: detected before anything in the parent directory is moved *)
Theorem mismatch_detected_before_move : forall cur st e f st' lg ok f',
  e_extract_ok e = false \/ e_digest_ok e = false ->
  restore_one cur st e f = (st', lg, ok, f') ->
  ok = false /\ l_created lg = [] /\ l_moved lg = [] /\
  (st' = st \/ (st = None /\ st' = Some [])).
Proof.
  intros cur st e f st' lg ok f' Hbad H.
  apply restore_one_cases in H as [H | [f2 H]]; [|rewrite (restore_in_bad _ _ _ _ _ Hbad) in H]; injection H as -> -> -> _.
  - cbn; auto.
  - destruct st; cbn; repeat split; auto.
Qed.

Lemma spec_matches : forall cur e d tmp p cl,
  odd_free d ->
  N.pos p~0 = match cur with Some c => c | None => e_rev e end ->
  lookup 0 tmp = lookup 0 (e_extracted e) ->
  lookup (N.pos p~0) tmp = lookup (e_rev e) (e_extracted e) ->
  forall n, moves_spec d tmp (N.pos p~0) cl n = expected_lookup cur (if cl then ACleanup else ANone) (Some d) e n.
Proof.
  intros cur e d tmp p cl Hf Hrd H0 Hr n.
  unfold moves_spec, expected_lookup, expected_after, expected_backup, init_lookup. cbv zeta. rewrite H0, Hr.
  destruct cur as [c|]; cbv beta iota in Hrd |- *; rewrite <- Hrd; clear Hrd.
  all: destruct n as [|[q|q|]]; names; cbn [N.even]; try reflexivity; try (now destruct cl).
  all: destruct (Pos.eqb_spec q p) as [->|]; destruct cl; try reflexivity; apply (Hf (N.pos q~1) eq_refl).
Qed.
(* one entry, success: the parent directory holds exactly the expected content; after Cleanup no backup is left *)
Lemma restore_one_success : forall cur st e f st' lg f',
  match cur with Some c => wf_name c | None => true end = true ->
  wf_pstate st = true -> wf_name (e_rev e) = true ->
  restore_one cur st e f = (st', lg, true, f') ->
  (exists d', st' = Some d' /\ forall n, lookup n d' = expected_lookup cur ANone st e n) /\
  (exists d', cleanup_one (st', lg) = Some d' /\ forall n, lookup n d' = expected_lookup cur ACleanup st e n).
Proof.
  intros cur st e f st' lg f' Hc Hst Hrev H.
  assert (Hex : forall a n, expected_lookup cur a (Some (content st)) e n = expected_lookup cur a st e n) by now destruct st.
  apply restore_one_cases in H as [H | [f2 H]]; [discriminate H|]. symmetry in H. apply restore_in_cases in H; [|assumption..].
  destruct H as [(_ & _ & [=]) | (tmp & p & f5 & d6 & lg6 & ok6 & f6 & Hrd & H0 & Hr & E6 & H)].
  destruct ok6; [|now destruct H as (_ & _ & [=])]. destruct H as (d7 & -> & E7).
  pose proof (wf_content_fresh st Hst) as Hfresh.
  destruct (moves_success _ tmp (N.pos p~0) _ _ _ _ _ _ _ _ ltac:(discriminate) (ex_intro _ (N.pos p) eq_refl)
              (Hfresh 1 eq_refl) (Hfresh (N.pos p~1) eq_refl) E6 E7) as [S1 S2].
  split; eexists; (split; [reflexivity|]); intro n; rewrite <- Hex.
  - rewrite S1. now apply (spec_matches cur e _ tmp p false).
  - rewrite S2. now apply (spec_matches cur e _ tmp p true).
Qed.

Inductive all_expected (cur : option name) (a : after) : list (pstate * rentry) -> list pstate -> Prop :=
| ae_nil : all_expected cur a [] []
| ae_cons : forall init e d' es fin,
    (forall n, lookup n d' = expected_lookup cur a init e n) ->
    all_expected cur a es fin -> all_expected cur a ((init, e) :: es) (Some d' :: fin).

Lemma restore_all_success : forall cur es f res,
  wf_case cur es = true -> restore_all cur es f = (res, true) ->
  all_expected cur ANone es (map fst res) /\ all_expected cur ACleanup es (map cleanup_one res).
Proof.
  intros cur es. induction es as [|[st e] r IH]; intros f res Hwf H; cbn [restore_all] in H.
  - inversion H; subst. split; constructor.
  - apply wf_case_cons in Hwf. destruct Hwf as (Hc & Hst & Hrev & Hr).
    destruct (restore_one cur st e f) as [[[st' lg] ok] f'] eqn:E1.
    destruct ok; [|inversion H].
    destruct (restore_all cur r f') as [rest ok'] eqn:E2. inversion H; subst res ok'.
    destruct (IH f' rest Hr E2) as [I1 I2].
    destruct (restore_one_success _ _ _ _ _ _ _ Hc Hst Hrev E1) as [(d1 & -> & S1) (d2 & Hcl & S2)].
    split; cbn [map fst].
    + constructor; assumption.
    + rewrite Hcl. constructor; assumption.
Qed.

(* Reader.Restore succeeded (optionally followed by Cleanup): every data directory holds exactly the extracted `common`
   and revision trees, everything else as before, the old trees under the backup names -- and no backup after Cleanup *)
Theorem restore_success : forall cur es f a,
  wf_case cur es = true -> a <> ARevert ->
  fst (restore cur es f a) = true ->
  all_expected cur a es (snd (restore cur es f a)).
Proof.
  intros cur es f a Hwf Ha H. unfold restore in *.
  destruct (restore_all cur es f) as [res ok] eqn:E. destruct ok; [|discriminate].
  destruct (restore_all_success cur es f res Hwf E) as [S1 S2].
  destruct a; cbn [snd]; [exact S1 | exact S2 | contradiction].
Qed.

Lemma opt_tree_eqb_refl : forall o, opt_tree_eqb o o = true.
Proof. intros [t|]; cbn; [apply N.eqb_refl | reflexivity]. Qed.

Theorem restore_success_monitor : forall cur es f a,
  wf_case cur es = true -> a <> ARevert ->
  fst (restore cur es f a) = true ->
  success_all cur a es (snd (restore cur es f a)) = true.
Proof.
  intros cur es f a Hwf Ha H. pose proof (restore_success cur es f a Hwf Ha H) as S.
  clear H Hwf. induction S as [|init e d' es0 fin Hl S IH].
  - reflexivity.
  - cbn [success_all success_ok]. rewrite IH, andb_true_r.
    apply forallb_forall. intros n _. rewrite Hl. apply opt_tree_eqb_refl.
Qed.

Theorem check_iff : forall users zs,
  check users zs = true <->
  forall z, In z zs -> selected users z = true ->
    z_present z = true /\ z_read_ok z = true /\ z_read z = z_reported z /\ z_actual z = z_recorded z.
Proof.
  intros users zs. unfold check. rewrite forallb_forall. split.
  - intros H z Hin Hsel. specialize (H z Hin). rewrite Hsel in H. cbn [negb orb] in H. unfold check_one in H.
    repeat (apply andb_true_iff in H; destruct H as [H ?]).
    repeat split; auto; now apply N.eqb_eq.
  - intros H z Hin. destruct (selected users z) eqn:Hsel; [|reflexivity]. cbn [negb orb].
    destruct (H z Hin Hsel) as (H1 & H2 & H3 & H4). unfold check_one. rewrite H1, H2, H3, H4, !N.eqb_refl. reflexivity.
Qed.

Lemma split_on_nonempty : forall c s, split_on c s <> [].
Proof.
  intros c s. destruct s as [|x r]; cbn [split_on]; [discriminate|].
  destruct (x =? c); [discriminate|]. destruct (split_on c r); discriminate.
Qed.

Lemma split_head : forall c r h t, split_on c r = h :: t -> t <> [] -> exists r', r = h ++ c :: r'.
Proof.
  intros c r. induction r as [|x r IH]; intros h t H Ht; cbn [split_on] in H.
  - inversion H; subst. contradiction.
  - destruct (x =? c) eqn:E.
    + apply N.eqb_eq in E. subst x. inversion H; subst. now exists r.
    + destruct (split_on c r) as [|h0 t0] eqn:Es; [now destruct (split_on_nonempty c r)|].
      inversion H; subst. destruct (IH h0 t eq_refl Ht) as [r' ->]. now exists r'.
Qed.

Fixpoint dd_only_last (l : list bytes) : bool :=
  match l with
  | [] => true
  | c :: r => match r with [] => true | _ => negb (beq c s_dotdot) && dd_only_last r end
  end.

Lemma dd_only_last_cons : forall c c2 r,
  dd_only_last (c :: c2 :: r) = negb (beq c s_dotdot) && dd_only_last (c2 :: r).
Proof. reflexivity. Qed.

Lemma dd_only_last_tail : forall c r, dd_only_last (c :: r) = true -> dd_only_last r = true.
Proof.
  intros c [|c2 r2] H; [reflexivity|]. rewrite dd_only_last_cons in H. apply andb_true_iff in H. now destruct H.
Qed.

Lemma no_dotdotslash_split : forall s, contains s_dotdotslash s = false -> dd_only_last (split_on c_slash s) = true.
Proof.
  induction s as [|x r IH]; intro H; [reflexivity|].
  cbn [contains] in H. apply orb_false_iff in H. destruct H as [Hp Hc]. specialize (IH Hc).
  cbn [split_on]. destruct (x =? c_slash) eqn:E.
  - destruct (split_on c_slash r) as [|h t] eqn:Es; [now destruct (split_on_nonempty c_slash r)|].
    cbn [dd_only_last] in *. now rewrite IH.
  - destruct (split_on c_slash r) as [|h t] eqn:Es; [now destruct (split_on_nonempty c_slash r)|].
    destruct t as [|h2 t2]; [reflexivity|].
    rewrite dd_only_last_cons, (dd_only_last_tail _ _ IH), andb_true_r.
    destruct (beq (x :: h) s_dotdot) eqn:Eb; [|reflexivity].
    apply beq_eq in Eb. unfold s_dotdot in Eb. inversion Eb; subst.
    destruct (split_head c_slash r [46] (h2 :: t2) Es ltac:(discriminate)) as [r' ->].
    cbn in Hp. discriminate.
Qed.

Lemma contains_suffix : forall p c s a rest, cut_first c s = Some (a, rest) -> contains p rest = true -> contains p s = true.
Proof.
  intros p c s. induction s as [|x r IH]; intros a rest H Hc; cbn [cut_first] in H; [discriminate|].
  cbn [contains]. apply orb_true_iff. right.
  destruct (x =? c).
  - inversion H; subst. exact Hc.
  - destruct (cut_first c r) as [[a0 b0]|] eqn:E; [|discriminate]. inversion H; subst. eapply IH; eauto.
Qed.

Lemma contains_app_r : forall p a s, contains p s = true -> contains p (a ++ s) = true.
Proof.
  intros p a s H. induction a as [|x a IH]; [exact H|]. cbn [app contains]. apply orb_true_iff. now right.
Qed.

(* path.Clean on a component list whose only possible `..` is the last component *)
Lemma clean_plain : forall comps stack, dd_only_last comps = true ->
  exists pushed, forallb plain_comp pushed = true /\
    (clean_comps stack comps = rev (pushed ++ stack) \/ clean_comps stack comps = rev (tl (pushed ++ stack))).
Proof.
  induction comps as [|c r IH]; intros stack H.
  - exists []. split; [reflexivity | now left].
  - cbn [clean_comps].
    destruct (is_nil_b c || beq c s_dot) eqn:E1.
    + exact (IH stack (dd_only_last_tail _ _ H)).
    + destruct (beq c s_dotdot) eqn:E2.
      * destruct r as [|c2 r2]; [exists []; split; [reflexivity | now right]|].
        rewrite dd_only_last_cons, E2 in H. discriminate.
      * destruct (IH (c :: stack) (dd_only_last_tail _ _ H)) as (pushed & Hp & Hres).
        exists (pushed ++ [c]). split.
        -- rewrite forallb_app, Hp. cbn [forallb]. unfold plain_comp.
           apply orb_false_iff in E1. destruct E1 as [E1a E1b]. now rewrite E1a, E1b, E2.
        -- rewrite <- app_assoc. exact Hres.
Qed.

Lemma plain_comp_tests : forall c, plain_comp c = true ->
  is_nil_b c = false /\ beq c s_dot = false /\ beq c s_dotdot = false.
Proof.
  intros c H. unfold plain_comp in H. apply andb_true_iff in H as [H H3]. apply andb_true_iff in H as [H1 H2].
  now rewrite <- !negb_true_iff.
Qed.

Lemma has_underscore_plain : forall a h, plain_comp (a ++ c_under :: h) = true.
Proof.
  intros a h. unfold plain_comp, s_dot, s_dotdot, c_under.
  destruct a as [|x [|y [|z a]]]; cbn [app is_nil_b beq negb andb];
    repeat match goal with |- context [(?u =? 46)] => is_var u; destruct (u =? 46) end;
    cbn; try reflexivity; destruct h; reflexivity.
Qed.

Lemma split_on_app_noslash : forall a x rest, forallb (fun b => negb (b =? c_slash)) a = true -> negb (x =? c_slash) = true ->
  exists h t, split_on c_slash rest = h :: t /\ split_on c_slash (a ++ x :: rest) = (a ++ x :: h) :: t.
Proof.
  intros a x rest Ha Hx. destruct (split_on c_slash rest) as [|h t] eqn:Es; [now destruct (split_on_nonempty c_slash rest)|].
  exists h, t. split; [reflexivity|].
  induction a as [|b a IH]; cbn [app split_on].
  - apply negb_true_iff in Hx. now rewrite Hx, Es.
  - cbn [forallb] in Ha. apply andb_true_iff in Ha. destruct Ha as [Hb Ha]. apply negb_true_iff in Hb.
    rewrite Hb, (IH Ha). reflexivity.
Qed.

Lemma list_beq_refl : forall l, list_beq l l = true.
Proof. induction l as [|x l IH]; cbn [list_beq]; [reflexivity | now rewrite beq_refl, IH]. Qed.

Lemma list_beq_eq : forall a b, list_beq a b = true -> a = b.
Proof.
  induction a as [|x a IH]; destruct b as [|y b]; cbn [list_beq]; intro H; try reflexivity; try discriminate.
  apply andb_true_iff in H. destruct H as [H1 H2]. apply beq_eq in H1. apply IH in H2. now subst.
Qed.

Lemma list_beq_neq : forall a b, a <> b -> list_beq a b = false.
Proof. intros a b H. destruct (list_beq a b) eqn:E; [|reflexivity]. apply list_beq_eq in E. contradiction. Qed.

Lemma list_beq_snoc_false : forall (l : list bytes) c, list_beq (l ++ [c]) l = false.
Proof.
  induction l as [|x l IH]; intro c; cbn [app list_beq]; [reflexivity|]. now rewrite IH, andb_false_r.
Qed.

Lemma strip_prefix_app : forall p l, strip_prefix p (p ++ l) = Some l.
Proof. induction p as [|x p IH]; intro l; cbn [app strip_prefix]; [reflexivity | now rewrite beq_refl]. Qed.

Lemma import_target_shape : forall sdir idb rest,
  forallb (fun b => negb (b =? c_slash)) idb = true ->
  contains s_dotdotslash rest = false ->
  exists rel, import_target sdir idb rest = sdir ++ rel /\ forallb plain_comp rel = true.
Proof.
  intros sdir idb rest Hid Hc. unfold import_target.
  destruct (split_on_app_noslash idb c_under rest Hid eq_refl) as (h & t & Es & ->).
  pose proof (no_dotdotslash_split rest Hc) as Hdd. rewrite Es in Hdd. apply dd_only_last_tail in Hdd.
  generalize (has_underscore_plain idb h). generalize (idb ++ c_under :: h : bytes). intros c0 Hp0.
  cbn [clean_comps]. destruct (plain_comp_tests c0 Hp0) as (-> & -> & ->). cbn [orb].
  assert (Hshape : forall l, forallb plain_comp l = true ->
            exists rel, rev (l ++ c0 :: rev sdir) = sdir ++ rel /\ forallb plain_comp rel = true).
  { intros l Hl. exists (c0 :: rev l). split.
    - rewrite rev_app_distr. cbn [rev]. rewrite rev_involutive, <- app_assoc. reflexivity.
    - cbn [forallb]. rewrite Hp0. cbn [andb]. rewrite forallb_forall in *. intros x Hx. apply Hl. now apply in_rev. }
  destruct (clean_plain t (c0 :: rev sdir) Hdd) as (pushed & Hpl & [-> | ->]); [exact (Hshape _ Hpl)|].
  destruct pushed as [|p ps]; cbn [app tl].
  - exists []. now rewrite rev_involutive, app_nil_r.
  - apply Hshape. cbn [forallb] in Hpl. apply andb_true_iff in Hpl. now destruct Hpl.
Qed.

(* what open(O_CREATE) accepts for a member name that passed the `../` test is strictly below the snapshots directory:
   the shape lemma leaves the directory itself as the only other possibility, and can_create refuses that *)
Lemma created_target_inside : forall sdir idb dirs nm a rest,
  forallb (fun b => negb (b =? c_slash)) idb = true ->
  contains s_dotdotslash nm = false -> cut_first c_under nm = Some (a, rest) ->
  can_create sdir dirs (import_target sdir idb rest) = true ->
  strictly_below sdir (import_target sdir idb rest) = true.
Proof.
  intros sdir idb dirs nm a rest Hid Ec Ecut Ecc.
  assert (Hrest : contains s_dotdotslash rest = false).
  { destruct (contains s_dotdotslash rest) eqn:E; [|reflexivity].
    rewrite (contains_suffix _ _ _ _ _ Ecut E) in Ec. discriminate. }
  destruct (import_target_shape sdir idb rest Hid Hrest) as (rel & Ht & Hpl).
  rewrite Ht in *. unfold strictly_below. rewrite strip_prefix_app.
  destruct rel as [|c rel]; [|exact Hpl].
  unfold can_create in Ecc. rewrite app_nil_r, list_beq_refl in Ecc. discriminate.
Qed.

(* every path on which import creates or writes a file is strictly below the snapshots directory *)
Theorem import_inside : forall sdir idb dirs ms ef,
  forallb (fun b => negb (b =? c_slash)) idb = true ->
  forallb (strictly_below sdir) (fst (import_run sdir idb dirs ms ef)) = true.
Proof.
  intros sdir idb dirs ms. induction ms as [|m r IH]; intros ef Hid; cbn [import_run]; [reflexivity|].
  destruct (m_kind m); try reflexivity.
  destruct (contains s_dotdotslash (m_name m)) eqn:Ec; [reflexivity|].
  destruct (beq (m_name m) s_content_json); [now apply IH|].
  destruct (beq (m_name m) s_export_json); [now apply IH|].
  destruct (cut_first c_under (m_name m)) as [[a rest]|] eqn:Ecut; [|reflexivity].
  destruct (can_create sdir dirs (import_target sdir idb rest)) eqn:Ecc; [|reflexivity].
  pose proof (created_target_inside _ _ _ _ _ _ Hid Ec Ecut Ecc) as Htgt.
  destruct (m_valid m).
  - specialize (IH ef Hid). destruct (import_run sdir idb dirs r ef) as [w ok]. cbn [fst forallb] in *.
    now rewrite IH, Htgt.
  - cbn [fst forallb]. now rewrite Htgt.
Qed.

Lemma import_writes_paths : forall sdir idb dirs ms fs ef,
  map fst (fst (import_writes sdir idb dirs fs ms ef)) = fst (import_run sdir idb dirs ms ef) /\
  snd (import_writes sdir idb dirs fs ms ef) = snd (import_run sdir idb dirs ms ef).
Proof.
  intros sdir idb dirs ms. induction ms as [|m r IH]; intros fs ef; cbn [import_writes import_run]; [split; reflexivity|].
  destruct (m_kind m); try (split; reflexivity).
  destruct (contains s_dotdotslash (m_name m)); [split; reflexivity|].
  destruct (beq (m_name m) s_content_json); [apply IH|].
  destruct (beq (m_name m) s_export_json); [apply IH|].
  destruct (cut_first c_under (m_name m)) as [[a rest]|]; [|split; reflexivity].
  destruct (can_create sdir dirs (import_target sdir idb rest)); [|split; reflexivity].
  cbv zeta. destruct (m_valid m); [|split; reflexivity].
  match goal with |- context [import_writes sdir idb dirs ?fs' r ef] => destruct (IH fs' ef) as [I1 I2];
    destruct (import_writes sdir idb dirs fs' r ef) as [w ok] end.
  destruct (import_run sdir idb dirs r ef) as [w2 ok2]. cbn [fst snd map] in *. split; congruence.
Qed.

Lemma overlay_replaces : forall old data, (length old <= length data)%nat -> overlay old data = data.
Proof. intros old data H. unfold overlay. rewrite skipn_all2 by exact H. apply app_nil_r. Qed.

Lemma overlay_shape : forall old data,
  firstn (length data) (overlay old data) = data /\
  skipn (length data) (overlay old data) = skipn (length data) old /\
  length (overlay old data) = Nat.max (length old) (length data).
Proof.
  intros old data. unfold overlay. repeat split.
  - rewrite firstn_app, Nat.sub_diag, firstn_O, app_nil_r. apply firstn_all.
  - rewrite skipn_app, Nat.sub_diag. cbn [skipn]. rewrite skipn_all. reflexivity.
  - rewrite app_length, skipn_length. lia.
Qed.

(* duplicates: every write stores overlay (content of that path after the earlier writes) (body of this member); in
   particular a later member with the same target overwrites the earlier one -- completely when it is at least as long *)
Inductive writes_from (fs : list (list bytes * bytes)) : list (list bytes * bytes) -> Prop :=
| wf_nil : writes_from fs []
| wf_cons : forall p body w,
    writes_from ((p, overlay (match path_lookup p fs with Some c => c | None => [] end) body) :: fs) w ->
    writes_from fs ((p, overlay (match path_lookup p fs with Some c => c | None => [] end) body) :: w).

Theorem import_writes_overlay : forall sdir idb dirs ms fs ef,
  writes_from fs (fst (import_writes sdir idb dirs fs ms ef)).
Proof.
  intros sdir idb dirs ms. induction ms as [|m r IH]; intros fs ef; cbn [import_writes]; [constructor|].
  destruct (m_kind m); try constructor.
  destruct (contains s_dotdotslash (m_name m)); [constructor|].
  destruct (beq (m_name m) s_content_json); [apply IH|].
  destruct (beq (m_name m) s_export_json); [apply IH|].
  destruct (cut_first c_under (m_name m)) as [[a rest]|]; [|constructor].
  destruct (can_create sdir dirs (import_target sdir idb rest)); [|constructor].
  cbv zeta. destruct (m_valid m); [|cbn [fst]; constructor; constructor].
  match goal with |- context [import_writes sdir idb dirs ?fs' r ef] => pose proof (IH fs' ef) as I;
    destruct (import_writes sdir idb dirs fs' r ef) as [w ok] end.
  cbn [fst] in *. constructor. exact I.
Qed.

(* an import that succeeds has verified every snapshot member (file member other than the two json members) of the stream *)
Lemma import_ok_all_valid : forall sdir idb dirs ms fs ef m,
  snd (import_writes sdir idb dirs fs ms ef) = true -> In m ms ->
  m_kind m = MFile -> beq (m_name m) s_content_json = false -> beq (m_name m) s_export_json = false ->
  m_valid m = true.
Proof.
  intros sdir idb dirs ms. induction ms as [|m1 r IH]; intros fs ef m Hok Hin Hk Hc He; [destruct Hin|].
  cbn [import_writes] in Hok.
  destruct (m_kind m1); try discriminate Hok.
  destruct (contains s_dotdotslash (m_name m1)); [discriminate Hok|].
  destruct (beq (m_name m1) s_content_json) eqn:E1; [destruct Hin as [<- | Hin]; [congruence | now apply (IH fs ef)]|].
  destruct (beq (m_name m1) s_export_json) eqn:E2; [destruct Hin as [<- | Hin]; [congruence | now apply (IH fs true)]|].
  destruct (cut_first c_under (m_name m1)) as [[a rest]|]; [|discriminate Hok].
  destruct (can_create sdir dirs (import_target sdir idb rest)); [|discriminate Hok].
  cbv zeta in Hok. destruct (m_valid m1) eqn:V; [|discriminate Hok].
  destruct Hin as [<- | Hin]; [exact V|].
  match type of Hok with context [import_writes sdir idb dirs ?fs' r ef] =>
    apply (IH fs' ef); try assumption; destruct (import_writes sdir idb dirs fs' r ef) as [w ok] end.
  exact Hok.
Qed.

(* one snapshot member that Open / Check reject, anywhere in the stream: the import fails *)
Theorem invalid_member_fails : forall sdir idb dirs ms1 m ms2 fs ef,
  m_kind m = MFile -> m_valid m = false ->
  beq (m_name m) s_content_json = false -> beq (m_name m) s_export_json = false ->
  snd (import_writes sdir idb dirs fs (ms1 ++ m :: ms2) ef) = false.
Proof.
  intros sdir idb dirs ms1 m ms2 fs ef Hk Hv Hc He.
  destruct (snd (import_writes sdir idb dirs fs (ms1 ++ m :: ms2) ef)) eqn:Hok; [|reflexivity].
  rewrite (import_ok_all_valid _ _ _ _ _ _ m Hok (in_elt m ms1 ms2) Hk Hc He) in Hv. discriminate.
Qed.

Lemma path_lookup_filter_none : forall (g : list bytes * bytes -> bool) p l,
  (forall q c, In (q, c) l -> list_beq q p = true -> g (q, c) = false) -> path_lookup p (filter g l) = None.
Proof.
  intros g p l. induction l as [|[q c] l IH]; intro H; cbn [filter path_lookup]; [reflexivity|].
  destruct (g (q, c)) eqn:Eg.
  - cbn [path_lookup]. destruct (list_beq q p) eqn:Eq.
    + rewrite (H q c (or_introl eq_refl) Eq) in Eg. discriminate.
    + apply IH. intros q0 c0 Hin. apply H. now right.
  - apply IH. intros q0 c0 Hin. apply H. now right.
Qed.

(* a failed import (for whatever reason, at whatever member) leaves NO file <id>_*.zip in the snapshots directory: what
   was written before the failure is removed again by the deferred Cancel *)
Theorem failed_import_commits_nothing : forall sdir idb dirs fs ms n,
  snd (import_final sdir idb dirs fs ms) = false ->
  glob_id_zip idb n = true ->
  path_lookup (sdir ++ [n]) (fst (import_final sdir idb dirs fs ms)) = None.
Proof.
  intros sdir idb dirs fs ms n Hf Hg. unfold import_final in *.
  destruct (import_writes sdir idb dirs fs ms false) as [w ok]. destruct ok; [discriminate|]. cbn [fst].
  apply path_lookup_filter_none. intros q c _ Hq. apply list_beq_eq in Hq. subst q. cbn [fst].
  rewrite strip_prefix_app, Hg. reflexivity.
Qed.

Theorem committed_import_all_valid : forall sdir idb dirs fs ms m,
  snd (import_final sdir idb dirs fs ms) = true -> In m ms ->
  m_kind m = MFile -> beq (m_name m) s_content_json = false -> beq (m_name m) s_export_json = false ->
  m_valid m = true.
Proof.
  intros sdir idb dirs fs ms m Hok. apply (import_ok_all_valid sdir idb dirs ms fs false).
  unfold import_final in Hok. destruct (import_writes sdir idb dirs fs ms false) as [w [|]]; [reflexivity | discriminate Hok].
Qed.

Definition noslash (s : bytes) : bool := forallb (fun b => negb (b =? c_slash)) s.

Lemma noslash_no_dds : forall s, noslash s = true -> contains s_dotdotslash s = false.
Proof.
  induction s as [|x r IH]; intro H; [reflexivity|].
  cbn [noslash forallb] in H. apply andb_true_iff in H. destruct H as [Hx Hr].
  cbn [contains]. rewrite (IH Hr), orb_false_r.
  unfold s_dotdotslash. cbn [has_prefix].
  destruct r as [|y [|z r]]; cbn [has_prefix]; rewrite ?andb_false_r; try reflexivity.
  cbn [noslash forallb] in Hr. apply andb_true_iff in Hr. destruct Hr as [_ Hr].
  apply andb_true_iff in Hr. destruct Hr as [Hz _]. unfold c_slash in Hz.
  apply negb_true_iff in Hz. rewrite N.eqb_sym in Hz. rewrite Hz. cbn [andb]. now rewrite !andb_false_r.
Qed.

Lemma split_on_noslash : forall s, noslash s = true -> split_on c_slash s = [s].
Proof.
  induction s as [|x r IH]; intro H; [reflexivity|].
  cbn [noslash forallb] in H. apply andb_true_iff in H. destruct H as [Hx Hr]. apply negb_true_iff in Hx.
  cbn [split_on]. rewrite Hx, (IH Hr). reflexivity.
Qed.

Lemma noslash_app : forall a x b, noslash a = true -> negb (x =? c_slash) = true -> noslash b = true -> noslash (a ++ x :: b) = true.
Proof. intros a x b Ha Hx Hb. unfold noslash in *. rewrite forallb_app. cbn [forallb]. now rewrite Ha, Hx, Hb. Qed.

Lemma import_target_simple : forall sdir idb rest, noslash idb = true -> noslash rest = true ->
  import_target sdir idb rest = sdir ++ [idb ++ c_under :: rest].
Proof.
  intros sdir idb rest Hi Hr. unfold import_target.
  rewrite (split_on_noslash _ (noslash_app idb c_under rest Hi eq_refl Hr)). cbn [clean_comps].
  destruct (plain_comp_tests _ (has_underscore_plain idb rest)) as (-> & -> & ->). cbn [orb rev]. now rewrite rev_involutive.
Qed.

Lemma cut_first_app : forall a rest, forallb (fun b => negb (b =? c_under)) a = true ->
  cut_first c_under (a ++ c_under :: rest) = Some (a, rest).
Proof.
  induction a as [|x a IH]; intros rest H; cbn [app cut_first].
  - now rewrite N.eqb_refl.
  - cbn [forallb] in H. apply andb_true_iff in H. destruct H as [Hx Ha]. apply negb_true_iff in Hx.
    now rewrite Hx, (IH rest Ha).
Qed.

Lemma underscore_not_json : forall a rest,
  beq (a ++ c_under :: rest) s_content_json = false /\ beq (a ++ c_under :: rest) s_export_json = false.
Proof.
  intros a rest.
  assert (H : forall s, ~ In c_under s -> beq (a ++ c_under :: rest) s = false).
  { intros s Hs. apply beq_neq. intros <-. apply Hs, in_or_app. right. now left. }
  split; apply H; cbv; intuition discriminate.
Qed.

Definition rt_target (sdir : list bytes) (idb : bytes) (rc : bytes * bytes) : list bytes * bytes :=
  (sdir ++ [idb ++ c_under :: fst rc], snd rc).
Definition rt_member (ida : bytes) (rc : bytes * bytes) : member :=
  {| m_name := ida ++ c_under :: fst rc; m_kind := MFile; m_body := snd rc; m_valid := true |}.

Lemma roundtrip_files : forall sdir ida idb dirs files fs tail ef,
  forallb (fun b => negb (b =? c_under)) ida = true -> noslash ida = true -> noslash idb = true ->
  Forall (fun rc => noslash (fst rc) = true) files ->
  NoDup (map fst files) ->
  Forall (fun rc => path_lookup (fst (rt_target sdir idb rc)) fs = None /\
                    existsb (list_beq (fst (rt_target sdir idb rc))) dirs = false) files ->
  import_writes sdir idb dirs fs (map (rt_member ida) files ++ tail) ef =
  (map (rt_target sdir idb) files ++ fst (import_writes sdir idb dirs (rev (map (rt_target sdir idb) files) ++ fs) tail ef),
   snd (import_writes sdir idb dirs (rev (map (rt_target sdir idb) files) ++ fs) tail ef)).
Proof.
  intros sdir ida idb dirs files. induction files as [|rc r IH]; intros fs tail ef Hu Ha Hb Hs Hnd Hfree.
  - cbn [map app rev]. now destruct (import_writes sdir idb dirs fs tail ef).
  - inversion Hs as [|? ? Hs1 Hs2]; subst. inversion Hnd as [|? ? Hn1 Hn2]; subst.
    inversion Hfree as [|? ? [Hf1 Hf1'] Hf2]; subst.
    cbn [map app import_writes rt_member m_kind m_name m_body m_valid].
    rewrite (noslash_no_dds _ (noslash_app ida c_under (fst rc) Ha eq_refl Hs1)).
    destruct (underscore_not_json ida (fst rc)) as [-> ->].
    rewrite (cut_first_app ida (fst rc) Hu), (import_target_simple sdir idb (fst rc) Hb Hs1).
    unfold can_create. rewrite list_beq_snoc_false. unfold rt_target in Hf1, Hf1'. cbn [fst] in Hf1, Hf1'.
    rewrite Hf1', removelast_last, list_beq_refl. cbn [negb andb orb]. cbv zeta. rewrite Hf1.
    replace (overlay [] (snd rc)) with (snd rc) by (unfold overlay; now rewrite skipn_nil, app_nil_r).
    rewrite (IH ((sdir ++ [idb ++ c_under :: fst rc], snd rc) :: fs) tail ef Hu Ha Hb Hs2 Hn2).
    + cbn [rev map]. unfold rt_target at 3. unfold rt_target at 5. cbn [fst snd].
      rewrite <- !app_assoc. cbn [app]. reflexivity.
    + clear IH. rewrite Forall_forall in *. intros rc2 Hin. destruct (Hf2 rc2 Hin) as [G1 G2]. split; [|exact G2].
      cbn [path_lookup]. unfold rt_target. cbn [fst].
      rewrite list_beq_neq; [exact G1|].
      intro Heq. apply app_inv_head in Heq. inversion Heq as [Heq']. apply app_inv_head in Heq'. inversion Heq'.
      apply Hn1. apply in_map_iff. exists rc2. split; [first [assumption | symmetry; assumption] | exact Hin].
Qed.

(* exporting the snapshot files <ida>_<rest> of one set and importing the stream under another id writes exactly the files
   <idb>_<rest>, with exactly the exported contents, and succeeds -- for every list of files whose names have no slash,
   are pairwise distinct, and whose targets are free *)
Theorem export_import_roundtrip : forall sdir ida idb dirs fs files,
  forallb (fun b => negb (b =? c_under)) ida = true -> noslash ida = true -> noslash idb = true ->
  Forall (fun rc => noslash (fst rc) = true) files ->
  NoDup (map fst files) ->
  Forall (fun rc => path_lookup (fst (rt_target sdir idb rc)) fs = None /\
                    existsb (list_beq (fst (rt_target sdir idb rc))) dirs = false) files ->
  import_writes sdir idb dirs fs
    (export_members (map (fun rc => (ida ++ c_under :: fst rc, snd rc)) files)) false
  = (map (rt_target sdir idb) files, true).
Proof.
  intros sdir ida idb dirs fs files Hu Ha Hb Hs Hnd Hfree.
  unfold export_members. rewrite map_map.
  change (map (fun x : bytes * bytes => {| m_name := fst (ida ++ c_under :: fst x, snd x); m_kind := MFile;
                                          m_body := snd (ida ++ c_under :: fst x, snd x); m_valid := true |}) files)
    with (map (rt_member ida) files).
  cbn [import_writes m_kind m_name]. cbn [contains has_prefix s_content_json s_dotdotslash N.eqb Pos.eqb andb orb].
  rewrite beq_refl.
  rewrite (roundtrip_files sdir ida idb dirs files fs _ false Hu Ha Hb Hs Hnd Hfree).
  cbn [import_writes m_kind m_name]. 
  replace (contains s_dotdotslash s_export_json) with false by (vm_compute; reflexivity).
  replace (beq s_export_json s_content_json) with false by (vm_compute; reflexivity).
  rewrite beq_refl. cbn [import_writes fst snd]. now rewrite app_nil_r.
Qed.
