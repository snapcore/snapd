(* C38 — proofs about models/Gadget.v: an accepted volume lays out into a chain of structures (any actual sizes up to
   the declared ones), content inside its structure, as long as no uint64 sum wraps; and witnesses for the wrap. *)
From Coq Require Import List NArith ZArith Bool Lia ZifyBool Sorting.Sorted.
Import ListNotations.
Require Import V.models.Gadget.
Open Scope N_scope.

Lemma add64_small : forall a b, a + b < W -> add64 a b = a + b.
Proof. intros a b H. unfold add64. apply N.mod_small. exact H. Qed.

(* a laid-out structure (start, size) ends below 2^64 *)
Definition fits (p : N * N) : Prop := fst p + snd p < W.
Definition before (a b : N * N) : Prop := fst a + snd a <= fst b.

Definition two63 : N := 9223372036854775808.

Lemma wrap_i64_range : forall z, (- 9223372036854775808 <= wrap_i64 z < 9223372036854775808)%Z.
Proof.
  intro z. unfold wrap_i64.
  pose proof (Z.mod_pos_bound (z + 9223372036854775808) 18446744073709551616 eq_refl). lia.
Qed.

Lemma wrap_i64_id : forall z, (- 9223372036854775808 <= z < 9223372036854775808)%Z -> wrap_i64 z = z.
Proof. intros z H. unfold wrap_i64. rewrite Z.mod_small by lia. lia. Qed.

Lemma parse_qty_bound : forall q n, parse_qty q = Some n -> n < two63.
Proof.
  intros q n H. unfold parse_qty in H.
  pose proof (wrap_i64_range (q_num q * unit_mult (q_unit q))) as R.
  destruct (wrap_i64 (q_num q * unit_mult (q_unit q)) <? 0)%Z eqn:E; [discriminate|].
  inversion H; subst; clear H. unfold two63. lia.
Qed.

Lemma parse_qty_exact : forall q, (0 <= qty_value q < 9223372036854775808)%Z ->
  parse_qty q = Some (Z.to_N (qty_value q)).
Proof.
  intros q H. unfold parse_qty, qty_value in *. rewrite wrap_i64_id by lia.
  destruct (q_num q * unit_mult (q_unit q) <? 0)%Z eqn:E; [lia | reflexivity].
Qed.

Lemma parse_qty_negative : forall q, (- 9223372036854775808 <= qty_value q < 0)%Z -> parse_qty q = None.
Proof.
  intros q H. unfold parse_qty, qty_value in *. rewrite wrap_i64_id by lia.
  destruct (q_num q * unit_mult (q_unit q) <? 0)%Z eqn:E; [reflexivity | lia].
Qed.

(* Any actual sizes up to the declared ones: on a real disk a structure with min-size < size may have any size in between
   (EnsureVolumeCompatibility accepts [min-size, size]; install creates with the full size), and a structure without an
   offset of its own then starts at the actual end of its predecessor. on_disk_sized: the layout for a choice zs of actual
   sizes (spec level, unbounded sums). *)
Fixpoint on_disk_sized_from (off : N) (l : list structure) (zs : list N) : list (N * N) :=
  match l, zs with
  | s :: r, z :: zr => let st := match s_offset s with Some o => o | None => off end in
                       (st, z) :: on_disk_sized_from (st + z) r zr
  | _, _ => []
  end.
Definition on_disk_sized (l : list structure) (zs : list N) : list (N * N) := on_disk_sized_from 0 l zs.

(* the invariant of every layout loop: sorted without overlap, and nothing starts below prev *)
Lemma chain_cons : forall prev next a l, prev <= fst a -> fst a + snd a <= next ->
  StronglySorted before l /\ Forall (fun p => next <= fst p) l ->
  StronglySorted before (a :: l) /\ Forall (fun p => prev <= fst p) (a :: l).
Proof.
  intros prev next a l Ha Hn [Hs Hl]. split.
  - constructor; [exact Hs|]. eapply Forall_impl; [|exact Hl]. cbn beta. intros p Hp. unfold before. lia.
  - constructor; [exact Ha|]. eapply Forall_impl; [|exact Hl]. cbn beta. intros p Hp. lia.
Qed.

(* one step of validateCrossVolumeStructure, with the start OnDiskStructsFromGadget gives the structure *)
Lemma validate_cross_from_cons : forall f vs prev s r, validate_cross_from f vs prev (s :: r) = true ->
  (s_mbr s = true -> s_offset s = Some 0) /\ validate_ow s f vs = true /\ (forall o, s_offset s = Some o -> prev <= o) /\
  validate_cross_from f vs (add64 match s_offset s with Some o => o | None => prev end (s_size s)) r = true.
Proof.
  intros f vs prev s r H. cbn [validate_cross_from] in H.
  apply andb_prop in H. destruct H as [H1 H2]. apply andb_prop in H1. destruct H1 as [Hm How].
  split. { intro Hb. rewrite Hb in Hm. cbn in Hm. destruct (s_offset s) as [[|o]|]; try discriminate. reflexivity. }
  split; [exact How|]. destruct (s_offset s) as [o|].
  - apply andb_prop in H2. destruct H2 as [Hge H2]. split; [intros o' [= <-]; lia | exact H2].
  - split; [discriminate | exact H2].
Qed.

Lemma on_disk_sized_chain : forall f vs l prev zs off,
  validate_cross_from f vs prev l = true -> Forall fits (on_disk_from prev l) ->
  Forall2 (fun s z => z <= s_size s) l zs -> off <= prev ->
  StronglySorted before (on_disk_sized_from off l zs) /\ Forall (fun p => off <= fst p) (on_disk_sized_from off l zs).
Proof.
  intros f vs l. induction l as [|s r IH]; intros prev zs off Hv Hf Hz Hoff; [split; constructor|].
  inversion Hz as [|s' z l' zr Hzs Hzr]; subst.
  destruct (validate_cross_from_cons _ _ _ _ _ Hv) as (_ & _ & Hge & Hv').
  cbn [on_disk_from on_disk_sized_from] in *.
  inversion Hf as [|x xs Hx Hxs]; subst; clear Hf. unfold fits in Hx. cbn [fst snd] in Hx.
  (* the next structure starts where this one was declared to end, at the latest *)
  rewrite (add64_small _ _ Hx) in *. destruct (s_offset s) as [o|].
  + specialize (Hge _ eq_refl).
    apply (chain_cons off (o + z)); cbn [fst snd]; [lia | lia | apply (IH (o + s_size s)); auto; lia].
  + apply (chain_cons off (off + z)); cbn [fst snd]; [lia | lia | apply (IH (prev + s_size s)); auto; lia].
Qed.

Lemma on_disk_from_sized : forall l prev, Forall fits (on_disk_from prev l) ->
  on_disk_from prev l = on_disk_sized_from prev l (map s_size l).
Proof.
  induction l as [|s r IH]; intros prev Hf; [reflexivity|]. cbn [on_disk_from on_disk_sized_from map] in *.
  inversion Hf as [|x xs Hx Hxs]; subst. unfold fits in Hx. cbn [fst snd] in Hx.
  rewrite (add64_small _ _ Hx) in *. now rewrite <- IH.
Qed.

(* the monitor's boolean says the same *)
Lemma disjoint_incr_sorted : forall l, disjoint_incr l = true -> StronglySorted before l.
Proof.
  induction l as [|[s1 z1] t IH]; intro H; [constructor|]. destruct t as [|[s2 z2] t']; [repeat constructor|].
  change (disjoint_incr ((s1, z1) :: (s2, z2) :: t')) with ((s1 + z1 <=? s2) && disjoint_incr ((s2, z2) :: t')) in H.
  apply andb_prop in H. destruct H as [H1 H2]. specialize (IH H2). inversion IH as [|x xs _ Hf]; subst.
  apply (chain_cons 0 s2); cbn [fst snd]; [lia | lia |]. split; [exact IH|].
  constructor; [apply N.le_refl|]. eapply Forall_impl; [|exact Hf]. unfold before. cbn [fst snd]. lia.
Qed.

Lemma sorted_disjoint_incr : forall l, StronglySorted before l -> disjoint_incr l = true.
Proof.
  induction l as [|[s1 z1] t IH]; intro H; [reflexivity|].
  inversion H as [|x xs Hs Hf]; subst. cbn [disjoint_incr]. destruct t as [|[s2 z2] t']; [reflexivity|].
  rewrite (IH Hs). inversion Hf as [|y ys Hb _]; subst. unfold before in Hb. cbn [fst snd] in Hb.
  destruct (N.leb_spec (s1 + z1) s2); [reflexivity | lia].
Qed.

(* validateCrossVolumeStructure => OnDiskStructsFromGadget is a chain, at any actual sizes up to the declared ones *)
Theorem validate_cross_disjoint_any_sizes : forall l zs, validate_cross l = true -> Forall fits (on_disk l) ->
  Forall2 (fun s z => z <= s_size s) l zs -> StronglySorted before (on_disk_sized l zs).
Proof.
  intros l zs Hv Hf Hz. unfold on_disk_sized, on_disk in *. destruct l as [|f r]; [constructor|].
  exact (proj1 (on_disk_sized_chain _ _ _ _ _ 0 Hv Hf Hz (N.le_refl 0))).
Qed.

Theorem validate_cross_disjoint : forall l,
  validate_cross l = true -> Forall fits (on_disk l) -> StronglySorted before (on_disk l).
Proof.
  intros l Hv Hf. unfold on_disk. rewrite (on_disk_from_sized l 0 Hf).
  apply validate_cross_disjoint_any_sizes; [assumption..|].
  clear. induction l; constructor; [apply N.le_refl | assumption].
Qed.

Lemma accept_parsed_inv : forall p l o, accept_parsed p l = Some o ->
  o = order_by_offset (set_implicit p (Some 0) l) /\ forallb (validate_struct p) o = true /\ validate_cross o = true.
Proof.
  intros p l o H. unfold accept_parsed in H.
  destruct (forallb (validate_struct p) (order_by_offset (set_implicit p (Some 0) l))
            && validate_cross (order_by_offset (set_implicit p (Some 0) l))) eqn:E; [|discriminate].
  injection H as <-. apply andb_prop in E. auto.
Qed.

Lemma accept_inv : forall v o, accept v = Some o ->
  exists ss, parse_structs 0 (rv_structs v) = Some ss /\ accept_parsed (rv_partial_size v) ss = Some o.
Proof. intros v o H. unfold accept in H. destruct (parse_structs 0 (rv_structs v)) as [ss|]; [eauto | discriminate]. Qed.

Lemma accept_valid : forall v o, accept v = Some o ->
  forallb (validate_struct (rv_partial_size v)) o = true /\ validate_cross o = true.
Proof. intros v o H. destruct (accept_inv v o H) as (ss & _ & H'). apply accept_parsed_inv in H'. tauto. Qed.

Theorem accepted_disjoint : forall v l,
  accept v = Some l -> Forall fits (on_disk l) -> StronglySorted before (on_disk l).
Proof. intros v l H. apply validate_cross_disjoint. exact (proj2 (accept_valid _ _ H)). Qed.

Theorem accepted_disjoint_any_sizes : forall (v : raw_volume) (l : list structure) (zs : list N),
  accept v = Some l -> Forall fits (on_disk l) -> Forall2 (fun s z => z <= s_size s) l zs ->
  StronglySorted before (on_disk_sized l zs).
Proof. intros v l zs H. apply validate_cross_disjoint_any_sizes. exact (proj2 (accept_valid _ _ H)). Qed.

Lemma on_disk_from_spec : forall l off,
  map snd (on_disk_from off l) = map s_size l /\
  Forall2 (fun s p => forall o, s_offset s = Some o -> fst p = o) l (on_disk_from off l).
Proof.
  induction l as [|s r IH]; intro off; cbn [on_disk_from map]; [split; [reflexivity | constructor]|].
  destruct (IH (add64 match s_offset s with Some o => o | None => off end (s_size s))) as [H1 H2].
  split; [cbn [snd]; f_equal; exact H1|]. constructor; [|exact H2].
  intros o Ho. rewrite Ho. reflexivity.
Qed.

Lemma sorted_starts : forall l, StronglySorted before l -> StronglySorted (fun a b => fst a <= fst b) l.
Proof.
  induction 1 as [|a l Hs IH Hf]; constructor; [exact IH|].
  eapply Forall_impl; [|exact Hf]. intros b Hb. unfold before in Hb. lia.
Qed.

Lemma mbr_at_zero_from : forall f vs l prev, validate_cross_from f vs prev l = true ->
  Forall2 (fun s p => s_mbr s = true -> fst p = 0) l (on_disk_from prev l).
Proof.
  intros f vs l. induction l as [|s r IH]; intros prev Hv; cbn [on_disk_from]; [constructor|].
  destruct (validate_cross_from_cons _ _ _ _ _ Hv) as (Hm & _ & _ & Hv').
  constructor; [|apply IH; exact Hv']. intro Hb. cbn [fst]. rewrite (Hm Hb). reflexivity.
Qed.

Theorem accepted_mbr_at_zero : forall v l, accept v = Some l ->
  Forall2 (fun s p => s_mbr s = true -> fst p = 0) l (on_disk l).
Proof.
  intros v l H. destruct (accept_valid _ _ H) as [_ Hc]. unfold on_disk. destruct l as [|f r]; [constructor|].
  unfold validate_cross in Hc. eapply mbr_at_zero_from; eauto.
Qed.

Definition small_content (c : content) : Prop :=
  (forall o, c_offset c = Some o -> o < two63) /\ c_size c < two63 /\ (forall i, c_image c = Some i -> i < two63).
Definition small_struct (s : structure) : Prop := s_size s < two63 /\ Forall small_content (s_content s).

Definition within (st sz : N) (c : N * N) : Prop := st <= fst c /\ fst c + snd c <= st + sz.

Lemma place_content_inside : forall st ssize l prev placed,
  st + ssize < W -> ssize < two63 -> prev <= ssize -> Forall small_content l ->
  place_content st ssize prev l = Some placed -> Forall (within st ssize) placed.
Proof.
  intros st ssize l. induction l as [|c r IH]; intros prev placed Hfit Hss Hprev Hsm H.
  - cbn in H. inversion H. constructor.
  - cbn [place_content] in H. inversion Hsm as [|x xs Hc Hr]; subst.
    destruct Hc as [Ho [Hz Hi]].
    destruct (c_image c) as [img|] eqn:Ei; [|discriminate].
    specialize (Hi _ eq_refl).
    destruct (negb (c_size c =? 0) && (c_size c <? img)) eqn:E1; [discriminate|].
    set (start := match c_offset c with Some o => o | None => prev end) in *.
    set (actual := if c_size c =? 0 then img else c_size c) in *.
    assert (Hstart : start < W).
    { unfold start. destruct (c_offset c) as [o|]; [specialize (Ho _ eq_refl)|]; unfold two63, W in *; lia. }
    assert (Hact : actual < two63) by (unfold actual; destruct (c_size c =? 0); assumption).
    assert (Hstart2 : start <= two63).
    { unfold start. destruct (c_offset c) as [o|]; [specialize (Ho _ eq_refl)|]; unfold two63 in *; lia. }
    assert (Hsum : start + actual < W) by (unfold two63, W in *; lia).
    rewrite (add64_small _ _ Hsum) in H.
    destruct (ssize <? start + actual) eqn:E2; [discriminate|].
    destruct (place_content st ssize (start + actual) r) as [t|] eqn:E3; [|discriminate].
    inversion H; subst; clear H.
    assert (Hle : start + actual <= ssize) by lia.
    constructor.
    + unfold within. cbn [fst snd]. rewrite add64_small by lia. lia.
    + eapply IH; eauto.
Qed.

Lemma insert_c_forall : forall (P : N * N -> Prop) x l, P x -> Forall P l -> Forall P (insert_c x l).
Proof.
  intros P x l Hx. induction l as [|y r IH]; intro H; cbn [insert_c]; [constructor; auto|].
  inversion H; subst. destruct (fst x <? fst y); constructor; auto.
Qed.

Lemma fold_insert_forall : forall (A : Type) (P : A -> Prop) (ins : A -> list A -> list A),
  (forall x l, P x -> Forall P l -> Forall P (ins x l)) ->
  forall l acc, Forall P l -> Forall P acc -> Forall P (fold_left (fun a x => ins x a) l acc).
Proof.
  intros A P ins Hins l. induction l as [|x r IH]; intros acc Hl Ha; cbn [fold_left]; [exact Ha|].
  inversion Hl; subst. apply IH; [assumption | apply Hins; assumption].
Qed.

Lemma sort_c_forall : forall (P : N * N -> Prop) l, Forall P l -> Forall P (sort_c l).
Proof. intros P l H. unfold sort_c. apply fold_insert_forall; [apply insert_c_forall | exact H | constructor]. Qed.

Lemma no_overlap_chain : forall st sz l prev,
  st + sz < W -> Forall (within st sz) l -> no_overlap_from prev l = true ->
  StronglySorted before l /\ Forall (fun p => prev <= fst p) l.
Proof.
  intros st sz l. induction l as [|[cs z] r IH]; intros prev Hfit Hw H; [split; constructor|].
  cbn [no_overlap_from] in H. apply andb_prop in H. destruct H as [H1 H2].
  inversion Hw as [|x xs Hx Hxs]; subst. unfold within in Hx. cbn [fst snd] in Hx.
  rewrite add64_small in H2 by lia.
  apply (chain_cons prev (cs + z)); cbn [fst snd]; [lia | lia | exact (IH _ Hfit Hxs H2)].
Qed.

Theorem layout_content_inside : forall st s cs,
  layout_content st s = Some cs -> st + s_size s < W -> small_struct s ->
  Forall (within st (s_size s)) cs /\ StronglySorted before cs.
Proof.
  intros st s cs H Hfit [Hss Hsm]. unfold layout_content in H.
  destruct (s_fs s); [inversion H; split; constructor|].
  destruct (s_content s) as [|c0 cr] eqn:Ec; [inversion H; split; constructor|].
  destruct (place_content st (s_size s) 0 (c0 :: cr)) as [placed|] eqn:Ep; [|discriminate].
  destruct (no_overlap_from st (sort_c placed)) eqn:En; [|discriminate].
  inversion H; subst; clear H.
  assert (Hin : Forall (within st (s_size s)) (sort_c placed)).
  { apply sort_c_forall. eapply place_content_inside; eauto. lia. }
  split; [exact Hin | exact (proj1 (no_overlap_chain _ _ _ _ Hfit Hin En))].
Qed.

(* the whole volume: LayoutVolume succeeded *)
Theorem layout_all_inside : forall l d lay,
  layout_all l d = Some lay -> Forall fits d -> map snd d = map s_size l -> Forall small_struct l ->
  Forall2 (fun p cs => Forall (within (fst p) (snd p)) cs /\ StronglySorted before cs) d lay.
Proof.
  induction l as [|s r IH]; intros d lay H Hf Hm Hs.
  - destruct d; [|discriminate]. cbn in H. inversion H. constructor.
  - destruct d as [|[st sz] dr]; [discriminate|]. cbn [layout_all] in H.
    destruct (layout_content st s) as [c|] eqn:E1; [|discriminate].
    destruct (layout_all r dr) as [cs|] eqn:E2; [|discriminate].
    inversion H; subst; clear H. cbn [map snd] in Hm. inversion Hm as [[Hsz Hrest]].
    inversion Hf as [|x xs Hx Hxs]; subst. inversion Hs as [|y ys Hy Hys]; subst.
    unfold fits in Hx. cbn [fst snd] in *.
    constructor; [|eapply IH; eauto].
    eapply layout_content_inside; eauto.
Qed.

Lemma parse_optp_small : forall o r, parse_optp o = Some r -> forall x, r = Some x -> x < two63.
Proof.
  intros o r H x Hx. subst. destruct o as [q|]; cbn in H; [|discriminate].
  destruct (parse_qty q) eqn:E; cbn in H; [|discriminate]. inversion H; subst. eapply parse_qty_bound; eauto.
Qed.

Lemma parse_opt0_small : forall o n, parse_opt0 o = Some n -> n < two63.
Proof.
  intros o n H. destruct o as [q|]; cbn in H; [eapply parse_qty_bound; eauto|]. inversion H. reflexivity.
Qed.

Definition image_small (r : raw_content) : Prop := forall i, rc_image r = Some i -> i < two63.

Lemma parse_content_small : forall r c, image_small r -> parse_content r = Some c -> small_content c.
Proof.
  intros r c Hi H. unfold parse_content in H.
  destruct (parse_optp (rc_offset r)) as [o|] eqn:E1; [|discriminate].
  destruct (parse_opt0 (rc_size r)) as [z|] eqn:E2; [|discriminate].
  inversion H; subst; clear H. unfold small_content. cbn.
  split; [intros x Hx; eapply parse_optp_small; eauto|]. split; [eapply parse_opt0_small; eauto | exact Hi].
Qed.

Lemma parse_all_content_small : forall l cs, Forall image_small l -> parse_all parse_content l = Some cs ->
  Forall small_content cs.
Proof.
  induction l as [|r t IH]; intros cs Hi H; cbn in H.
  - inversion H. constructor.
  - inversion Hi; subst.
    destruct (parse_content r) as [c|] eqn:E1; [|discriminate].
    destruct (parse_all parse_content t) as [ct|] eqn:E2; [|discriminate].
    inversion H; subst. constructor; [eapply parse_content_small; eauto | apply IH; auto].
Qed.

Definition raw_images_small (r : raw_struct) : Prop := Forall image_small (rs_content r).

Lemma parse_struct_small : forall i r s, raw_images_small r -> parse_struct i r = Some s -> small_struct s.
Proof.
  intros i r s Hi H. unfold parse_struct in H.
  destruct (parse_optp (rs_offset r)); [|discriminate].
  destruct (parse_opt0 (rs_size r)) as [sz|] eqn:E2; [|discriminate].
  destruct (parse_opt0 (rs_min r)); [|discriminate].
  destruct (parse_ow (rs_ow r)); [|discriminate].
  destruct (parse_all parse_content (rs_content r)) as [cs|] eqn:E5; [|discriminate].
  inversion H; subst; clear H. split; cbn; [eapply parse_opt0_small; eauto | eapply parse_all_content_small; eauto].
Qed.

Lemma parse_structs_small : forall l i ss, Forall raw_images_small l -> parse_structs i l = Some ss ->
  Forall small_struct ss.
Proof.
  induction l as [|r t IH]; intros i ss Hi H; cbn in H.
  - inversion H. constructor.
  - inversion Hi; subst.
    destruct (parse_struct i r) as [s|] eqn:E1; [|discriminate].
    destruct (parse_structs (i + 1) t) as [st|] eqn:E2; [|discriminate].
    inversion H; subst. constructor; [eapply parse_struct_small; eauto | eapply IH; eauto].
Qed.

Lemma set_implicit_small : forall p l prev, Forall small_struct l -> Forall small_struct (set_implicit p prev l).
Proof.
  intros p l. induction l as [|s r IH]; intros prev H; cbn [set_implicit]; [constructor|].
  inversion H as [|x xs Hx Hxs]; subst. constructor; [|apply IH; exact Hxs].
  destruct (s_min s =? 0); exact Hx.
Qed.

Lemma group_forall : forall (P : structure -> Prop) l, Forall P l -> Forall (Forall P) (group l).
Proof.
  intros P l. induction l as [|s r IH]; intro H; cbn [group]; [constructor|].
  inversion H as [|x xs Hx Hxs]; subst. specialize (IH Hxs).
  destruct (group r) as [|b bs]; [repeat constructor; exact Hx|].
  inversion IH as [|y ys Hb Hbs]; subst.
  destruct b as [|h t]; [constructor; [repeat constructor; exact Hx | exact Hbs]|].
  destruct (no_offset h); repeat (constructor; auto).
Qed.

Lemma insert_block_forall : forall (P : list structure -> Prop) x l, P x -> Forall P l -> Forall P (insert_block x l).
Proof.
  intros P x l Hx. induction l as [|y r IH]; intro H; cbn [insert_block]; [constructor; auto|].
  inversion H; subst. destruct (block_key x <? block_key y); constructor; auto.
Qed.

Lemma order_by_offset_forall : forall (P : structure -> Prop) l, Forall P l -> Forall P (order_by_offset l).
Proof.
  intros P l H. unfold order_by_offset, sort_blocks. apply Forall_concat.
  apply fold_insert_forall; [apply insert_block_forall | apply group_forall; exact H | constructor].
Qed.

Lemma accept_small : forall v l, Forall raw_images_small (rv_structs v) -> accept v = Some l -> Forall small_struct l.
Proof.
  intros v l Hi H. destruct (accept_inv v l H) as (ss & E & H'). apply accept_parsed_inv in H' as [-> _].
  apply order_by_offset_forall. apply set_implicit_small. eapply parse_structs_small; eauto.
Qed.

Theorem accepted_content_inside : forall v l lay,
  Forall raw_images_small (rv_structs v) -> accept v = Some l -> Forall fits (on_disk l) ->
  layout_all l (on_disk l) = Some lay ->
  Forall2 (fun p cs => Forall (within (fst p) (snd p)) cs /\ StronglySorted before cs) (on_disk l) lay.
Proof.
  intros v l lay Hi Ha Hf Hl. eapply layout_all_inside; eauto.
  - unfold on_disk. exact (proj1 (on_disk_from_spec l 0)).
  - eapply accept_small; eauto.
Qed.

Definition xg : Z := 8589934591%Z.    (* 8589934591G = 2^63 - 2^30 is the largest G quantity the parser accepts *)

Definition wrap_witness : raw_volume :=
  RV false [ RS (Some (Q xg UG)) (Some (Q xg UG)) (Some (Q 1 UM)) false true None [];
             RS None (Some (Q 4 UG)) None false true None [];
             RS (Some (Q 8796093021185 UM)) (Some (Q 1 UM)) None false true None [] ].

Lemma wrap_witness_accepted_overlapping :
  exists l, accept wrap_witness = Some l /\ disjoint_incr (on_disk l) = false /\
    exists a b, In a (on_disk l) /\ In b (on_disk l) /\ fst a < fst b /\ fst b + snd b < fst a + snd a.
Proof.
  eexists. split; [vm_compute; reflexivity|]. split; [vm_compute; reflexivity|].
  exists (9223372035781033984, 9223372035781033984), (9223372035782082560, 1048576).
  vm_compute. repeat split; auto.
Qed.

(* the int64 product of number and unit wraps: 17179869185G is read as 1G, 17179869184G as 0 *)
Lemma parse_wrap_witness :
  parse_qty (Q 17179869185 UG) = Some 1073741824 /\ parse_qty (Q 17179869184 UG) = Some 0 /\
  parse_qty (Q (-17179869183) UG) = Some 1073741824.
Proof. vm_compute. auto. Qed.

Definition layout_end (d : list (N * N)) : N := let p := last d (0, 0) in fst p + snd p.

Lemma in_last : forall (A : Type) (a : A) l d, In (last (a :: l) d) (a :: l).
Proof. intros A a l d. revert a. induction l as [|c r IH]; intro a; [now left | right; exact (IH c)]. Qed.

Lemma sorted_inside_volume : forall d, StronglySorted before d -> Forall (fun p => fst p + snd p <= layout_end d) d.
Proof.
  induction d as [|a l IH]; intro H; [constructor|].
  inversion H as [|x xs Hs Hf]; subst. specialize (IH Hs).
  destruct l as [|b l'].
  - constructor; [unfold layout_end; cbn; lia | constructor].
  - change (layout_end (a :: b :: l')) with (layout_end (b :: l')). constructor; [|exact IH].
    rewrite Forall_forall in Hf. specialize (Hf _ (in_last _ b l' (0, 0))). unfold before in Hf. unfold layout_end. lia.
Qed.

Theorem accepted_inside_volume : forall (v : raw_volume) (l : list structure),
  accept v = Some l -> Forall fits (on_disk l) ->
  Forall (fun p => fst p + snd p <= layout_end (on_disk l)) (on_disk l) /\ (on_disk l <> [] -> layout_end (on_disk l) < W).
Proof.
  intros v l H Hf. split; [apply sorted_inside_volume; eapply accepted_disjoint; eauto|].
  destruct (on_disk l) as [|a d]; [contradiction|]. intros _.
  rewrite Forall_forall in Hf. exact (Hf _ (in_last _ a d (0, 0))).
Qed.

Lemma validate_cross_ow : forall f vs l prev, validate_cross_from f vs prev l = true ->
  Forall (fun s => validate_ow s f vs = true) l.
Proof.
  intros f vs l. induction l as [|s r IH]; intros prev H; [constructor|].
  destruct (validate_cross_from_cons _ _ _ _ _ H) as (_ & How & _ & H'). constructor; [exact How | eapply IH; exact H'].
Qed.

(* spelled out: a pointer of 4 bytes written at off lies inside the min-size of the first structure, which is at offset 0
   (relative form, naming the first structure), or inside the minimal volume (absolute form) *)
Definition ow_inside (first : structure) (vol_size : N) (s : structure) : Prop :=
  match s_ow s with
  | None => True
  | Some (Some rel, off) => rel = s_idx first /\ s_offset first = Some 0 /\ (off + 4) mod W <= s_min first
  | Some (None, off) => (off + 4) mod W <= vol_size
  end.

Theorem accepted_offset_write_inside : forall (v : raw_volume) (l : list structure) (first : structure) (r : list structure),
  accept v = Some l -> l = first :: r -> Forall (ow_inside first (vol_min_size l)) l.
Proof.
  intros v l first r H E. destruct (accept_valid _ _ H) as [_ Hc]. subst l.
  unfold validate_cross in Hc. pose proof (validate_cross_ow _ _ _ _ Hc) as Hall.
  eapply Forall_impl; [|exact Hall]. intros s Hs. unfold validate_ow in Hs. unfold ow_inside.
  destruct (s_ow s) as [[[rel|] off]|]; [| |exact I].
  - apply andb_prop in Hs. destruct Hs as [Hs H3]. apply andb_prop in Hs. destruct Hs as [H1 H2].
    split; [lia|]. split; [destruct (s_offset first) as [[|o]|]; try discriminate; reflexivity|].
    unfold add64, lba48 in H3. lia.
  - unfold add64, lba48 in Hs. lia.
Qed.
