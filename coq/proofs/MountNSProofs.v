(* C28 (planning part): proofs about models/MountNS.v.
   The change list is [unmount_part] (one Keep or Unmount per current entry) followed by Mounts in [mount_order];
   [keep_iff] and [mount_iff] say what is in it, and the theorems about presence and order are read off them.
   Both Less functions of sorting.go are "rank, then trailing-slash key" ([by_rank]); on keys, beneath = proper prefix. *)
From Coq Require Import List NArith ZArith Bool Lia ZifyBool Permutation.
Import ListNotations.
Require Import V.lib.Bytes V.proofs.BytesFacts V.proofs.ListFacts V.models.MountEntry V.models.MountNS.
Open Scope N_scope.

Lemma opts_eqb_eq : forall a b, opts_eqb a b = true <-> a = b.
Proof.
  induction a as [|x a IH]; destruct b as [|y b]; cbn [opts_eqb]; try (split; congruence).
  rewrite andb_true_iff, beq_true_iff, IH. split; [intros [-> ->]; reflexivity | intro H; injection H; auto].
Qed.

Lemma entry_eqb_eq : forall a b, entry_eqb a b = true <-> a = b.
Proof.
  intros [n1 d1 t1 o1 f1 p1] [n2 d2 t2 o2 f2 p2]. unfold entry_eqb. cbn [e_name e_dir e_type e_opts e_freq e_pass].
  rewrite !andb_true_iff, !beq_true_iff, opts_eqb_eq, !Z.eqb_eq. split.
  - intros [[[[[-> ->] ->] ->] ->] ->]. reflexivity.
  - intro H. injection H. auto 6.
Qed.

Lemma entry_eqb_refl : forall e, entry_eqb e e = true.
Proof. intro e. apply entry_eqb_eq. reflexivity. Qed.

Lemma id_eqb_eq : forall a b, id_eqb a b = true <-> a = b.
Proof.
  intros [a1 a2] [b1 b2]. unfold id_eqb. cbn [fst snd]. rewrite andb_true_iff, !beq_true_iff.
  split; [intros [-> ->]; reflexivity | intro H; injection H; auto].
Qed.

Lemma id_mem_In : forall i l, id_mem i l = true <-> In i l.
Proof. exact (existsb_eqb_In id_eqb id_eqb_eq). Qed.

Lemma mem_In : forall x l, mem x l = true <-> In x l.
Proof. exact (existsb_eqb_In beq beq_true_iff). Qed.

Lemma existsb_entry_In : forall x l, existsb (entry_eqb x) l = true <-> In x l.
Proof. exact (existsb_eqb_In entry_eqb entry_eqb_eq). Qed.

Definition precedes {A : Type} (a b : A) (l : list A) : Prop := exists l1 l2 l3, l = l1 ++ a :: l2 ++ b :: l3.

Lemma precedes_map : forall {A B} (f : A -> B) a b l, precedes a b l -> precedes (f a) (f b) (map f l).
Proof.
  intros A B f a b l (l1 & l2 & l3 & ->). exists (map f l1), (map f l2), (map f l3).
  rewrite map_app. cbn [map]. rewrite map_app. reflexivity.
Qed.

Lemma precedes_app_r : forall {A} (a b : A) l r, precedes a b r -> precedes a b (l ++ r).
Proof.
  intros A a b l r (l1 & l2 & l3 & ->). exists (l ++ l1), l2, l3. rewrite <- !app_assoc. reflexivity.
Qed.

Lemma precedes_app_l : forall {A} (a b : A) l r, precedes a b l -> precedes a b (l ++ r).
Proof.
  intros A a b l r (l1 & l2 & l3 & ->). exists l1, l2, (l3 ++ r).
  repeat rewrite <- app_assoc. cbn [app]. repeat rewrite <- app_assoc. reflexivity.
Qed.

Lemma precedes_across : forall {A} (a b : A) l r, In a l -> In b r -> precedes a b (l ++ r).
Proof.
  intros A a b l r Ha Hb. apply in_split in Ha as (l1 & l2 & ->). apply in_split in Hb as (r1 & r2 & ->).
  exists l1, (l2 ++ r1), r2. repeat rewrite <- app_assoc. cbn [app]. repeat rewrite <- app_assoc. reflexivity.
Qed.

Lemma precedes_rev : forall {A} (a b : A) l, precedes a b l -> precedes b a (rev l).
Proof.
  intros A a b l (l1 & l2 & l3 & ->). exists (rev l3), (rev l2), (rev l1).
  rewrite rev_app_distr. cbn [rev]. rewrite rev_app_distr. cbn [rev]. rewrite <- !app_assoc. reflexivity.
Qed.

Lemma precedes_filter : forall {A} (p : A -> bool) (a b : A) l,
  precedes a b l -> p a = true -> p b = true -> precedes a b (filter p l).
Proof.
  intros A p a b l (l1 & l2 & l3 & ->) Ha Hb. exists (filter p l1), (filter p l2), (filter p l3).
  rewrite filter_app. cbn [filter]. rewrite Ha. rewrite filter_app. cbn [filter]. rewrite Hb. reflexivity.
Qed.

Lemma precedes_concat_in : forall {A} (gs : list (list A)) g a b, In g gs -> precedes a b g -> precedes a b (concat gs).
Proof.
  intros A gs g a b Hg P. apply in_split in Hg as (g1 & g2 & ->).
  rewrite concat_app. cbn [concat]. apply precedes_app_r, precedes_app_l. exact P.
Qed.

Lemma precedes_concat_groups : forall {A} (gs : list (list A)) g1 g2 a b,
  precedes g1 g2 gs -> In a g1 -> In b g2 -> precedes a b (concat gs).
Proof.
  intros A gs g1 g2 a b (l1 & l2 & l3 & ->) Ha Hb.
  rewrite concat_app. cbn [concat]. apply precedes_app_r.
  rewrite concat_app. cbn [concat].
  apply precedes_across; [exact Ha|]. apply in_or_app. right. apply in_or_app. left. exact Hb.
Qed.

Lemma precedes_total : forall {A} (l : list A) a b, In a l -> In b l -> a = b \/ precedes a b l \/ precedes b a l.
Proof.
  induction l as [|y r IH]; intros a b Ha Hb; [destruct Ha|].
  destruct Ha as [-> | Ha]; destruct Hb as [-> | Hb].
  - left. reflexivity.
  - right. left. apply (precedes_across a b [a]); [left; reflexivity | exact Hb].
  - right. right. apply (precedes_across b a [b]); [left; reflexivity | exact Ha].
  - destruct (IH a b Ha Hb) as [E | [P | P]]; [left; exact E | right; left | right; right];
      apply (precedes_app_r _ _ [y]), P.
Qed.

Definition strict_weak {A : Type} (lt : A -> A -> bool) : Prop :=
  (forall a b, lt a b = true -> lt b a = false) /\ (forall a b c, lt a b = false -> lt b c = false -> lt a c = false).

Section Sort.
  Context {A : Type} (lt : A -> A -> bool).

  Lemma ins_rev_perm : forall x racc, Permutation (ins_rev lt x racc) (x :: racc).
  Proof.
    induction racc as [|y r IH]; cbn [ins_rev]; [apply Permutation_refl|].
    destruct (lt x y); [|apply Permutation_refl]. rewrite IH. apply perm_swap.
  Qed.

  Lemma fold_ins_perm : forall l racc, Permutation (fold_left (fun racc x => ins_rev lt x racc) l racc) (l ++ racc).
  Proof.
    induction l as [|x l IH]; intro racc; cbn [fold_left app]; [apply Permutation_refl|].
    rewrite IH, ins_rev_perm. symmetry. apply Permutation_middle.
  Qed.

  Lemma isort_perm : forall l, Permutation (isort lt l) l.
  Proof.
    intro l. unfold isort. rewrite <- Permutation_rev, fold_ins_perm, app_nil_r. reflexivity.
  Qed.

  Lemma isort_In : forall l x, In x (isort lt l) <-> In x l.
  Proof. intros l x. rewrite isort_perm. reflexivity. Qed.

  Hypothesis sw : strict_weak lt.

  (* the accumulator of the sort is descending: nothing is less than anything after it *)
  Fixpoint desc (l : list A) : Prop :=
    match l with [] => True | y :: r => Forall (fun z => lt y z = false) r /\ desc r end.

  Lemma ins_rev_desc : forall x racc, desc racc -> desc (ins_rev lt x racc).
  Proof.
    induction racc as [|y r IH]; intros D; cbn [ins_rev]; [cbn; auto|].
    destruct D as [F D]. destruct (lt x y) eqn:E.
    - cbn [desc]. split; [|apply IH; exact D].
      rewrite ins_rev_perm. constructor; [apply (proj1 sw); exact E | exact F].
    - cbn [desc]. split; [|split; assumption].
      constructor; [exact E|]. rewrite Forall_forall in *. intros z Hz. eapply (proj2 sw); [exact E | apply F; exact Hz].
  Qed.

  Lemma fold_ins_desc : forall l racc, desc racc -> desc (fold_left (fun racc x => ins_rev lt x racc) l racc).
  Proof. induction l as [|x l IH]; intros racc D; cbn [fold_left]; [exact D | apply IH, ins_rev_desc, D]. Qed.

  Lemma desc_precedes : forall l a b, desc l -> precedes a b l -> lt a b = false.
  Proof.
    induction l as [|y r IH]; intros a b D (l1 & l2 & l3 & E).
    - destruct l1; discriminate.
    - destruct D as [F D]. destruct l1 as [|z l1]; cbn [app] in E; injection E as -> ->.
      + rewrite Forall_forall in F. apply F. apply in_or_app. right. left. reflexivity.
      + apply IH; [exact D|]. exists l1, l2, l3. reflexivity.
  Qed.

  Lemma isort_sorted : forall l a b, precedes a b (isort lt l) -> lt b a = false.
  Proof.
    intros l a b H. unfold isort in H. apply precedes_rev in H. rewrite rev_involutive in H.
    eapply desc_precedes; [exact (fold_ins_desc l [] I) | exact H].
  Qed.

  Theorem isort_precedes : forall l a b, In a l -> In b l -> lt a b = true -> precedes a b (isort lt l).
  Proof.
    intros l a b Ha Hb E.
    destruct (precedes_total (isort lt l) a b) as [<- | [P | P]]; try (apply isort_In; assumption).
    - rewrite (proj1 sw _ _ E) in E. discriminate.
    - exact P.
    - rewrite (isort_sorted _ _ _ P) in E. discriminate.
  Qed.
End Sort.

Lemma blt_irrefl : forall a, blt a a = false.
Proof. induction a as [|x a IH]; [reflexivity|]. cbn [blt]. rewrite N.ltb_irrefl. exact IH. Qed.

(* blt on two non-empty strings and both Less functions of sorting.go compare a number first and something else on a tie *)
Definition lex (m n : N) (tie : bool) : bool := (m <? n) || ((m =? n) && tie).

Lemma lex_asym : forall m n p q, (p = true -> q = false) -> lex m n p = true -> lex n m q = false.
Proof. unfold lex. intros. lia. Qed.

Lemma lex_negtrans : forall m n o p q r, (p = false -> q = false -> r = false) ->
  lex m n p = false -> lex n o q = false -> lex m o r = false.
Proof. unfold lex. intros. lia. Qed.

Lemma blt_cons : forall x a y b, blt (x :: a) (y :: b) = lex x y (blt a b).
Proof. intros. unfold lex. cbn [blt]. destruct (x <? y) eqn:E1, (y <? x) eqn:E2; lia. Qed.

Lemma blt_strict_weak : strict_weak blt.
Proof.
  split.
  - induction a as [|x a IH]; intros [|y b]; try (cbn; congruence). rewrite !blt_cons. apply lex_asym, IH.
  - induction a as [|x a IH]; intros [|y b] [|z c]; try (cbn; congruence). rewrite !blt_cons. apply lex_negtrans, IH.
Qed.

Lemma blt_prefix : forall a r, r <> [] -> blt a (a ++ r) = true.
Proof.
  induction a as [|x a IH]; intros r Hr; cbn [app blt].
  - destruct r; [congruence | reflexivity].
  - rewrite N.ltb_irrefl. apply IH, Hr.
Qed.

Lemma blt_interval_prefix : forall P x r, blt x P = false -> blt (P ++ r) x = false -> has_prefix P x = true.
Proof.
  induction P as [|a P IH]; intros x r H1 H2; [reflexivity|].
  destruct x as [|b x]; [discriminate|]. cbn [app has_prefix] in *. rewrite blt_cons in H1, H2. unfold lex in H1, H2.
  assert (a =? b = true) as -> by lia. apply (IH x r); lia.
Qed.

Definition by_rank (rk : entry -> N) (a b : entry) : bool := lex (rk a) (rk b) (dir_lt a b).

Lemma by_rank_same : forall rk a b, rk a = rk b -> by_rank rk a b = dir_lt a b.
Proof. intros rk a b E. unfold by_rank, lex. rewrite E, N.ltb_irrefl, N.eqb_refl. reflexivity. Qed.

Lemma by_rank_strict_weak : forall rk, strict_weak (by_rank rk).
Proof.
  intro rk. split.
  - intros a b. apply lex_asym, blt_strict_weak.
  - intros a b c. apply lex_negtrans, blt_strict_weak.
Qed.

Lemma origin_tests_differ : forall a b s, beq (x_origin a) (x_origin b) = false ->
  beq (x_origin a) s = true -> beq (x_origin b) s = true -> False.
Proof. intros a b s E Ha Hb. apply beq_eq in Ha, Hb. rewrite Ha, Hb, beq_refl in E. discriminate. Qed.

Lemma overname_not_layout : forall e, is_overname e = true -> is_layout e = false.
Proof.
  intros e H. unfold is_overname, is_layout in *. apply beq_eq in H. rewrite H. reflexivity.
Qed.

(* byOvernameAndMountPoint: overname entries first *)
Definition rank_overname (e : entry) : N := if is_overname e then 0 else 1.

Lemma less_overname_rank : forall a b, less_overname a b = by_rank rank_overname a b.
Proof.
  intros a b. unfold less_overname, by_rank, lex, rank_overname.
  destruct (beq (x_origin a) (x_origin b)) eqn:E; cbn [negb].
  - apply beq_eq in E. unfold is_overname. rewrite E. destruct (beq (x_origin b) s_overname); reflexivity.
  - pose proof (origin_tests_differ a b s_overname E) as D. unfold is_overname.
    destruct (beq (x_origin a) s_overname), (beq (x_origin b) s_overname); try reflexivity. destruct (D eq_refl eq_refl).
Qed.

(* byOriginAndMountPoint: overname entries first, layout entries last *)
Definition rank_origin (e : entry) : N := if is_overname e then 0 else if is_layout e then 2 else 1.

Lemma less_origin_rank : forall a b, less_origin a b = by_rank rank_origin a b.
Proof.
  intros a b. unfold less_origin, by_rank, lex, rank_origin.
  destruct (beq (x_origin a) (x_origin b)) eqn:E; cbn [negb].
  - apply beq_eq in E. unfold is_overname, is_layout. rewrite E.
    destruct (beq (x_origin b) s_overname); [reflexivity|]. destruct (beq (x_origin b) s_layout); reflexivity.
  - pose proof (origin_tests_differ a b s_overname E) as Do. pose proof (origin_tests_differ a b s_layout E) as Dl.
    unfold is_overname, is_layout.
    destruct (beq (x_origin a) s_overname), (beq (x_origin b) s_overname); try destruct (Do eq_refl eq_refl);
      destruct (beq (x_origin a) s_layout), (beq (x_origin b) s_layout); try reflexivity; destruct (Dl eq_refl eq_refl).
Qed.

Lemma less_overname_strict_weak : strict_weak less_overname.
Proof. split; intros *; rewrite !less_overname_rank; apply by_rank_strict_weak. Qed.

Lemma less_origin_strict_weak : strict_weak less_origin.
Proof. split; intros *; rewrite !less_origin_rank; apply by_rank_strict_weak. Qed.

Lemma has_suffix_slash_split : forall d, has_suffix_slash d = true -> exists X, d = X ++ [slash].
Proof.
  intro d. unfold has_suffix_slash. destruct (rev d) as [|c r] eqn:E; [discriminate|]. intro C.
  apply N.eqb_eq in C. subst c. exists (rev r). rewrite <- (rev_involutive d), E. reflexivity.
Qed.

Lemma with_slash_shape : forall d, exists X, with_slash d = X ++ [slash] /\ (d = X \/ d = X ++ [slash]).
Proof.
  intro d. unfold with_slash. destruct (has_suffix_slash d) eqn:S; [|exists d; auto].
  destruct (has_suffix_slash_split d S) as (X & ->). exists X. auto.
Qed.

(* the two ways the Go code writes "directory plus one slash" agree *)
Lemma with_slash_skip : forall d, with_slash d = skip_prefix_of d.
Proof.
  intro d. unfold with_slash, skip_prefix_of. destruct (has_suffix_slash d) eqn:S; [|reflexivity].
  destruct (has_suffix_slash_split d S) as (X & ->). rewrite removelast_last. reflexivity.
Qed.

Lemma has_prefix_trans : forall a b c, has_prefix a b = true -> has_prefix b c = true -> has_prefix a c = true.
Proof.
  intros a b c H1 H2. apply has_prefix_split in H1 as (r1 & ->). apply has_prefix_split in H2 as (r2 & ->).
  rewrite <- app_assoc. apply has_prefix_app.
Qed.

Lemma dir_prefix_of_key : forall d, has_prefix d (with_slash d) = true.
Proof.
  intro d. destruct (with_slash_shape d) as (X & -> & [-> | ->]); [apply has_prefix_app|].
  rewrite <- (app_nil_r (X ++ [slash])) at 2. apply has_prefix_app.
Qed.

Lemma beneath_key_extends : forall c p, beneath c p = true -> exists r, sort_key c = sort_key p ++ r.
Proof.
  intros c p B. unfold beneath in B. rewrite <- with_slash_skip in B. apply has_prefix_split in B as (r & E).
  unfold sort_key. unfold with_slash at 1. rewrite E.
  destruct (has_suffix_slash _); [exists r; reflexivity | exists (r ++ [slash]); apply app_assoc_reverse].
Qed.

Lemma key_extends_beneath : forall x p,
  has_prefix (sort_key p) (sort_key x) = true -> sort_key p <> sort_key x -> beneath x p = true.
Proof.
  intros x p H Hne. unfold beneath. rewrite <- with_slash_skip. unfold sort_key in *.
  destruct (with_slash_shape (e_dir p)) as (P & EP & _). destruct (with_slash_shape (e_dir x)) as (X & E & [-> | ->]).
  - rewrite E, EP in *. apply has_prefix_split in H as (r & Hr).
    destruct (exists_last (l := r)) as (r' & z & ->).
    { intro; subst r. rewrite app_nil_r in Hr. congruence. }
    rewrite app_assoc in Hr. apply app_inj_tail in Hr as [-> _]. apply has_prefix_app.
  - rewrite E in H. exact H.
Qed.

(* the reason for sorting by directory plus slash: an entry sorts strictly before everything beneath it *)
Theorem beneath_dir_lt : forall c p,
  beneath c p = true -> with_slash (e_dir p) <> with_slash (e_dir c) -> dir_lt p c = true.
Proof.
  intros c p B Hne. destruct (beneath_key_extends c p B) as (r & E). unfold dir_lt. unfold sort_key in E. rewrite E.
  apply blt_prefix. intros ->. rewrite app_nil_r in E. congruence.
Qed.

Lemma parent_less : forall m1 m2,
  x_origin m1 = x_origin m2 -> beneath m2 m1 = true -> with_slash (e_dir m1) <> with_slash (e_dir m2) -> less_origin m1 m2 = true.
Proof.
  intros m1 m2 E B Hne. rewrite less_origin_rank, by_rank_same; [exact (beneath_dir_lt m2 m1 B Hne)|].
  unfold rank_origin, is_overname, is_layout. rewrite E. reflexivity.
Qed.

Lemma between_beneath : forall rk l1 p l2 c l3 x,
  (forall a b, precedes a b (l1 ++ p :: l2 ++ c :: l3) -> by_rank rk b a = false) ->
  NoDup (map sort_key (l1 ++ p :: l2 ++ c :: l3)) ->
  rk p = rk c -> beneath c p = true -> In x l2 -> beneath x p = true.
Proof.
  intros rk l1 p l2 c l3 x Hs ND Erk B Hx.
  assert (P1 : by_rank rk x p = false).
  { apply Hs, precedes_app_r, (precedes_across p x [p]); [left; reflexivity | apply in_or_app; left; exact Hx]. }
  assert (P2 : by_rank rk c x = false).
  { apply Hs, precedes_app_r, (precedes_across x c (p :: l2) (c :: l3)); [right; exact Hx | left; reflexivity]. }
  (* x has the rank of p and c, so its key lies between theirs *)
  unfold by_rank, lex in P1, P2. assert (A2 : dir_lt x p = false) by lia. assert (B2 : dir_lt c x = false) by lia.
  unfold dir_lt in A2, B2.
  destruct (beneath_key_extends c p B) as (r & Kc). unfold sort_key in Kc. rewrite Kc in B2.
  apply key_extends_beneath; [exact (blt_interval_prefix _ _ _ A2 B2)|].
  (* p and x sit at different places of a list without duplicate keys *)
  intro Ek. rewrite map_app in ND. cbn [map] in ND. apply NoDup_remove_2 in ND. apply ND.
  apply in_or_app. right. rewrite Ek. apply in_map, in_or_app. left. exact Hx.
Qed.

Lemma reuse_scan_marks : forall des ids l skip c,
  In c l -> reusable des ids c = true ->
  (forall p, In p l -> reusable des ids p = false -> beneath c p = false) ->
  (skip = [] \/ has_prefix skip (e_dir c) = false) ->
  In (id_of c) (reuse_scan des ids skip l).
Proof.
  induction l as [|x l IH]; intros skip c Hin Hr Hb Hs; [destruct Hin|].
  assert (Hb' : forall p, In p l -> reusable des ids p = false -> beneath c p = false) by (intros p Hp; apply Hb; right; exact Hp).
  cbn [reuse_scan]. destruct Hin as [-> | Hin].
  - assert (negb (is_nil_b skip) && has_prefix skip (e_dir c) = false) as ->.
    { destruct Hs as [-> | ->]; [reflexivity | apply andb_false_r]. }
    rewrite Hr. left. reflexivity.
  - destruct (negb (is_nil_b skip) && has_prefix skip (e_dir x)); [apply IH; auto|].
    destruct (reusable des ids x) eqn:E2; [right|]; apply IH; auto.
    right. apply (Hb x); [left; reflexivity | exact E2].
Qed.

Lemma reuse_scan_sound : forall des ids l skip i,
  In i (reuse_scan des ids skip l) -> exists c, In c l /\ id_of c = i /\ reusable des ids c = true.
Proof.
  induction l as [|x l IH]; intros skip i H; [destruct H|].
  assert (IH' : forall s, In i (reuse_scan des ids s l) -> exists c, In c (x :: l) /\ id_of c = i /\ reusable des ids c = true).
  { intros s Hs. destruct (IH _ _ Hs) as (c & Hc & E). exists c. split; [right; exact Hc | exact E]. }
  cbn [reuse_scan] in H.
  destruct (negb (is_nil_b skip) && has_prefix skip (e_dir x)); [eapply IH', H|].
  destruct (reusable des ids x) eqn:E2; [|eapply IH', H].
  destruct H as [<- | H]; [exists x; auto with datatypes | eapply IH', H].
Qed.

Lemma scan_ids : forall des ids l skip i, In i (reuse_scan des ids skip l) -> In i (map id_of l).
Proof. intros des ids l skip i H. apply reuse_scan_sound in H as (c & Hc & <- & _). apply in_map. exact Hc. Qed.

(* the value of skipDir after the scan of a prefix of the list *)
Fixpoint skip_after (des : list entry) (ids : list bytes) (skip : bytes) (l : list entry) : bytes :=
  match l with
  | [] => skip
  | c :: r =>
      if negb (is_nil_b skip) && has_prefix skip (e_dir c) then skip_after des ids skip r
      else if reusable des ids c then skip_after des ids [] r
      else skip_after des ids (skip_prefix_of (e_dir c)) r
  end.

Lemma reuse_scan_app : forall des ids a b skip,
  reuse_scan des ids skip (a ++ b) = reuse_scan des ids skip a ++ reuse_scan des ids (skip_after des ids skip a) b.
Proof.
  induction a as [|x a IH]; intros b skip; [reflexivity|]. cbn [app reuse_scan skip_after].
  destruct (negb (is_nil_b skip) && has_prefix skip (e_dir x)); [apply IH|].
  destruct (reusable des ids x); [cbn [app]; rewrite IH; reflexivity | apply IH].
Qed.

Lemma scan_skip_run : forall des ids l2 rest skip, is_nil_b skip = false ->
  (forall x, In x l2 -> has_prefix skip (e_dir x) = true) ->
  reuse_scan des ids skip (l2 ++ rest) = reuse_scan des ids skip rest.
Proof.
  induction l2 as [|x l2 IH]; intros rest skip Hs H; [reflexivity|]. cbn [app reuse_scan].
  rewrite Hs, (H x (or_introl eq_refl)). cbn [negb andb]. apply IH; [exact Hs|]. intros y Hy. apply H. right. exact Hy.
Qed.

Lemma skip_prefix_nonnil : forall d, is_nil_b (skip_prefix_of d) = false.
Proof. intro d. unfold skip_prefix_of. destruct (if has_suffix_slash d then removelast d else d); reflexivity. Qed.

Lemma scan_no_mark_beneath : forall des ids l1 p l2 c l3 skip0,
  NoDup (map id_of (l1 ++ p :: l2 ++ c :: l3)) ->
  (forall x, In x l2 -> has_prefix (skip_prefix_of (e_dir p)) (e_dir x) = true) ->
  has_prefix (skip_prefix_of (e_dir p)) (e_dir c) = true ->
  ~ In (id_of p) (reuse_scan des ids skip0 (l1 ++ p :: l2 ++ c :: l3)) ->
  ~ In (id_of c) (reuse_scan des ids skip0 (l1 ++ p :: l2 ++ c :: l3)).
Proof.
  intros des ids l1 p l2 c l3 skip0 ND H2 Hc Hp Hin.
  assert (Hc' : ~ In (id_of c) (map id_of (l1 ++ p :: l2) ++ map id_of l3)).
  { apply NoDup_remove_2. rewrite <- (map_cons id_of), <- map_app, <- app_assoc. exact ND. }
  (* under a skipDir that covers everything beneath p, the scan passes over l2 and c *)
  assert (Hskip : forall s, is_nil_b s = false ->
            (forall d, has_prefix (skip_prefix_of (e_dir p)) d = true -> has_prefix s d = true) ->
            ~ In (id_of c) (reuse_scan des ids s (l2 ++ c :: l3))).
  { intros s Hs T Hi. replace (l2 ++ c :: l3) with ((l2 ++ [c]) ++ l3) in Hi by (rewrite <- app_assoc; reflexivity).
    rewrite scan_skip_run in Hi; [apply scan_ids in Hi; apply Hc', in_or_app; right; exact Hi | exact Hs |].
    intros x Hx. apply T. apply in_app_or in Hx as [Hx | [<- | []]]; auto. }
  rewrite reuse_scan_app in Hp, Hin. apply in_app_or in Hin as [Hin | Hin].
  - apply scan_ids in Hin. apply Hc', in_or_app. left. rewrite map_app. apply in_or_app. left. exact Hin.
  - set (s1 := skip_after des ids skip0 l1) in *. cbn [reuse_scan] in Hin, Hp.
    destruct (negb (is_nil_b s1) && has_prefix s1 (e_dir p)) eqn:E1.
    + (* p is skipped: the skipDir in force is a prefix of its directory *)
      apply andb_true_iff in E1 as [N1 P1]. apply negb_true_iff in N1. revert Hin. apply Hskip; [exact N1|].
      intros d Hd. eapply has_prefix_trans; [|exact Hd]. eapply has_prefix_trans; [exact P1|].
      rewrite <- with_slash_skip. apply dir_prefix_of_key.
    + destruct (reusable des ids p).
      * apply Hp, in_or_app. right. left. reflexivity.
      * revert Hin. apply Hskip; [apply skip_prefix_nonnil | auto].
Qed.

Lemma nodup_b_In : forall l x, In x (nodup_b l) <-> In x l.
Proof.
  induction l as [|y l IH]; intro x; [reflexivity|]. cbn [nodup_b].
  destruct (mem y l) eqn:E; [|cbn [In]; rewrite IH; reflexivity].
  rewrite IH. split; [auto with datatypes|]. intros [-> | H]; [apply mem_In; exact E | exact H].
Qed.

Lemma filter_disjoint_or : forall {A} (p q : A -> bool) l, (forall x, In x l -> p x = true -> q x = false) ->
  Permutation (filter p l ++ filter q l) (filter (fun x => p x || q x) l).
Proof.
  intros A p q l. induction l as [|x l IH]; intros H; [apply Permutation_refl|]. cbn [filter].
  assert (IH' := IH (fun y Hy => H y (or_intror Hy))).
  destruct (p x) eqn:P.
  - rewrite (H x (or_introl eq_refl) P). cbn [orb app]. apply perm_skip, IH'.
  - cbn [orb]. destruct (q x); [|exact IH'].
    rewrite <- Permutation_middle. apply perm_skip, IH'.
Qed.

Lemma filter_partition_perm : forall {A} (p : A -> bool) l, Permutation l (filter p l ++ filter (fun x => negb (p x)) l).
Proof.
  intros A p l. rewrite filter_disjoint_or by (intros x _ ->; reflexivity).
  rewrite filter_all; [reflexivity | intros x _; apply orb_negb_r].
Qed.

Lemma group_concat_perm : forall (key : entry -> bytes) l keys, NoDup keys ->
  Permutation (concat (map (fun d => filter (fun e => beq (key e) d) l) keys)) (filter (fun e => mem (key e) keys) l).
Proof.
  intros key l keys. induction keys as [|k ks IH]; intros ND.
  - cbn. induction l; [constructor | assumption].
  - inversion ND as [|? ? Hk ND']; subst. cbn [map concat].
    rewrite (IH ND'). apply filter_disjoint_or.
    intros x _ E. apply beq_eq in E. apply not_true_is_false. rewrite mem_In, E. exact Hk.
Qed.

Lemma nodup_b_NoDup : forall l, NoDup (nodup_b l).
Proof.
  induction l as [|x l IH]; [constructor|]. cbn [nodup_b]. destruct (mem x l) eqn:M; [exact IH|].
  constructor; [|exact IH]. rewrite nodup_b_In, <- mem_In, M. discriminate.
Qed.

Lemma concat_perm : forall {A B} (f g : B -> list A) keys, (forall d, Permutation (f d) (g d)) ->
  Permutation (concat (map f keys)) (concat (map g keys)).
Proof.
  intros A B f g keys H. induction keys as [|k ks IH]; [constructor|]. cbn [map concat].
  apply Permutation_app; [apply H | exact IH].
Qed.

(* what mount_order does with the entries that need a mimic: groups by key, the keys in string order, each group sorted *)
Section Groups.
  Variables (key : entry -> bytes) (l : list entry).
  Let G (d : bytes) : list entry := isort less_origin (filter (fun e => beq (key e) d) l).
  Let keys : list bytes := isort blt (nodup_b (map key l)).

  Lemma groups_perm : Permutation (concat (map G keys)) l.
  Proof.
    eapply Permutation_trans; [apply concat_perm; intro d; apply isort_perm|].
    eapply Permutation_trans; [apply group_concat_perm; unfold keys; rewrite isort_perm; apply nodup_b_NoDup|].
    rewrite filter_all; [apply Permutation_refl|]. intros x Hx. apply mem_In, isort_In, nodup_b_In, in_map, Hx.
  Qed.

  Lemma groups_sorted : forall a b, In a l -> In b l -> less_origin a b = true ->
    key a = key b \/ blt (key a) (key b) = true -> precedes a b (concat (map G keys)).
  Proof.
    intros a b Ia Ib L Hk.
    assert (HG : forall m, In m l -> In m (G (key m))).
    { intros m Hm. apply isort_In, filter_In. split; [exact Hm | apply beq_refl]. }
    assert (HD : forall m, In m l -> In (key m) (nodup_b (map key l))).
    { intros m Hm. apply nodup_b_In, in_map, Hm. }
    destruct Hk as [Hk | Hk].
    - apply (precedes_concat_in _ (G (key a))); [apply in_map, isort_In, HD, Ia|].
      apply isort_precedes; [apply less_origin_strict_weak | | | exact L]; apply filter_In.
      + split; [exact Ia | apply beq_refl].
      + split; [exact Ib | rewrite Hk; apply beq_refl].
    - apply (precedes_concat_groups _ (G (key a)) (G (key b))); auto.
      apply precedes_map, isort_precedes; [apply blt_strict_weak | | | exact Hk]; auto.
  Qed.
End Groups.

Theorem mount_order_perm : forall fs dnr, Permutation (mount_order fs dnr) dnr.
Proof.
  intros fs dnr. unfold mount_order.
  eapply Permutation_trans; [|apply Permutation_sym, (filter_partition_perm (fun e => is_overname e || exists_as fs e))].
  apply Permutation_app; [apply isort_perm|].
  rewrite (filter_ext (fun e => negb (is_overname e || exists_as fs e)) _ (fun e => negb_orb _ _)).
  apply groups_perm.
Qed.

Lemma mount_order_In : forall fs dnr x, In x (mount_order fs dnr) <-> In x dnr.
Proof. intros fs dnr x. rewrite mount_order_perm. reflexivity. Qed.

Definition is_unmount (c : change) : bool := action_eqb (fst c) Unmount.

Lemma needed_changes_shape : forall fs current desired,
  exists mounts,
    needed_changes fs current desired =
      unmount_part (reuse_of current desired) (map clean_entry current) ++ map (fun e => (Mount, e)) mounts.
Proof. intros. eexists. reflexivity. Qed.

(* the desired entries that get a Mount, before they are put into mount order *)
Definition not_reused (current desired : list entry) : list entry :=
  filter (fun e => negb (id_mem (id_of e) (reuse_of current desired))) (isort less_origin (map clean_entry desired)).

Lemma keep_iff : forall fs current desired x,
  In (Keep, x) (needed_changes fs current desired) <->
  In x (map clean_entry current) /\ In (id_of x) (reuse_of current desired).
Proof.
  intros fs current desired x. unfold needed_changes, unmount_part. rewrite in_app_iff. split.
  - intros [H | H]; apply in_map_iff in H as (e & E & He); [|discriminate].
    apply in_rev in He. destruct (id_mem (id_of e) (reuse_of current desired)) eqn:M; inversion E; subst.
    split; [exact He | apply id_mem_In, M].
  - intros [H M]. left. apply in_map_iff. exists x. apply id_mem_In in M. rewrite M.
    split; [reflexivity | apply in_rev; rewrite rev_involutive; exact H].
Qed.

Lemma mount_iff : forall fs current desired x,
  In (Mount, x) (needed_changes fs current desired) <-> In x (not_reused current desired).
Proof.
  intros fs current desired x. unfold needed_changes, unmount_part. rewrite in_app_iff. split.
  - intros [H | H]; apply in_map_iff in H as (e & E & He).
    + destruct (id_mem (id_of e) (reuse_of current desired)); discriminate.
    + inversion E; subst. apply mount_order_In in He. exact He.
  - intro H. right. apply in_map, mount_order_In, H.
Qed.

Lemma mounts_precede : forall fs current desired m1 m2,
  precedes m1 m2 (mount_order fs (not_reused current desired)) ->
  precedes (Mount, m1) (Mount, m2) (needed_changes fs current desired).
Proof. intros fs current desired m1 m2 P. apply precedes_app_r, (precedes_map (fun e => (Mount, e))), P. Qed.

Lemma unmounts_of_mounts : forall ms, unmounts_of (map (fun e => (Mount, e)) ms) = [].
Proof. induction ms as [|m ms IH]; [reflexivity|]. unfold unmounts_of in *. cbn. exact IH. Qed.

Lemma unmounts_of_app : forall a b, unmounts_of (a ++ b) = unmounts_of a ++ unmounts_of b.
Proof. intros. unfold unmounts_of. rewrite filter_app, map_app. reflexivity. Qed.

Lemma filter_rev' : forall {A} (p : A -> bool) l, filter p (rev l) = rev (filter p l).
Proof.
  intros A p l. induction l as [|x l IH]; [reflexivity|]. cbn [rev filter]. rewrite filter_app, IH. cbn [filter].
  destruct (p x); [reflexivity | apply app_nil_r].
Qed.

Lemma unmounts_of_part : forall reuse cur,
  unmounts_of (unmount_part reuse cur) = map detach_form (rev (filter (fun e => negb (id_mem (id_of e) reuse)) cur)).
Proof.
  intros reuse cur. rewrite <- filter_rev'. unfold unmount_part, unmounts_of. induction (rev cur) as [|e l IH]; [reflexivity|].
  cbn [map filter]. destruct (id_mem (id_of e) reuse); cbn; [exact IH | rewrite IH; reflexivity].
Qed.

Lemma recorded_app : forall a b, recorded (a ++ b) = recorded a ++ recorded b.
Proof. intros. unfold recorded. rewrite filter_app, map_app. reflexivity. Qed.

Lemma recorded_mounts : forall ms, recorded (map (fun e : entry => (Mount, e)) ms) = ms.
Proof. induction ms as [|m ms IH]; [reflexivity|]. unfold recorded in *. cbn. rewrite IH. reflexivity. Qed.

Lemma recorded_part : forall reuse cur,
  recorded (unmount_part reuse cur) = rev (filter (fun e => id_mem (id_of e) reuse) cur).
Proof.
  intros reuse cur. rewrite <- filter_rev'. unfold unmount_part, recorded. induction (rev cur) as [|e l IH]; [reflexivity|].
  cbn [map filter]. destruct (id_mem (id_of e) reuse); cbn; [rewrite IH; reflexivity | exact IH].
Qed.

Lemma find_by_dir : forall l d, NoDup (map e_dir l) -> In d l -> find (fun x => beq (e_dir x) (e_dir d)) l = Some d.
Proof.
  induction l as [|y l IH]; intros d ND Hin; [destruct Hin|].
  cbn [find]. cbn [map] in ND. inversion ND as [|? ? Hn ND']; subst.
  destruct Hin as [-> | Hin]; [rewrite beq_refl; reflexivity|].
  destruct (beq (e_dir y) (e_dir d)) eqn:E; [|apply IH; assumption].
  apply beq_eq in E. destruct Hn. rewrite E. apply in_map, Hin.
Qed.

Lemma desired_lookup_found : forall des d, NoDup (map e_dir des) -> In d des -> desired_lookup des (e_dir d) = Some d.
Proof.
  intros des d ND Hin. apply find_by_dir; [rewrite map_rev; apply NoDup_rev, ND | apply in_rev; rewrite rev_involutive; exact Hin].
Qed.

Lemma reusable_cases : forall des ids c, reusable des ids c = true -> is_helper ids c = true \/ In c des.
Proof.
  intros des ids c R. unfold reusable in R. apply orb_true_iff in R as [R | R]; [left; exact R | right].
  destruct (desired_lookup des (e_dir c)) as [d|] eqn:L; [|discriminate].
  apply entry_eqb_eq in R. subst d. apply find_some in L as [L _]. apply in_rev, L.
Qed.

Theorem kept_are_wanted : forall fs current desired,
  let cur := map clean_entry current in
  let des := isort less_origin (map clean_entry desired) in
  let ids := map x_entry_id des in
  NoDup (map id_of cur) ->
  forall x, In (Keep, x) (needed_changes fs current desired) -> In x cur /\ (In x des \/ is_helper ids x = true).
Proof.
  intros fs current desired cur des ids H2 x H. apply keep_iff in H as [Hx M]. split; [exact Hx|].
  apply reuse_scan_sound in M as (c & Hc & E & R). apply isort_In in Hc.
  assert (c = x) as -> by (apply (NoDup_map_inj id_of cur); auto).
  destruct (reusable_cases _ _ _ R); auto.
Qed.

Lemma reused_desired_is_current : forall current desired d,
  let cur := map clean_entry current in
  let des := isort less_origin (map clean_entry desired) in
  let ids := map x_entry_id des in
  NoDup (map e_dir des) -> In d des ->
  (forall c, In c cur -> is_helper ids c = true -> id_of c = id_of d -> c = d) ->
  In (id_of d) (reuse_of current desired) -> In d cur.
Proof.
  intros current desired d cur des ids H1 Hd H3 M.
  apply reuse_scan_sound in M as (c & Hc & E & R). apply isort_In in Hc.
  assert (c = d) as <-; [|exact Hc].
  destruct (reusable_cases _ _ _ R) as [Hh | Hin]; [apply H3; auto|].
  apply (NoDup_map_inj e_dir des); auto. unfold id_of in E. congruence.
Qed.

Lemma in_mimics : forall fs dnr x,
  In x (filter (fun e => negb (is_overname e) && negb (exists_as fs e)) dnr) <-> In x dnr /\ is_overname x || exists_as fs x = false.
Proof. intros. rewrite filter_In, <- negb_orb, negb_true_iff. reflexivity. Qed.

Section MountOrder.
  Variables (fs : fsor) (dnr : list entry).
  Let indep (e : entry) : bool := is_overname e || exists_as fs e.

  Lemma independent_first : forall m1 m2, In m1 dnr -> In m2 dnr -> indep m1 = true -> indep m2 = false ->
    precedes m1 m2 (mount_order fs dnr).
  Proof.
    intros m1 m2 I1 I2 E1 E2. unfold mount_order. apply precedes_across.
    - apply isort_In, filter_In. auto.
    - apply (mount_order_In fs dnr) in I2. unfold mount_order in I2. apply in_app_or in I2 as [I2 | I2]; [|exact I2].
      apply isort_In, filter_In in I2 as [_ I2]. unfold indep in E2. congruence.
  Qed.

  Lemma independent_sorted : forall m1 m2, In m1 dnr -> In m2 dnr -> indep m1 = true -> indep m2 = true ->
    less_origin m1 m2 = true -> precedes m1 m2 (mount_order fs dnr).
  Proof.
    intros m1 m2 I1 I2 E1 E2 L. unfold mount_order. apply precedes_app_l.
    apply isort_precedes; [apply less_origin_strict_weak | | | exact L]; apply filter_In; auto.
  Qed.

  Lemma mimics_sorted : forall m1 m2, In m1 dnr -> In m2 dnr -> indep m1 = false -> indep m2 = false ->
    less_origin m1 m2 = true ->
    (mimic_dir fs m1 = mimic_dir fs m2 \/ blt (mimic_dir fs m1) (mimic_dir fs m2) = true) ->
    precedes m1 m2 (mount_order fs dnr).
  Proof.
    intros m1 m2 I1 I2 E1 E2 L Hm. unfold mount_order.
    apply precedes_app_r, (groups_sorted (mimic_dir fs)); try assumption; apply in_mimics; auto.
  Qed.

  (* the order of the whole list in one statement: what is less by origin and mount point comes first, as long as the
     split into independent entries and mimic groups does not pull the two the other way *)
  Theorem mount_order_sorted : forall m1 m2, In m1 dnr -> In m2 dnr -> less_origin m1 m2 = true ->
    (indep m2 = true -> indep m1 = true) ->
    (mimic_dir fs m1 = mimic_dir fs m2 \/ blt (mimic_dir fs m1) (mimic_dir fs m2) = true) ->
    precedes m1 m2 (mount_order fs dnr).
  Proof.
    intros m1 m2 I1 I2 L Hcl Hm. destruct (indep m2) eqn:X2; [apply independent_sorted; auto|].
    destruct (indep m1) eqn:X1; [apply independent_first; assumption | apply mimics_sorted; assumption].
  Qed.
End MountOrder.

Lemma detach_form_id : forall e, id_of (detach_form e) = id_of e.
Proof. intro e. unfold detach_form. destruct (_ && _); reflexivity. Qed.

Lemma remove_first_here : forall (p : entry -> bool) l e K,
  (forall x, In x l -> p x = false) -> p e = true -> remove_first p (l ++ e :: K) = Some (l ++ K).
Proof.
  induction l as [|y l IH]; intros e K Hl He; cbn [app remove_first].
  - rewrite He. reflexivity.
  - rewrite (Hl y (or_introl eq_refl)). rewrite IH; auto. intros x Hx. apply Hl. right. exact Hx.
Qed.

Lemma unmount_part_snoc : forall reuse l e,
  unmount_part reuse (l ++ [e]) =
  (if id_mem (id_of e) reuse then (Keep, e) else (Unmount, detach_form e)) :: unmount_part reuse l.
Proof. intros. unfold unmount_part. rewrite rev_app_distr. reflexivity. Qed.

Lemma apply_unmount_part : forall reuse l K rest, NoDup (map id_of l) ->
  apply_changes (l ++ K) (unmount_part reuse l ++ rest) =
  apply_changes (filter (fun e => id_mem (id_of e) reuse) l ++ K) rest.
Proof.
  intros reuse l. induction l as [|e l IH] using rev_ind; intros K rest ND; [reflexivity|].
  rewrite unmount_part_snoc. rewrite map_app in ND. cbn [map] in ND.
  apply NoDup_remove in ND as [ND' Hne]. rewrite app_nil_r in ND', Hne.
  rewrite filter_app. cbn [filter]. rewrite <- !app_assoc. cbn [app apply_changes].
  destruct (id_mem (id_of e) reuse) eqn:M; cbn [apply_change fst snd].
  - assert (existsb (entry_eqb e) (l ++ e :: K) = true) as -> by (apply existsb_entry_In, in_elt).
    apply (IH (e :: K) rest ND').
  - rewrite remove_first_here; [apply (IH K rest ND') | | apply entry_eqb_refl].
    intros x Hx. destruct (entry_eqb (detach_form x) (detach_form e)) eqn:E; [|reflexivity].
    apply entry_eqb_eq in E. destruct Hne. rewrite <- (detach_form_id e), <- E, detach_form_id. apply in_map, Hx.
Qed.

Lemma apply_mounts : forall ms tbl, apply_changes tbl (map (fun e => (Mount, e)) ms) = Some (tbl ++ ms).
Proof.
  induction ms as [|m ms IH]; intro tbl; cbn [map apply_changes]; [rewrite app_nil_r; reflexivity|].
  cbn [apply_change fst snd]. rewrite IH. rewrite <- app_assoc. reflexivity.
Qed.

Theorem apply_needed_changes : forall fs current desired,
  let cur := map clean_entry current in
  let des := isort less_origin (map clean_entry desired) in
  let reuse := reuse_of current desired in
  NoDup (map id_of cur) ->
  apply_changes cur (needed_changes fs current desired) =
  Some (filter (fun e => id_mem (id_of e) reuse) cur ++
        mount_order fs (filter (fun e => negb (id_mem (id_of e) reuse)) des)).
Proof.
  intros fs current desired cur des reuse ND. unfold needed_changes. fold cur des reuse.
  rewrite <- (app_nil_r cur) at 1. rewrite apply_unmount_part by exact ND. rewrite app_nil_r. apply apply_mounts.
Qed.

Theorem result_profile : forall fs current desired,
  let cur := map clean_entry current in
  let des := isort less_origin (map clean_entry desired) in
  let ids := map x_entry_id des in
  NoDup (map e_dir des) -> NoDup (map id_of cur) ->
  (forall d c, In d des -> In c cur -> is_helper ids c = true -> id_of c = id_of d -> c = d) ->
  exists tbl extra,
    apply_changes cur (needed_changes fs current desired) = Some tbl /\
    Permutation tbl (des ++ extra) /\
    (forall x, In x extra -> In x cur /\ is_helper ids x = true /\ In (Keep, x) (needed_changes fs current desired)).
Proof.
  intros fs current desired cur des ids H1 H2 H3.
  set (reuse := reuse_of current desired).
  set (K := filter (fun e => id_mem (id_of e) reuse) cur).
  set (extra := filter (fun c => negb (existsb (entry_eqb c) des)) K).
  exists (K ++ mount_order fs (not_reused current desired)), extra. split; [apply apply_needed_changes; exact H2|].
  split.
  - assert (P : Permutation (filter (fun c => existsb (entry_eqb c) des) K) (filter (fun e => id_mem (id_of e) reuse) des)).
    { apply NoDup_Permutation.
      - apply NoDup_filter, NoDup_filter, (NoDup_map_inv id_of), H2.
      - apply NoDup_filter, (NoDup_map_inv e_dir), H1.
      - intro x. unfold K. rewrite !filter_In, existsb_entry_In. split; [tauto|]. intros [Hd M].
        repeat split; try assumption. apply id_mem_In in M. apply (reused_desired_is_current current desired x H1 Hd); auto. }
    (* des is its reused and its not reused entries; the mounts are the latter; K is the former plus extra *)
    rewrite (filter_partition_perm (fun e => id_mem (id_of e) reuse) des), mount_order_perm.
    rewrite (filter_partition_perm (fun c => existsb (entry_eqb c) des) K). fold extra. rewrite P.
    rewrite <- !app_assoc. apply Permutation_app_head, Permutation_app_comm.
  - intros x Hx. apply filter_In in Hx as [Hk Hnd]. apply filter_In in Hk as [Hc M].
    assert (Hkeep : In (Keep, x) (needed_changes fs current desired)) by (apply keep_iff; split; [exact Hc | apply id_mem_In, M]).
    destruct (kept_are_wanted fs current desired H2 x Hkeep) as [_ [Hd | Hh]]; [|auto].
    apply existsb_entry_In in Hd. fold des in Hd. rewrite Hd in Hnd. discriminate.
Qed.

Theorem no_keep_beneath_unmounted : forall fs current desired p c,
  let cur := map clean_entry current in
  NoDup (map sort_key cur) -> In p cur -> In c cur ->
  is_overname p = is_overname c -> beneath c p = true -> sort_key p <> sort_key c ->
  ~ In (Keep, p) (needed_changes fs current desired) ->
  ~ In (Keep, c) (needed_changes fs current desired).
Proof.
  intros fs current desired p c cur NDk Hp Hc Hcls B Hne Hnk Hk.
  apply keep_iff in Hk as [_ Mc]. rewrite keep_iff in Hnk.
  assert (Mp : ~ In (id_of p) (reuse_of current desired)) by tauto.
  assert (Erk : rank_overname p = rank_overname c) by (unfold rank_overname; rewrite Hcls; reflexivity).
  assert (L : less_overname p c = true).
  { rewrite less_overname_rank, (by_rank_same _ _ _ Erk). exact (beneath_dir_lt c p B Hne). }
  unfold reuse_of in Mp, Mc. fold cur in Mp, Mc.
  pose proof (isort_sorted less_overname less_overname_strict_weak cur) as Hs.
  assert (NDs : NoDup (map sort_key (isort less_overname cur))).
  { rewrite isort_perm. exact NDk. }
  destruct (isort_precedes less_overname less_overname_strict_weak cur p c Hp Hc L) as (l1 & l2 & l3 & ES).
  rewrite ES in Mp, Mc, NDs, Hs.
  revert Mc. apply scan_no_mark_beneath; [| | exact B | exact Mp].
  - apply (NoDup_map_inv (fun i => with_slash (fst i))). rewrite map_map. exact NDs.
  - intros x Hx. apply (between_beneath rank_overname l1 p l2 c l3 x); auto.
    intros a b Hab. rewrite <- less_overname_rank. apply Hs, Hab.
Qed.

From Coq Require Import String.   (* only from here on: its length and concat would shadow those of List *)

(* the witnesses below live on one small tree: / , /a , /a/b exist; ex_bind entries are binds of /s/src *)
Definition ex_fs : fsor := mkFs (map bs ["/"; "/a"; "/a/b"]%string) [] [].
Definition ex_bind (dir : string) (more : list string) : entry :=
  mkEntry (bs "/s/src") (bs dir) (bs "none") (map bs ("bind"%string :: more)) 0 0.
Definition ex_tmpfs (dir : string) (opts : list string) : entry := mkEntry (bs "tmpfs") (bs dir) (bs "tmpfs") (map bs opts) 0 0.

Lemma result_profile_shadowed_refuted :
  exists fs current desired d,
    NoDup (map e_dir (isort less_origin (map clean_entry desired))) /\
    NoDup (map id_of (map clean_entry current)) /\
    In d (isort less_origin (map clean_entry desired)) /\
    ~ In (Mount, d) (needed_changes fs current desired) /\ ~ In (Keep, d) (needed_changes fs current desired).
Proof.
  set (mimic := ex_tmpfs "/a" ["x-snapd.synthetic"; "x-snapd.needed-by=/a/b"; "mode=0755"]%string).
  set (ab := ex_bind "/a/b" ["x-snapd.origin=layout"%string]).
  set (ta := ex_tmpfs "/a" ["mode=0755"; "x-snapd.origin=layout"]%string).
  exists ex_fs, [mimic; ab], [ta; ab], ta.
  assert (E : needed_changes ex_fs [mimic; ab] [ta; ab] = [(Keep, ab); (Keep, mimic)]) by (vm_compute; reflexivity).
  assert (D : isort less_origin (map clean_entry [ta; ab]) = [ta; ab]) by (vm_compute; reflexivity).
  rewrite E, D. repeat split.
  - cbn. repeat constructor; cbn; intuition discriminate.
  - cbn. repeat constructor; cbn; intuition discriminate.
  - left. reflexivity.
  - cbn. intuition discriminate.
  - cbn. intros [H | [H | []]]; inversion H.
Qed.

Lemma no_keep_beneath_unmounted_overname_refuted :
  exists fs current desired p c,
    NoDup (map sort_key (map clean_entry current)) /\ In p (map clean_entry current) /\ In c (map clean_entry current) /\
    beneath c p = true /\ sort_key p <> sort_key c /\
    ~ In (Keep, p) (needed_changes fs current desired) /\ In (Keep, c) (needed_changes fs current desired).
Proof.
  set (a := ex_bind "/a" []). set (a' := ex_bind "/a" ["noatime"%string]).
  set (ab := ex_bind "/a/b" ["x-snapd.origin=overname"%string]).
  exists ex_fs, [a; ab], [a'; ab], a, ab.
  assert (E : needed_changes ex_fs [a; ab] [a'; ab] = [(Keep, ab); (Unmount, detach_form a); (Mount, a')]) by (vm_compute; reflexivity).
  rewrite E. repeat split.
  - cbn. repeat constructor; cbn; intuition discriminate.
  - left. reflexivity.
  - right. left. reflexivity.
  - vm_compute. discriminate.
  - cbn. intros [H | [H | [H | []]]]; inversion H.
  - left. reflexivity.
Qed.
