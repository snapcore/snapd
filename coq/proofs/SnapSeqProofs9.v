(* C11, about models/SnapSeq.v: handlers as ordered effects. doDiscardSnap re-run after a failure before its final Set equals one
   undisturbed run (discard_retry_idempotent); for the mount and link handlers a failure after any effect plus the handler's
   own cleanup leaves nothing behind (mount_failure_cleanup, link_failure_cleanup). *)
From Coq Require Import List NArith ZArith Bool Arith Lia.
Import ListNotations.
Require Import V.models.SnapSeq V.proofs.ListFacts V.proofs.SnapSeqProofs V.proofs.SnapSeqProofs8.
Open Scope N_scope.

Lemma filter_idem : forall A (f : A -> bool) l, filter f (filter f l) = filter f l.
Proof. intros A f l. apply filter_all. intros x H. apply filter_In in H. tauto. Qed.

Lemma rem_idem : forall r (l : list N), rem r (rem r l) = rem r l.
Proof. intros. apply filter_idem. Qed.

Lemma rc_del_idem : forall r m, rc_del r (rc_del r m) = rc_del r m.
Proof. intros. apply filter_idem. Qed.

Local Opaque rem rc_del last.

Theorem discard_plan_is_discard : forall r s, discard_run r s (discard_plan r s) s = do_discard r s.
Proof.
  intros r [sq c a ch d j cl t ig co lr ih nbs cf rc mt lk].
  unfold discard_run, discard_plan, discard_seq, do_discard, apply_deffect. cbn [seq].
  destruct sq as [|x [|y l]]; [reflexivity|reflexivity|].
  set (ns := rem r (x :: y :: l)). clearbody ns. destruct ns; reflexivity.
Qed.

(* doDiscardSnap looks at the mounted set, the revision-config and the configuration only through what it does to them *)
Lemma discard_insensitive : forall r sq c a ch d j cl t ig co lr ih nbs cf rc mt lk cf' rc' mt',
  rem r mt' = rem r mt -> rc_del r rc' = rc_del r rc ->
  (cf' = cf \/ (discard_seq r (mkSt sq c a ch d j cl t ig co lr ih nbs cf rc mt lk) = [] /\ cf' = 0)) ->
  do_discard r (mkSt sq c a ch d j cl t ig co lr ih nbs cf' rc' mt' lk)
  = do_discard r (mkSt sq c a ch d j cl t ig co lr ih nbs cf rc mt lk).
Proof.
  intros r sq c a ch d j cl t ig co lr ih nbs cf rc mt lk cf' rc' mt' HM HR HC.
  unfold do_discard, discard_seq in *. cbn [seq cur nb active chan devmode jailmode classic trymode ignoreval cohort lastref inhib cfg revcfg mounted link] in *.
  rewrite HM, HR.
  destruct sq as [|x [|y l]].
  - destruct HC as [->|[_ ->]]; reflexivity.
  - destruct HC as [->|[_ ->]]; reflexivity.
  - set (ns := rem r (x :: y :: l)) in *. clearbody ns.
    destruct HC as [->|[E ->]]; [reflexivity|]. rewrite E. reflexivity.
Qed.

(* a failure after any number of effects short of the final Set, then the handler run again from the top: same result
   as one undisturbed run *)
Theorem discard_retry_idempotent : forall r s i,
  (i < length (discard_plan r s))%nat ->
  do_discard r (discard_run r s (firstn i (discard_plan r s)) s) = do_discard r s.
Proof.
  intros r [sq c a ch d j cl t ig co lr ih nbs cf rc mt lk] i L.
  unfold discard_plan in *. unfold discard_run.
  (* whether or not DeleteSnapConfig is in the plan, every proper prefix of it only repeats what the handler does anyway *)
  destruct (discard_seq r (mkSt sq c a ch d j cl t ig co lr ih nbs cf rc mt lk)) as [|u v] eqn:DS; cbn [app length] in *;
    destruct i as [|[|[|[|i]]]]; try lia;
    cbn [firstn fold_left apply_deffect seq cur nb active chan devmode jailmode classic trymode ignoreval cohort lastref inhib cfg revcfg mounted link];
    apply discard_insensitive; rewrite ?rem_idem, ?rc_del_idem; auto.
Qed.

(* why Set has to come last: were the trimmed record written before RemoveSnapFiles, a retry after its failure would start
   from one kept revision and take the `last revision` shortcut — kept [1,2], discarding 1: the snap would be gone from the
   state while revision 2 is still mounted and linked *)
Local Transparent rem rc_del last.

Example retry_needs_set_last :
  let s := mkSt [1;2] 2 true 1 false false false false false 0 2 0 [] 5 [] [1;2] 2 in
  let early := apply_deffect 1 s s ESet in
  seq (do_discard 1 s) = [2] /\ seq (do_discard 1 early) = [] /\ mounted (do_discard 1 early) = [2] /\ link (do_discard 1 early) = 2.
Proof. vm_compute. repeat split; reflexivity. Qed.

Theorem mount_failure_cleanup : forall r s i, wf s -> ~ In r (seq s) -> (i <= 1)%nat ->
  mount_cleanup r (run_effects (firstn i (mount_effects r)) s) = s.
Proof.
  intros r s i [_ _ _ _ _ W6 W7 _] NI L.
  assert (NM : ~ In r (mounted s)) by (intros I; apply NI; apply W7; exact I).
  destruct i as [|[|i]]; [| |lia]; destruct s; simpl in *; unfold mount_cleanup, set_mounted; simpl.
  - rewrite rem_notin; auto.
  - rewrite rem_ins; auto.
Qed.

Theorem link_effects_ok : forall o s, run_effects (link_effects o s) s = fst (do_link o s).
Proof.
  intros o s.
  assert (M : mounted (fst (do_link o s)) = mounted s) by reflexivity.
  assert (L : link (fst (do_link o s)) = orev o) by reflexivity.
  unfold link_effects, run_effects. cbn [fold_left]. unfold set_cfgs, set_link. cbn [seq cur nb active chan devmode jailmode classic trymode ignoreval cohort lastref inhib cfg revcfg mounted link].
  destruct (fst (do_link o s)) as [sq c a ch d j cl t ig co lr ih nbs cf rc mt lk] eqn:Y. simpl in M, L. subst. reflexivity.
Qed.

(* LinkSnap (or anything after it, before the final Set) fails: the deferred cleanup unlinks.  On a snap that was not linked
   (after unlink-current-snap, or a first install, or a disabled snap) every field but the configuration bookkeeping is as
   before; if the failure is LinkSnap itself, everything is *)
Theorem link_failure_cleanup : forall o s i, link s = 0 -> (i <= 3)%nat ->
  core (link_cleanup (run_effects (firstn i (link_effects o s)) s)) = core s /\
  ((i <= 1)%nat -> link_cleanup (run_effects (firstn i (link_effects o s)) s) = s).
Proof.
  intros o s i L0 L. unfold link_effects.
  destruct i as [|[|[|[|i]]]]; try lia; cbn [firstn run_effects fold_left]; destruct s; simpl in *; subst;
    (split; [reflexivity|intros H; try lia; reflexivity]).
Qed.
