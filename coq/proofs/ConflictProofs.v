(* C14 — proofs about models/Conflict.v: the verdict on a request as an equivalence ([rejected_iff]), and the invariant
   [inv] over arbitrary histories of requests and progress events ([one_per_snap_step], [run_inv]). *)
From Coq Require Import List NArith Bool Lia String.
Import ListNotations.
Require Import V.lib.Bytes V.gen.ConflictKinds V.models.Conflict V.proofs.ListFacts.
Open Scope list_scope.
Open Scope N_scope.

Lemma mem_In : forall x l, mem x l = true <-> In x l.
Proof. exact (existsb_eqb_In N.eqb N.eqb_eq). Qed.

(* `touches c snaps` is this with ts := c_tasks c *)
Lemma tasks_touch_In : forall ts snaps,
  existsb (fun t => intersects (t_snaps t) snaps) ts = true <-> exists t x, In t ts /\ In x (t_snaps t) /\ In x snaps.
Proof.
  intros ts snaps. unfold intersects. rewrite existsb_exists. split.
  - intros [t [Ht H]]. apply existsb_exists in H. destruct H as [x [Hx Hm]]. apply mem_In in Hm. exists t, x. auto.
  - intros [t [x [Ht [Hx Hs]]]]. exists t. split; [exact Ht|]. apply existsb_exists. exists x.
    split; [exact Hx | apply mem_In; exact Hs].
Qed.

Lemma touches_some : forall c snaps, touches c snaps = true <-> exists x, In x snaps /\ touches c [x] = true.
Proof.
  intros c snaps. unfold touches. rewrite tasks_touch_In. split.
  - intros [t [x [Ht [Hx Hs]]]]. exists x. split; [exact Hs|]. apply tasks_touch_In. exists t, x. cbn [In]. auto.
  - intros [x [Hs H]]. apply tasks_touch_In in H. destruct H as [t [y [Ht [Hy [<-|[]]]]]]. exists t, x. auto.
Qed.

(* the hypothesis is req_wf of a request that checked snaps *)
Lemma tasks_within : forall snaps tasks x,
  forallb (fun t => forallb (fun y => mem y snaps) (t_snaps t)) tasks = true ->
  existsb (fun t => intersects (t_snaps t) [x]) tasks = true -> In x snaps.
Proof.
  intros snaps tasks x Hwf H. apply tasks_touch_In in H. destruct H as [t [y [Ht [Hy [<-|[]]]]]].
  rewrite forallb_forall in Hwf. specialize (Hwf t Ht). rewrite forallb_forall in Hwf. apply mem_In. exact (Hwf x Hy).
Qed.

Lemma set_nth_touch : forall snaps ts i r,
  existsb (fun t => intersects (t_snaps t) snaps) (set_nth ts i r) = existsb (fun t => intersects (t_snaps t) snaps) ts.
Proof.
  intros snaps. induction ts as [|t rest IH]; intros i r; cbn [set_nth]; [reflexivity|].
  destruct (i =? 0); cbn [existsb t_snaps]; [reflexivity | rewrite IH; reflexivity].
Qed.

Lemma counts_unready : forall c, counts c = true -> c_ready c = false.
Proof. intros c H. unfold counts, relevant in H. destruct (c_ready c); [discriminate | reflexivity]. Qed.

Lemma relevant_counts : forall ignore c, relevant ignore c = counts c && negb (is_ignored c ignore).
Proof.
  intros ignore c. unfold counts, relevant. cbn [is_ignored].
  destruct (c_ready c), (is_ignored c ignore), (kind_in (c_kind c) irrelevant_kinds); reflexivity.
Qed.

Lemma in_progress_spec : forall st i, in_progress st i = true <-> exists c, In c st /\ c_id c = i /\ c_ready c = false.
Proof.
  intros st i. unfold in_progress. rewrite existsb_exists. split.
  - intros [c [Hin H]]. apply andb_prop in H. destruct H as [H1 H2]. apply N.eqb_eq in H1. apply negb_true_iff in H2. eauto.
  - intros [c [Hin [<- H2]]]. exists c. rewrite N.eqb_refl, H2. auto.
Qed.

Lemma next_id_gt : forall st c, In c st -> c_id c < next_id st.
Proof.
  induction st as [|a r IH]; intros c H; [contradiction|]. cbn [next_id fold_right]. fold (next_id r).
  destruct H as [->|H]; [lia | specialize (IH c H); lia].
Qed.

Lemma next_id_fresh : forall st, ~ In (next_id st) (map c_id st).
Proof. intros st H. apply in_map_iff in H. destruct H as [c [Hid Hc]]. apply next_id_gt in Hc. lia. Qed.

Theorem excl_hit_table : forall new_excl ignore c,
  excl_hit new_excl ignore c =
  negb (c_ready c) &&
  (kind_in (c_kind c) excl_always
   || (kind_in (c_kind c) excl_ignorable && negb (is_ignored c ignore))
   || (kind_in (c_kind c) excl_downgrade && negb (is_ignored c ignore) && (c_dg c || new_excl))
   || (negb (kind_in (c_kind c) excl_always) && negb (kind_in (c_kind c) excl_ignorable)
       && negb (kind_in (c_kind c) excl_downgrade) && new_excl)).
Proof.
  intros new_excl ignore c. unfold excl_hit. change nondowngrade_blocks_new_exclusive with true.
  destruct (c_ready c), (kind_in (c_kind c) excl_always), (kind_in (c_kind c) excl_ignorable),
    (kind_in (c_kind c) excl_downgrade), (is_ignored c ignore), (c_dg c), new_excl; reflexivity.
Qed.

Lemma excl_hit_exclusive : forall new_excl ignore c,
  c_ready c = false -> is_exclusive c = true ->
  is_ignored c ignore = false \/ kind_in (c_kind c) excl_always = true ->
  excl_hit new_excl ignore c = true.
Proof.
  intros new_excl ignore c Hr Hex Hig. rewrite excl_hit_table, Hr. destruct Hig as [-> | ->]; [|reflexivity].
  (* of a change that is not ignored the table says is_exclusive c || ..., the rest depending on new_excl *)
  unfold is_exclusive in Hex.
  destruct (kind_in (c_kind c) excl_always), (kind_in (c_kind c) excl_ignorable), (kind_in (c_kind c) excl_downgrade),
    (c_dg c); (discriminate Hex || reflexivity).
Qed.

Lemma excl_hit_new_exclusive : forall ignore c,
  c_ready c = false -> is_ignored c ignore = false -> excl_hit true ignore c = true.
Proof.
  intros ignore c Hr Hig. rewrite excl_hit_table, Hr, Hig.
  destruct (kind_in (c_kind c) excl_always), (kind_in (c_kind c) excl_ignorable), (kind_in (c_kind c) excl_downgrade),
    (c_dg c); reflexivity.
Qed.

Lemma check_many_iff : forall st snaps ignore,
  check_many st snaps ignore = true <->
  (exists c, In c st /\ excl_hit false ignore c = true) \/
  (exists c x, In c st /\ relevant ignore c = true /\ In x snaps /\ touches c [x] = true).
Proof.
  intros st snaps ignore. unfold check_many, check_exclusive. rewrite orb_true_iff, !existsb_exists.
  apply or_iff_compat_l. split.
  - intros [c [Hin H]]. apply andb_prop in H. destruct H as [Hr Ht].
    apply touches_some in Ht. destruct Ht as [x [Hx Ht]]. exists c, x. auto.
  - intros [c [x [Hin [Hr [Hx Ht]]]]]. exists c. split; [exact Hin|]. rewrite Hr. cbn [andb].
    apply touches_some. exists x. auto.
Qed.

Theorem rejected_iff : forall st kind dg re ignore same snaps tasks,
  rejected st (Request kind dg re ignore same snaps tasks) = true <->
  (exists c, In c st /\ excl_hit false ignore c = true) \/
  (exists c x, In c st /\ relevant ignore c = true /\ In x snaps /\ touches c [x] = true) \/
  same = false \/
  (re = true /\ exists c, In c st /\ excl_hit true ignore c = true).
Proof.
  intros st kind dg re ignore same snaps tasks. cbn [rejected]. unfold check_exclusive.
  rewrite !orb_true_iff, andb_true_iff, negb_true_iff, check_many_iff, existsb_exists. tauto.
Qed.

Definition one_per_snap (st : state) : Prop :=
  forall c1 c2 x, In c1 st -> In c2 st -> counts c1 = true -> counts c2 = true ->
    touches c1 [x] = true -> touches c2 [x] = true -> c_id c1 = c_id c2.

Definition inv (st : state) : Prop := NoDup (map c_id st) /\ one_per_snap st.

(* what an accepted check establishes, j being the requesting change if one is in progress *)
Definition held_by (st : state) (snaps : list N) (j : N) : Prop :=
  forall c x, In c st -> counts c = true -> touches c [x] = true -> In x snaps -> c_id c = j.

(* The shape every operation shares. A counting change of the new state st' touches either what a counting change with
   the same id touched in st, or, if it is the change j that received the tasks of an accepted request, snaps that the
   request had checked and found held by nobody but j. *)
Lemma one_per_snap_step : forall st st' snaps j,
  one_per_snap st -> held_by st snaps j ->
  (forall d x, In d st' -> counts d = true -> touches d [x] = true ->
     (exists c, In c st /\ c_id c = c_id d /\ counts c = true /\ touches c [x] = true) \/ (c_id d = j /\ In x snaps)) ->
  one_per_snap st'.
Proof.
  intros st st' snaps j Hone Hheld Hfrom d1 d2 x H1 H2 Hc1 Hc2 Ht1 Ht2.
  destruct (Hfrom d1 x H1 Hc1 Ht1) as [[c1 [I1 [<- [C1 T1]]]] | [-> X1]];
  destruct (Hfrom d2 x H2 Hc2 Ht2) as [[c2 [I2 [<- [C2 T2]]]] | [-> X2]].
  - exact (Hone c1 c2 x I1 I2 C1 C2 T1 T2).
  - exact (Hheld c1 x I1 C1 T1 X2).
  - symmetry. exact (Hheld c2 x I2 C2 T2 X1).
  - reflexivity.
Qed.

Lemma accepted_no_touch : forall st snaps ignore c x,
  check_many st snaps ignore = false -> In c st -> counts c = true -> touches c [x] = true -> In x snaps ->
  is_ignored c ignore = true.
Proof.
  intros st snaps ignore c x Hc Hin Hcnt Ht Hx. destruct (is_ignored c ignore) eqn:E; [reflexivity|].
  rewrite <- Hc. apply check_many_iff. right. exists c, x. rewrite relevant_counts, Hcnt, E. auto.
Qed.

Lemma accepted_held : forall st snaps i, check_many st snaps (Some i) = false -> held_by st snaps i.
Proof.
  intros st snaps i Hchk c x Hin Hcnt Ht Hx. apply N.eqb_eq. exact (accepted_no_touch _ _ _ _ _ Hchk Hin Hcnt Ht Hx).
Qed.

Lemma accepted_free : forall st snaps ignore j,
  check_many st snaps ignore = false -> match ignore with Some i => in_progress st i = false | None => True end ->
  held_by st snaps j.
Proof.
  intros st snaps ignore j Hchk Hidle c x Hin Hcnt Ht Hx. exfalso.
  pose proof (accepted_no_touch _ _ _ _ _ Hchk Hin Hcnt Ht Hx) as Hig.
  destruct ignore as [i|]; [|discriminate]. apply N.eqb_eq in Hig.
  apply (eq_true_false_abs (in_progress st i)); [|exact Hidle].
  apply in_progress_spec. exists c. auto using counts_unready.
Qed.

Lemma inv_new_change : forall st kind dg snaps tasks,
  inv st -> held_by st snaps (next_id st) ->
  forallb (fun t => forallb (fun y => mem y snaps) (t_snaps t)) tasks = true ->
  inv (st ++ [mkChange (next_id st) kind dg tasks]).
Proof.
  intros st kind dg snaps tasks [Hnd Hone] Hheld Hwf. split.
  - rewrite map_app. apply NoDup_snoc; [exact Hnd | apply next_id_fresh].
  - apply (one_per_snap_step st _ snaps (next_id st) Hone Hheld).
    intros d x Hd Hcd Htd. apply in_app_or in Hd. destruct Hd as [Hd|[<-|[]]].
    + left. exists d. auto.
    + right. split; [reflexivity | exact (tasks_within _ _ _ Hwf Htd)].
Qed.

(* the map of step on an accepted request whose requesting change i is in progress *)
Definition extend (i : N) (tasks : list task) (c : change) : change :=
  if c_id c =? i then mkChange (c_id c) (c_kind c) (c_dg c) (c_tasks c ++ tasks) else c.

Lemma extend_id : forall i tasks c, c_id (extend i tasks c) = c_id c.
Proof. intros. unfold extend. destruct (c_id c =? i); reflexivity. Qed.

Lemma extend_counts : forall i tasks c, (c_id c = i -> c_ready c = false) -> counts (extend i tasks c) = counts c.
Proof.
  intros i tasks c Hr. unfold extend. destruct (c_id c =? i) eqn:E; [|reflexivity]. apply N.eqb_eq in E.
  unfold counts, relevant, c_ready in *. cbn [c_tasks c_kind c_id is_ignored]. rewrite forallb_app, (Hr E). reflexivity.
Qed.

Lemma extend_touches : forall i tasks c snaps, touches (extend i tasks c) snaps = true ->
  touches c snaps = true \/ (c_id c = i /\ existsb (fun t => intersects (t_snaps t) snaps) tasks = true).
Proof.
  intros i tasks c snaps H. unfold extend in H. destruct (c_id c =? i) eqn:E; [|left; exact H]. apply N.eqb_eq in E.
  unfold touches in *. cbn [c_tasks] in H. rewrite existsb_app in H. apply orb_prop in H. destruct H as [H|H]; auto.
Qed.

Lemma in_progress_unready : forall st i c,
  NoDup (map c_id st) -> in_progress st i = true -> In c st -> c_id c = i -> c_ready c = false.
Proof.
  intros st i c Hnd Hp Hin Hid. apply in_progress_spec in Hp. destruct Hp as [c0 [Hin0 [Hid0 Hr0]]].
  rewrite (NoDup_map_inj c_id st c c0 Hnd Hin Hin0); [exact Hr0 | congruence].
Qed.

Lemma inv_extend : forall st i snaps tasks,
  inv st -> held_by st snaps i -> in_progress st i = true ->
  forallb (fun t => forallb (fun y => mem y snaps) (t_snaps t)) tasks = true ->
  inv (map (extend i tasks) st).
Proof.
  intros st i snaps tasks [Hnd Hone] Hheld Hprog Hwf. split.
  - rewrite map_map, (map_ext _ c_id (extend_id i tasks)). exact Hnd.
  - apply (one_per_snap_step st _ snaps i Hone Hheld).
    intros d x Hd Hcd Htd. apply in_map_iff in Hd. destruct Hd as [c [<- Hin]].
    rewrite extend_id. rewrite extend_counts in Hcd by exact (in_progress_unready st i c Hnd Hprog Hin).
    destruct (extend_touches _ _ _ _ Htd) as [Ht|[E Ht]].
    + left. exists c. auto.
    + right. split; [exact E | exact (tasks_within _ _ _ Hwf Ht)].
Qed.

(* the map of step on Progress ci i r *)
Definition progress (ci i : N) (r : bool) (c : change) : change :=
  if (c_id c =? ci) && negb (c_ready c) then mkChange (c_id c) (c_kind c) (c_dg c) (set_nth (c_tasks c) i r) else c.

Lemma progress_id : forall ci i r c, c_id (progress ci i r c) = c_id c.
Proof. intros. unfold progress. destruct (_ && _); reflexivity. Qed.

Lemma progress_touches : forall ci i r c snaps, touches (progress ci i r c) snaps = touches c snaps.
Proof.
  intros. unfold progress. destruct (_ && _); [apply set_nth_touch | reflexivity].
Qed.

(* only a change that is not ready progresses, and exemption goes by the kind *)
Lemma progress_counts : forall ci i r c, counts (progress ci i r c) = true -> counts c = true.
Proof.
  intros ci i r c. unfold progress. destruct ((c_id c =? ci) && negb (c_ready c)) eqn:E; [|auto].
  apply andb_prop in E. destruct E as [_ E]. unfold counts, relevant. cbn [c_kind c_id is_ignored].
  destruct (c_ready c); [discriminate|]. intros H. apply andb_prop in H. destruct H as [_ H]. rewrite H. reflexivity.
Qed.

Lemma inv_progress : forall st ci i r, inv st -> inv (map (progress ci i r) st).
Proof.
  intros st ci i r [Hnd Hone]. split.
  - rewrite map_map, (map_ext _ c_id (progress_id ci i r)). exact Hnd.
  - apply (one_per_snap_step st _ [] ci Hone); [intros c x _ _ _ []|].
    intros d x Hd Hcd Htd. apply in_map_iff in Hd. destruct Hd as [c [<- Hin]].
    rewrite progress_touches in Htd. apply progress_counts in Hcd. left. exists c. rewrite progress_id. auto.
Qed.

(* req_wf is asked of an accepted request only: a rejected one leaves the state alone whatever its tasks *)
Lemma step_inv : forall st o, (rejected st o = false -> req_wf o = true) -> inv st -> inv (step st o).
Proof.
  intros st o Hwf Hinv. destruct o as [kind dg re ignore same snaps tasks | ci i r | k l | k l];
    [| exact (inv_progress st ci i r Hinv) | discriminate (Hwf eq_refl) ..].
  unfold step. destruct (rejected st _) eqn:Hrej; [exact Hinv|]. specialize (Hwf eq_refl). cbn [req_wf] in Hwf.
  cbn [rejected] in Hrej. rewrite !orb_false_iff in Hrej. destruct Hrej as [[Hchk _] _].
  destruct ignore as [j|]; [destruct (in_progress st j) eqn:Hp|].
  - exact (inv_extend st j snaps tasks Hinv (accepted_held st snaps j Hchk) Hp Hwf).
  - exact (inv_new_change st kind dg snaps tasks Hinv (accepted_free st snaps (Some j) _ Hchk Hp) Hwf).
  - exact (inv_new_change st kind dg snaps tasks Hinv (accepted_free st snaps None _ Hchk I) Hwf).
Qed.

Lemma run_inv : forall ops st, forallb req_wf ops = true -> inv st -> inv (run st ops).
Proof.
  unfold run. induction ops as [|o r IH]; intros st Hwf Hinv; cbn [fold_left]; [exact Hinv|].
  cbn [forallb] in Hwf. apply andb_prop in Hwf. destruct Hwf as [H1 H2].
  apply IH; [exact H2 | apply step_inv; [intros _; exact H1 | exact Hinv]].
Qed.

Lemma inv_nil : inv [].
Proof. split; [constructor | intros ? ? ? []]. Qed.

(* an ordinary refresh-snap change (no snapd downgrade) in progress: the state in which conflict.go once accepted a
   remodel request on another snap (C14_remodel_during_refresh_rejected) *)
Definition refresh_in_progress : state := [mkChange 1 (bs "refresh-snap"%string) false [mkTask [1] false]].

Definition demo_ops : list op :=
  [Request (bs "remove-snap"%string) false false None true [1] [mkTask [1] false; mkTask [1] false];
   Request (bs "disable-snap"%string) false false None true [1] [mkTask [1] false];
   Request (bs "disable-snap"%string) false false None true [2] [mkTask [2] false];
   Progress 1 0 true; Progress 1 1 true;
   Request (bs "disable-snap"%string) false false None true [1] [mkTask [1] false]].
Lemma demo : forallb req_wf demo_ops = true /\ map c_id (run [] demo_ops) = [1; 2; 3] /\
  map counts (run [] demo_ops) = [false; true; true].
Proof. repeat apply conj; reflexivity. Qed.

(* C14_matrix_example: an in-progress install of snap 1 refuses a request on snaps 1 and 2, accepts one on snap 2, refuses
   one that must run exclusively, and is itself no obstacle once finished *)
Definition matrix_state : state := [mkChange 1 (bs "install-snap"%string) false [mkTask [1] false; mkTask [1] true]].
