(* Proofs about models/TaskEngine.v (C01): an abort touches nothing outside the closure R ([inR]) of the aborted lanes
   under lane membership and halt edges (the upper half of the closure sandwich): tasks in independent lanes that do
   not wait, even transitively, on anything aborted keep their statuses ([abort_lanes_top_outside], [finish_err_outside]). *)
From Coq Require Import List Arith Lia.
Import ListNotations.
Require Import V.models.TaskEngine V.proofs.TaskEngineProofs V.proofs.TaskEngineFuel V.proofs.TaskEngineLive.

(* R: tasks with a lane in the aborted-lane set LR; halt tasks of members; LR: the killed lanes and every lane of a member *)
Inductive inR (s : state) (L0 : list nat) : nat -> Prop :=
| R_lane : forall t x, t < length (tasks s) -> In x (lanes_of (get s t)) -> laneR s L0 x -> inR s L0 t
| R_halt : forall t h, inR s L0 t -> In h (t_halts (get s t)) -> inR s L0 h
with laneR (s : state) (L0 : list nat) : nat -> Prop :=
| L_kill : forall x, In x L0 -> laneR s L0 x
| L_mem : forall t x, inR s L0 t -> In x (lanes_of (get s t)) -> laneR s L0 x.

Lemma scan_tasks_conv : forall kill l i lt hl hd j,
  In j (fst (fst (scan_tasks kill l i lt hl hd))) ->
  In j lt \/ (i <= j /\ j < i + length l /\ existsb (fun x => memn x kill) (lanes_of (nth (j - i) l dummy)) = true).
Proof.
  induction l as [|tk l IH]; intros i lt hl hd j H.
  - simpl in H. left. apply in_rev. assumption.
  - simpl scan_tasks in H.
    pose proof (scan_lanes_hit kill (lanes_of tk) (is_live tk) hl hd) as Hh.
    destruct (scan_lanes kill (lanes_of tk) (is_live tk) hl hd) as [[hit hl'] hd']; cbn [fst snd] in *.
    destruct (IH (S i) (if hit then i :: lt else lt) hl' hd' j H) as [A|(A & B & C)].
    + destruct hit; [destruct A as [<-|A]|]; auto.
      right. split; [lia|]. split; [simpl; lia|]. rewrite Nat.sub_diag. simpl. rewrite <- Hh. reflexivity.
    + right. split; [lia|]. split; [simpl; lia|].
      replace (j - i) with (S (j - S i)) by lia. simpl. exact C.
Qed.

Lemma select_has_lane : forall l kill t,
  In t (select_abort l kill) -> t < length l /\ exists x, In x (lanes_of (nth t l dummy)) /\ In x kill.
Proof.
  intros l kill t H. unfold select_abort in H.
  pose proof (scan_tasks_conv kill l 0 [] [] [] t) as C.
  destruct (scan_tasks kill l 0 [] [] []) as [[LT HL] HD]; cbn [fst snd] in *.
  apply filter_In in H. destruct H as [H _].
  destruct (C H) as [[]|(A & B & E)]. rewrite Nat.sub_0_r in E.
  split; [lia|]. apply existsb_exists in E. destruct E as (x & Hx & Hm). exists x. split; [assumption | apply memn_In; assumption].
Qed.

Lemma extra_lanes_sub : forall tk al x, In x (extra_lanes tk al) -> In x (lanes_of tk).
Proof.
  intros tk al x H. unfold extra_lanes in H. apply in_flat_map in H. destruct H as (y & Hy & Hx).
  destruct (memn y al); [destruct Hx | assumption].
Qed.

Section Closure.
  Variable s : state.
  Variable L0 : list nat.

  Lemma abort_lanes_outside : forall d kill al seen s0,
    graph s0 = graph s -> (forall x, In x kill -> laneR s L0 x) ->
    forall u, ~ inR s L0 u -> st (abort_lanes d kill al seen s0) u = st s0 u.
  Proof.
    induction d; intros kill al seen s0 G Hk u Hu; [reflexivity|].
    rewrite abort_lanes_S. destruct (select_abort (tasks s0) kill) eqn:Es; [reflexivity|]. rewrite <- Es.
    assert (Hsel : forall t, In t (select_abort (tasks s0) kill) -> inR s L0 t).
    { intros t Ht. destruct (select_has_lane (tasks s0) kill t Ht) as (L & x & Hx & Hin).
      change (nth t (tasks s0) dummy) with (get s0 t) in Hx. destruct (graph_get _ _ t G) as (_ & _ & El). rewrite El in Hx.
      rewrite (graph_len _ _ G) in L. eapply R_lane; eauto. }
    pose proof (abort_loop_within s (inR s L0) (R_halt s L0) (select_abort (tasks s0) kill) (kill ++ al) seen s0 G Hsel) as H.
    destruct (abort_loop _ _ _ _ _ _) as [[s1 seen1] lanes]; cbn [abort_cont]. destruct H as (A & B & C).
    destruct lanes as [|l0 lanes]; [apply B; assumption|].
    rewrite (IHd (l0 :: lanes) (kill ++ al) seen1 s1 A); [apply B; assumption | | assumption].
    intros x Hx. destruct (C x Hx) as (t & Rt & Ht). apply extra_lanes_sub in Ht. eapply L_mem; eauto.
  Qed.

  Theorem abort_lanes_top_outside : forall u, ~ inR s L0 u -> st (abort_lanes_top s L0) u = st s u.
  Proof.
    intros u Hu. unfold abort_lanes_top. rewrite st_ready_detect.
    apply abort_lanes_outside; auto. intros x Hx. apply L_kill. assumption.
  Qed.
End Closure.

(* the error path of the task runner: tasks outside the closure of the failed task's lanes keep their statuses -
   independent healthy lanes are left alone *)
Theorem finish_err_outside : forall s t u,
  panicked s = false -> memn t (running s) = true -> u <> t ->
  ~ inR (remove_running s t) (lanes_of (get s t)) u -> st (finish s t OErr) u = st s u.
Proof.
  intros s t u Hp Hr Hn Hu. unfold finish. rewrite Hp, Hr. simpl negb. cbv iota.
  rewrite st_set_status_other by assumption.
  change (get (remove_running s t) t) with (get s t).
  rewrite (abort_lanes_top_outside (remove_running s t) (lanes_of (get s t)) u Hu). reflexivity.
Qed.

(* non-vacuity: two tasks in lanes 1 and 2; aborting lane 1 leaves task 1 (lane 2) outside R *)
Scheme inR_mind := Minimality for inR Sort Prop
  with laneR_mind := Minimality for laneR Sort Prop.

Lemma outside_example :
  let s := init_state [([1], [], true); ([2], [], true)] in
  ~ inR s [1] 1 /\ inR s [1] 0.
Proof.
  cbv zeta. set (s := init_state [([1], [], true); ([2], [], true)]). split.
  - assert (H : forall t, inR s [1] t -> t = 0).
    { apply (inR_mind s [1] (fun t => t = 0) (fun x => x = 1)).
      - intros t x L Hx _ ->. destruct t as [|[|t]]; [reflexivity | | simpl in L; lia].
        simpl in Hx. destruct Hx as [Hx|[]]. discriminate Hx.
      - intros t h _ -> Hh. simpl in Hh. destruct Hh.
      - intros x [<-|[]]. reflexivity.
      - intros t x _ -> Hx. simpl in Hx. destruct Hx as [<-|[]]. reflexivity. }
    intros F. specialize (H 1 F). discriminate H.
  - apply (R_lane s [1] 0 1); [simpl; lia | simpl; left; reflexivity | apply L_kill; left; reflexivity].
Qed.
