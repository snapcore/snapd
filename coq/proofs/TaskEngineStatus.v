(* Proofs about models/TaskEngine.v: the aggregate change status (C03: settled_status_table,
   change_status_is_priority_aggregate), the ready flag (cready_run_events), the abort mapping (C01: abort_lanes_mapping,
   abort_change_mapping) and the witnesses of finding 11 (f11_graph, f11_prefix). *)
From Coq Require Import List Bool.
Import ListNotations.
Require Import V.models.TaskEngine V.proofs.TaskEngineProofs.

Lemma has_unready_not_all_ready : forall l x, has_status l x = true -> ready x = false -> all_ready l = false.
Proof.
  induction l as [|a l IH]; simpl; intros x H Hr; [discriminate|].
  apply orb_true_iff in H; destruct H as [H|H].
  - apply seqb_eq in H; rewrite H, Hr; reflexivity.
  - rewrite (IH x H Hr); apply andb_false_r.
Qed.

Lemma all_ready_has_not : forall l x, all_ready l = true -> ready x = false -> has_status l x = false.
Proof.
  intros l x A Hx. destruct (has_status l x) eqn:Hh; [|reflexivity].
  rewrite (has_unready_not_all_ready l x Hh Hx) in A; discriminate.
Qed.

Lemma not_all_ready_has : forall l, all_ready l = false ->
  has_status l Abort || has_status l Undoing || has_status l Undo || has_status l Doing || has_status l Do
  || has_status l Wait = true.
Proof.
  induction l as [|a l IH]; simpl; intros H; [discriminate|].
  destruct (ready (t_st a)) eqn:Er.
  - simpl in H. specialize (IH H). repeat rewrite orb_true_iff in IH. repeat rewrite orb_true_iff.
    destruct IH as [[[[[A|A]|A]|A]|A]|A]; rewrite A; rewrite ?orb_true_r; tauto.
  - destruct (t_st a); simpl in *; try discriminate; rewrite ?orb_true_r; reflexivity.
Qed.

Lemma change_status_find : forall l,
  change_status l = if has_status l Wait && is_change_waiting l then Wait
                    else match find (has_status l) status_order with Some x => x | None => Hold end.
Proof. destruct l; reflexivity. Qed.

Theorem settled_status_table : forall l : list task,
  all_ready l = true ->
  change_status l =
  if has_status l Error then Error else if has_status l Undone then Undone else if has_status l Done then Done else Hold.
Proof.
  intros l A. rewrite change_status_find. pose proof (all_ready_has_not l) as N.
  rewrite (N Wait) by auto. simpl andb. cbv iota. unfold status_order. cbn [find].
  rewrite (N Abort), (N Undoing), (N Undo), (N Doing), (N Do), (N Wait) by auto.
  destruct (has_status l Error); [reflexivity|]. destruct (has_status l Undone); [reflexivity|].
  destruct (has_status l Done); [reflexivity|]. destruct (has_status l Hold); reflexivity.
Qed.

Theorem change_status_ready : forall l, l <> [] -> ready (change_status l) = all_ready l.
Proof.
  intros l Hne. destruct (all_ready l) eqn:A.
  - rewrite (settled_status_table l A). repeat des_if; reflexivity.
  - rewrite change_status_find. destruct (has_status l Wait && is_change_waiting l); [reflexivity|].
    unfold status_order. cbn [find]. pose proof (not_all_ready_has l A) as D.
    destruct (has_status l Abort); [reflexivity|]. destruct (has_status l Undoing); [reflexivity|].
    destruct (has_status l Undo); [reflexivity|]. destruct (has_status l Doing); [reflexivity|].
    destruct (has_status l Do); [reflexivity|]. destruct (has_status l Wait); [reflexivity|].
    discriminate D.
Qed.

Theorem settled_error_iff : forall l : list task,
  all_ready l = true -> (change_status l = Error <-> has_status l Error = true).
Proof.
  intros l A. rewrite (settled_status_table l A).
  destruct (has_status l Error); [tauto|].
  split; [|discriminate]. destruct (has_status l Undone); [discriminate|]. destruct (has_status l Done); discriminate.
Qed.

Lemma occurs_has : forall l x, occurs (map t_st l) x = has_status l x.
Proof. intros; unfold occurs, has_status. induction l; simpl; [reflexivity|]. rewrite IHl; reflexivity. Qed.

Lemma agg_spec_find : forall g l,
  agg_spec g (map t_st l) =
  if change_waiting_spec g (map t_st l) then Wait
  else match find (has_status l) status_order with Some x => x | None => Hold end.
Proof.
  intros g l. unfold agg_spec. destruct l as [|a l']; [reflexivity|]. set (L := a :: l').
  change (map t_st L) with (t_st a :: map t_st l'). cbv beta iota. change (t_st a :: map t_st l') with (map t_st L).
  destruct (change_waiting_spec g (map t_st L)); [reflexivity|].
  rewrite !occurs_has. unfold status_order. cbn [find].
  repeat (destruct (has_status L _); [reflexivity|]). reflexivity.
Qed.

(* Change.Status and the documented aggregate differ in their Wait test only *)
Lemma change_status_agg : forall g l,
  has_status l Wait && is_change_waiting l = change_waiting_spec g (map t_st l) -> change_status l = agg_spec g (map t_st l).
Proof. intros g l E. rewrite change_status_find, agg_spec_find, E. reflexivity. Qed.

Lemma change_waiting_spec_nowait : forall g l, has_status l Wait = false -> change_waiting_spec g (map t_st l) = false.
Proof.
  intros g l Hw. unfold change_waiting_spec.
  change (existsb (fun x => seqb x Wait) (map t_st l)) with (occurs (map t_st l) Wait). rewrite occurs_has, Hw. reflexivity.
Qed.

(* without tasks in Wait the aggregate is the first status of the documented priority list that some task has
   (agg_spec is the independent statement used by the monitor; it never looks at the graph in this case) *)
Theorem change_status_is_priority_aggregate : forall (g : list tdesc) (l : list task),
  has_status l Wait = false -> change_status l = agg_spec g (map t_st l).
Proof. intros g l Hw. apply change_status_agg. rewrite Hw, change_waiting_spec_nowait by assumption. reflexivity. Qed.

Lemma cready_change_st : forall s t nw, cready s = true -> cready (change_st s t nw) = true.
Proof. intros; unfold change_st, with_panicked, with_cready, with_tasks; repeat des_if; auto. Qed.
Lemma cready_set_status : forall s t nw, cready s = true -> cready (set_status s t nw) = true.
Proof. intros; unfold set_status; repeat des_if; auto using cready_change_st. Qed.
Lemma cready_set_to_wait : forall s t ws, cready s = true -> cready (set_to_wait s t ws) = true.
Proof. intros; unfold set_to_wait; repeat des_if; auto. apply cready_change_st; assumption. Qed.
Lemma cready_try_undo : forall s t, cready s = true -> cready (try_undo s t) = true.
Proof. intros; unfold try_undo; des_if; auto using cready_set_status. Qed.
Lemma cready_abort_write : forall s t, cready (abort_write s t) = cready s.
Proof. intros. rewrite abort_write_eq. destruct (abort_to _); reflexivity. Qed.
Lemma cready_ready_detect : forall s, cready s = true -> cready (ready_detect s) = true.
Proof. intros s H; unfold ready_detect; rewrite H; des_if; [assumption | exact H]. Qed.

Lemma cready_move : forall s e s', move s e s' -> cready s = true -> cready s' = true.
Proof.
  intros s e s' M H. destruct M; auto using cready_set_status, cready_try_undo, cready_set_to_wait.
  - rewrite run_eq. change (cready (run_write s t) = true). unfold run_write. destruct (st s t); auto using cready_set_status.
  - apply cready_set_status, cready_ready_detect.
    apply (abort_lanes_P (fun x => cready x = true)); auto. intros; rewrite cready_abort_write; assumption.
  - apply cready_ready_detect.
    apply (abort_tasks_P (fun x => cready x = true)); auto. intros; rewrite cready_abort_write; assumption.
Qed.

Theorem cready_run_events : forall es s, cready s = true -> cready (run_events s es) = true.
Proof.
  apply (run_events_ind (fun s => cready s = true)). intros s e.
  apply (step_ind (fun x => cready x = true)). intros x x'; apply cready_move.
Qed.

Lemma amap_refl : forall a, abort_map_ok a a = true.
Proof. destruct a; reflexivity. Qed.
Lemma amap_trans : forall a b c, abort_map_ok a b = true -> abort_map_ok b c = true -> abort_map_ok a c = true.
Proof. destruct a, b; simpl; intros c H1; try discriminate H1; destruct c; simpl; intros H2; auto. Qed.

Lemma amap_from_error : forall x, abort_map_ok Error x = true -> x = Error.
Proof. destruct x; simpl; intros H; try discriminate; reflexivity. Qed.
Lemma amap_to_error : forall a, abort_map_ok a Error = true -> a = Error.
Proof. destruct a; simpl; intros H; try discriminate; reflexivity. Qed.
Lemma amap_to_wait : forall a, abort_map_ok a Wait = true -> a = Wait.
Proof. destruct a; simpl; intros H; try discriminate; reflexivity. Qed.

Lemma abort_write_amap : forall s t u, abort_map_ok (st s u) (st (abort_write s t) u) = true.
Proof.
  intros s t u. rewrite abort_write_eq. unfold eff_status. fold (st s t).
  destruct (abort_to _) as [nw|] eqn:E; [|apply amap_refl].
  destruct (st_put s t nw u) as [A|[-> A]]; rewrite A; [apply amap_refl|].
  destruct (st s t); simpl in E; [| | | | | | | | |destruct (t_waited (get s t))]; inversion E; reflexivity.
Qed.

(* whatever lanes are aborted: a task keeps its status or moves Do->Hold, Doing->Abort, Done->Undo
   (a task in Wait according to the status it waits to get) *)
Theorem abort_lanes_mapping : forall d kill al seen s u,
  abort_map_ok (st s u) (st (abort_lanes d kill al seen s) u) = true.
Proof.
  intros. apply (abort_lanes_P (fun x => abort_map_ok (st s u) (st x u) = true)); auto using amap_refl.
  intros s0 t H. eapply amap_trans; [exact H | apply abort_write_amap].
Qed.

Lemma abort_lanes_top_mapping : forall s lanes u, abort_map_ok (st s u) (st (abort_lanes_top s lanes) u) = true.
Proof. intros. unfold abort_lanes_top. rewrite st_ready_detect. apply abort_lanes_mapping. Qed.

Theorem abort_change_mapping : forall s u, abort_map_ok (st s u) (st (abort_change s) u) = true.
Proof.
  intros. unfold abort_change. rewrite st_ready_detect.
  apply (abort_tasks_P (fun x => abort_map_ok (st s u) (st x u) = true)); auto using amap_refl.
  intros s0 t H. eapply amap_trans; [exact H | apply abort_write_amap].
Qed.

(* finding 11 (repaired by d3068df) *)
Definition f11_graph : list tdesc := [([], [1; 2], true); ([], [], true); ([], [], true)].
Definition f11_prefix : list event := [Ensure [0; 1; 2]; Finish 1 OOk; Finish 2 OOk].
