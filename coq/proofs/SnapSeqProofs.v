(* Proofs about models/SnapSeq.v: the invariant `wf` of settled states, a failed change read as nesting (`run_fail`,
   `do_undo_nested`), the `essential` task list of every kind of operation (`install_tasks_ess`, `remove_ess`, ...), and the
   witness states `s_two`, `s_reverted` used by props/C10.v. *)
From Coq Require Import List NArith ZArith Bool Arith Lia Sorting.Sorted.
Import ListNotations.
Require Import V.models.SnapSeq V.proofs.ListFacts.
Open Scope N_scope.

Lemma mem_In : forall x l, mem x l = true <-> In x l.
Proof.
  induction l as [|y r IH]; simpl; [split; [discriminate|tauto]|].
  rewrite orb_true_iff, IH, N.eqb_eq. split; intros [H|H]; auto.
Qed.

Lemma mem_false : forall x l, mem x l = false <-> ~ In x l.
Proof. intros. rewrite <- mem_In. destruct (mem x l); split; intros; congruence. Qed.

Lemma In_firstn : forall A (n : nat) (l : list A) x, In x (firstn n l) -> In x l.
Proof. intros A n l x H. rewrite <- (firstn_skipn n l). apply in_or_app. left. exact H. Qed.

Lemma In_skipn : forall A (n : nat) (l : list A) x, In x (skipn n l) -> In x l.
Proof. intros A n l x H. rewrite <- (firstn_skipn n l). apply in_or_app. right. exact H. Qed.

Lemma last_index_none : forall x l, last_index x l = None <-> ~ In x l.
Proof.
  induction l as [|y r IH]; simpl; [tauto|].
  destruct (last_index x r) as [i|] eqn:E.
  - split; [discriminate|]. intros H. exfalso. apply H. right.
    destruct (in_dec N.eq_dec x r) as [I|I]; auto. apply IH in I. discriminate.
  - destruct (x =? y) eqn:Q.
    + apply N.eqb_eq in Q. subst. split; [discriminate|]. intros H; exfalso; apply H; auto.
    + apply N.eqb_neq in Q. split; auto. intros _ [H|H]; [congruence|]. apply IH in H; auto.
Qed.

Lemma last_index_some : forall x l, In x l -> exists i, last_index x l = Some i.
Proof.
  intros x l I. destruct (last_index x l) as [i|] eqn:E; [eauto|]. apply last_index_none in E. tauto.
Qed.

Lemma last_index_split : forall x l i, NoDup l -> last_index x l = Some i ->
  exists a b, l = a ++ x :: b /\ length a = i /\ ~ In x a /\ ~ In x b.
Proof.
  induction l as [|y r IH]; simpl; intros i ND H; [discriminate|].
  inversion ND as [|? ? Hy ND']; subst.
  destruct (last_index x r) as [j|] eqn:E.
  - inversion H; subst. destruct (IH j ND' eq_refl) as (a & b & -> & La & Na & Nb).
    exists (y :: a), b. simpl. repeat split; auto.
    intros [Q|Q]; auto. subst. apply Hy. apply in_or_app. right. left. reflexivity.
  - destruct (x =? y) eqn:Q; [|discriminate]. apply N.eqb_eq in Q. subst. inversion H; subst.
    exists [], r. simpl. repeat split; auto.
Qed.

Lemma last_index_mid : forall x a b, ~ In x b -> last_index x (a ++ x :: b) = Some (length a).
Proof.
  induction a as [|y r IH]; simpl; intros b Nb.
  - apply last_index_none in Nb. rewrite Nb, N.eqb_refl. reflexivity.
  - rewrite (IH b Nb). reflexivity.
Qed.

Lemma last_index_app_last : forall x l, last_index x (l ++ [x]) = Some (length l).
Proof. intros. apply last_index_mid. intros []. Qed.

Lemma last_index_lt : forall x l i, last_index x l = Some i -> (i < length l)%nat.
Proof.
  induction l as [|y r IH]; simpl; intros i H; [discriminate|].
  destruct (last_index x r) as [j|] eqn:E.
  - inversion H; subst. specialize (IH j eq_refl). lia.
  - destruct (x =? y); inversion H; subst. lia.
Qed.

Lemma remove_at_app : forall a x b, remove_at (length a) (a ++ x :: b) = a ++ b.
Proof. induction a as [|y r IH]; simpl; intros; [reflexivity|]. rewrite IH. reflexivity. Qed.

Lemma skipn_after : forall (x y : list N) c, skipn (S (length x)) (x ++ c :: y) = y.
Proof.
  intros. replace (S (length x)) with (length (x ++ [c])) by (rewrite app_length; simpl; lia).
  replace (x ++ c :: y) with ((x ++ [c]) ++ y) by (rewrite <- app_assoc; reflexivity). apply skipn_app_exact.
Qed.

(* moving a kept revision to the end of the list, as link-snap does *)
Lemma moved_last : forall (a b : list N) r, NoDup (a ++ r :: b) ->
  NoDup ((a ++ b) ++ [r]) /\ forall x, In x ((a ++ b) ++ [r]) <-> In x (a ++ r :: b).
Proof.
  intros a b r ND. split.
  - apply NoDup_snoc; [eapply NoDup_remove_1; eauto|eapply NoDup_remove_2; eauto].
  - intros x. rewrite !in_app_iff. simpl. tauto.
Qed.

Lemma NoDup_firstn : forall (n : nat) (l : list N), NoDup l -> NoDup (firstn n l).
Proof.
  induction n as [|n IH]; intros l ND; [constructor|]. destruct l as [|x l]; [constructor|].
  inversion ND; subst. simpl. constructor; [|apply IH; assumption]. intros I. apply H1. eapply In_firstn; exact I.
Qed.

Lemma last_In : forall (l : list N) d, l <> [] -> In (last l d) l.
Proof.
  induction l as [|x l IH]; intros d H; [congruence|]. destruct l as [|y l]; [left; reflexivity|].
  right. apply IH. discriminate.
Qed.

Lemma In_rem : forall x y l, In y (rem x l) <-> In y l /\ y <> x.
Proof.
  intros. unfold rem. rewrite filter_In, negb_true_iff, N.eqb_neq. tauto.
Qed.

Lemma rem_notin : forall x l, ~ In x l -> rem x l = l.
Proof. intros x l H. apply filter_all. intros y Hy. apply negb_true_iff, N.eqb_neq. intros ->. auto. Qed.

Lemma NoDup_rem : forall x (l : list N), NoDup l -> NoDup (rem x l).
Proof. intros. unfold rem. apply NoDup_filter. assumption. Qed.

Definition sorted (l : list N) : Prop := StronglySorted N.lt l.

Lemma sorted_nil : sorted []. Proof. constructor. Qed.

Lemma In_ins : forall x y l, In y (ins x l) <-> y = x \/ In y l.
Proof.
  induction l as [|z r IH]; simpl; [intuition|].
  destruct (x <? z) eqn:L; simpl; [intuition|].
  destruct (x =? z) eqn:Q; simpl.
  - apply N.eqb_eq in Q. subst. intuition.
  - rewrite IH. intuition.
Qed.

Lemma sorted_ins : forall x l, sorted l -> sorted (ins x l).
Proof.
  unfold sorted. induction l as [|z r IH]; simpl; intros S.
  - constructor; constructor.
  - inversion S as [|? ? S' F]; subst.
    destruct (x <? z) eqn:L.
    + apply N.ltb_lt in L. constructor; auto. constructor; auto.
      rewrite Forall_forall in *. intros y Hy. specialize (F y Hy). lia.
    + destruct (x =? z) eqn:Q; auto.
      apply N.ltb_ge in L. apply N.eqb_neq in Q.
      constructor; auto. rewrite Forall_forall in *. intros y Hy. apply In_ins in Hy.
      destruct Hy as [->|Hy]; [lia|auto].
Qed.

Lemma sorted_filter : forall f l, sorted l -> sorted (filter f l).
Proof.
  unfold sorted. induction l as [|z r IH]; simpl; intros S; [constructor|].
  inversion S as [|? ? S' F]; subst.
  destruct (f z); simpl; auto. constructor; auto.
  rewrite Forall_forall in *. intros y Hy. apply filter_In in Hy. apply F. tauto.
Qed.

Lemma sorted_rem : forall x l, sorted l -> sorted (rem x l).
Proof. intros. apply sorted_filter. assumption. Qed.

Lemma rem_ins : forall x l, sorted l -> ~ In x l -> rem x (ins x l) = l.
Proof.
  unfold sorted. induction l as [|z r IH]; simpl; intros S H.
  - unfold rem. simpl. rewrite N.eqb_refl. reflexivity.
  - inversion S as [|? ? S' F]; subst.
    assert (z <> x) by (intros ->; apply H; auto).
    destruct (x <? z) eqn:L.
    + unfold rem. simpl. rewrite N.eqb_refl. simpl.
      destruct (z =? x) eqn:Q; [apply N.eqb_eq in Q; congruence|]. simpl.
      f_equal. apply rem_notin. intros I. apply H. auto.
    + destruct (x =? z) eqn:Q; [apply N.eqb_eq in Q; congruence|].
      unfold rem. simpl. destruct (z =? x) eqn:Q2; [apply N.eqb_eq in Q2; congruence|]. simpl.
      f_equal. apply IH; auto.
Qed.

Lemma sorted_NoDup : forall l, sorted l -> NoDup l.
Proof.
  unfold sorted. induction l as [|z r IH]; intros S; constructor; inversion S as [|? ? S' F]; subst; auto.
  intros I. rewrite Forall_forall in F. specialize (F z I). lia.
Qed.

Lemma rc_get_set_same : forall r v m, rc_get r (rc_set r v m) = Some v.
Proof.
  induction m as [|[k w] t IH]; simpl; [rewrite N.eqb_refl; reflexivity|].
  destruct (r <? k) eqn:L; simpl; [rewrite N.eqb_refl; reflexivity|].
  destruct (r =? k) eqn:Q; simpl; [rewrite N.eqb_refl; reflexivity|].
  rewrite N.eqb_sym, Q. exact IH.
Qed.

Lemma restore_after_save : forall c v m cfg', v <> 0 -> restore_rev_cfg c cfg' (save_rev_cfg c v m) = v.
Proof.
  intros. unfold restore_rev_cfg, save_rev_cfg.
  destruct (v =? 0) eqn:Q; [apply N.eqb_eq in Q; congruence|]. rewrite rc_get_set_same. reflexivity.
Qed.

(* what holds of the recorded state and the world between changes (C11 proves that every change, completed or failed
   and undone, preserves it) *)
Record wf (s : st) : Prop := mkWf {
  wf_nodup : NoDup (seq s);
  wf_cur : seq s <> [] -> In (cur s) (seq s);
  wf_zero : seq s = [] -> s = mkSt [] 0 false 0 false false false false false 0 0 0 [] 0 (revcfg s) [] 0;
  wf_nb : incl (nb s) (seq s);
  wf_nb_sorted : sorted (nb s);
  wf_mounted_sorted : sorted (mounted s);
  wf_mounted : forall x, In x (mounted s) <-> In x (seq s);
  wf_link : link s = if active s then cur s else 0
}.

(* the C10 projection: everything but the revision-config bookkeeping *)
Definition forget (s : st) : st :=
  mkSt (seq s) (cur s) (active s) (chan s) (devmode s) (jailmode s) (classic s) (trymode s) (ignoreval s) (cohort s)
       (lastref s) (inhib s) (nb s) (cfg s) [] (mounted s) (link s).

(* what C11 states, read off the invariant *)
Theorem wf_consistent : forall s, wf s ->
  NoDup (seq s) /\ (seq s <> [] -> In (cur s) (seq s)) /\ (forall x, In x (mounted s) <-> In x (seq s)) /\
  (active s = true -> link s = cur s) /\ (active s = false -> link s = 0) /\
  (seq s = [] -> active s = false /\ link s = 0 /\ cfg s = 0 /\ mounted s = [] /\ cur s = 0).
Proof.
  intros s [W1 W2 W3 W4 W5 W6 W7 W8].
  refine (conj W1 (conj W2 (conj W7 (conj _ (conj _ _))))).
  - intros A. rewrite W8, A. reflexivity.
  - intros A. rewrite W8, A. reflexivity.
  - intros E. rewrite (W3 E). simpl. auto.
Qed.

Lemma norm_id : forall s, seq s <> [] -> norm s = s.
Proof. intros s H. unfold norm. destruct (seq s); congruence. Qed.

(* doDiscardSnap when d is not the last kept revision: neither the `[_]` case of do_discard nor `norm` applies *)
Lemma do_discard_more : forall d X x y, In x (seq X) -> In y (seq X) -> x <> y -> x <> d ->
  do_discard d X
  = mkSt (rem d (seq X)) (if cur X =? d then last (rem d (seq X)) 0 else cur X) (active X) (chan X) (devmode X) (jailmode X)
         (classic X) (trymode X) (ignoreval X) (cohort X) (lastref X) (inhib X) (rem d (nb X)) (cfg X) (rc_del d (revcfg X))
         (rem d (mounted X)) (link X).
Proof.
  intros d X x y Ix Iy XY XD. unfold do_discard.
  assert (I : In x (rem d (seq X))) by (apply In_rem; auto).
  destruct (seq X) as [|a [|b l]] eqn:SQ; [destruct Ix|destruct Ix as [<-|[]]; destruct Iy as [<-|[]]; congruence|].
  destruct (rem d (a :: b :: l)) as [|u v]; [destruct I|]. reflexivity.
Qed.

Lemma installed_iff : forall s, installed s = true <-> seq s <> [].
Proof. intros s. unfold installed. destruct (seq s); split; congruence. Qed.

Lemma wf_forget : forall a b, forget a = forget b -> wf b -> wf a.
Proof.
  intros [] [] H [W1 W2 W3 W4 W5 W6 W7 W8]. unfold forget in H. simpl in *. injection H; intros; subst.
  constructor; simpl; auto.
  intros E. specialize (W3 E). injection W3; intros; subst. reflexivity.
Qed.

(* the configuration and its per-revision snapshots matter to the invariant only when the snap is gone *)
Lemma wf_set_cfgs : forall c rc X, wf X -> seq X <> [] -> wf (set_cfgs c rc X).
Proof. intros c rc X [W1 W2 W3 W4 W5 W6 W7 W8] NE. constructor; simpl; auto. intros E. congruence. Qed.

(* do a task, run the rest and undo it, undo the task: the nested reading of `do the prefix, undo it in reverse` *)
Fixpoint run_fail (o : op) (cleared : bool) (ts : list task) (s : st) : st :=
  match ts with
  | [] => s
  | t :: r => let (s', d) := do_task o t s in undo_task o cleared t d (run_fail o cleared r s')
  end.

Lemma do_undo_nested : forall o c ts s done,
  (let (s', d') := do_all o ts s done in undo_all o c d' s') = undo_all o c done (run_fail o c ts s).
Proof.
  induction ts as [|t r IH]; intros s done; simpl; [reflexivity|].
  destruct (do_task o t s) as [s' d] eqn:E. rewrite IH. simpl. reflexivity.
Qed.

Lemma run_change_fail : forall o j ts s,
  run_change o (S j) ts s =
  run_fail o (existsb (fun t => kind_eqb (fst t) KClear && (snd t =? cur s)) (firstn j ts)) (firstn j ts) s.
Proof.
  intros. unfold run_change.
  pose proof (do_undo_nested o (existsb (fun t => kind_eqb (fst t) KClear && (snd t =? cur s)) (firstn j ts))
                (firstn j ts) s []) as H.
  destruct (do_all o (firstn j ts) s []) as [s' d']. simpl in H. exact H.
Qed.

Definition run_ok (o : op) (ts : list task) (s : st) : st := fold_left (fun s t => fst (do_task o t s)) ts s.

Lemma do_all_run_ok : forall o ts s d, fst (do_all o ts s d) = run_ok o ts s.
Proof.
  induction ts as [|t r IH]; intros s d; [reflexivity|]. cbn [do_all].
  destruct (do_task o t s) as [s' x] eqn:E. rewrite IH. unfold run_ok. cbn [fold_left]. rewrite E. reflexivity.
Qed.

Lemma run_ok_app : forall o a b X, run_ok o (a ++ b) X = run_ok o b (run_ok o a X).
Proof. intros. unfold run_ok. apply fold_left_app. Qed.

Lemma run_ok_cons : forall o t ts X, run_ok o (t :: ts) X = run_ok o ts (fst (do_task o t X)).
Proof. reflexivity. Qed.

(* the tasks that touch the recorded state or the world, in either direction *)
Definition essential (t : task) : bool :=
  match fst t with
  | KMount | KUnlinkCurrent | KLink | KDiscard | KConfigure | KUnlinkSnap => true
  | _ => false
  end.

Lemma run_fail_strip : forall o c ts s, run_fail o c ts s = run_fail o c (filter essential ts) s.
Proof.
  induction ts as [|[k r] ts IH]; intros s; simpl; [reflexivity|].
  destruct k; simpl; try (rewrite IH; reflexivity);
    unfold essential; simpl; unfold do_task, undo_task; simpl;
    try (destruct (do_link o s)); rewrite IH; reflexivity.
Qed.

Lemma run_ok_strip : forall o ts s, run_ok o ts s = run_ok o (filter essential ts) s.
Proof.
  unfold run_ok. induction ts as [|[k r] ts IH]; intros s; simpl; [reflexivity|].
  destruct k; simpl; try apply IH; unfold essential; simpl; apply IH.
Qed.

Lemma filter_firstn : forall (f : task -> bool) j l, exists j', filter f (firstn j l) = firstn j' (filter f l).
Proof.
  induction j as [|j IH]; intros l; [exists O; reflexivity|].
  destruct l as [|x l]; [exists O; reflexivity|]. simpl.
  destruct (IH l) as [j' E]. destruct (f x).
  - exists (S j'). simpl. rewrite E. reflexivity.
  - exists j'. exact E.
Qed.

Lemma run_change_ok : forall o ts s, run_change o 0 ts s = run_ok o (filter essential ts) s.
Proof. intros. unfold run_change. rewrite do_all_run_ok. apply run_ok_strip. Qed.

Lemma run_change_failed : forall o j ts s, exists j' c,
  run_change o (S j) ts s = run_fail o c (firstn j' (filter essential ts)) s /\
  filter essential (firstn j ts) = firstn j' (filter essential ts).
Proof.
  intros. rewrite run_change_fail, run_fail_strip.
  destruct (filter_firstn essential j ts) as [j' E]. rewrite E. eauto.
Qed.

Lemma run_fail_mount : forall o c r ts X,
  run_fail o c ((KMount, r) :: ts) X = undo_mount r (run_fail o c ts (do_mount r X)).
Proof. reflexivity. Qed.

Lemma run_fail_unlink_current : forall o c r ts X,
  run_fail o c ((KUnlinkCurrent, r) :: ts) X = undo_unlink_current (run_fail o c ts (do_unlink_current X)).
Proof. reflexivity. Qed.

Lemma run_fail_link : forall o c r ts X,
  run_fail o c ((KLink, r) :: ts) X = undo_link o (snd (do_link o X)) (run_fail o c ts (fst (do_link o X))).
Proof. intros. cbn [run_fail]. unfold do_task, undo_task. cbn [fst snd]. destruct (do_link o X). reflexivity. Qed.

Lemma run_fail_unlink_snap : forall o c r ts X,
  run_fail o c ((KUnlinkSnap, r) :: ts) X = undo_unlink_snap (negb c) (run_fail o c ts (do_unlink_snap X)).
Proof. reflexivity. Qed.

(* discard-snap and the configure hook have no undo *)
Lemma run_fail_no_undo : forall o c ts X,
  (forall t, In t ts -> fst t = KDiscard \/ fst t = KConfigure) -> run_fail o c ts X = run_ok o ts X.
Proof.
  induction ts as [|[k r] ts IH]; intros X H; [reflexivity|].
  assert (K : k = KDiscard \/ k = KConfigure) by (apply (H (k, r)); left; reflexivity).
  assert (IH' : forall Y, run_fail o c ts Y = run_ok o ts Y) by (intros Y; apply IH; intros t Ht; apply H; right; exact Ht).
  unfold run_ok in *. cbn [run_fail fold_left].
  destruct K as [-> | ->]; unfold do_task, undo_task; cbn [fst snd]; apply IH'.
Qed.

Definition is_discard (t : task) : bool := kind_eqb (fst t) KDiscard.

Definition discards (D : list N) : list task := map (fun r => (KDiscard, r)) D.

Lemma filter_ess_gc : forall l, filter essential (flat_map remove_rev_tasks l) = discards l.
Proof. unfold discards. induction l as [|x l IH]; [reflexivity|]. simpl map. rewrite <- IH. reflexivity. Qed.

Lemma discards_of_map : forall D : list N, map snd (filter is_discard (discards D)) = D.
Proof. induction D as [|d D IH]; [reflexivity|]. simpl. f_equal. exact IH. Qed.

Lemma firstn_discards : forall n D, firstn n (discards D) = discards (firstn n D).
Proof. intros. apply firstn_map. Qed.

(* the tasks after link-snap: the discards of the garbage collection and the configure hook *)
Lemma run_fail_after_link : forall o c D (h : bool) r X,
  run_fail o c (discards D ++ (if h then [(KConfigure, r)] else [])) X
  = run_ok o (discards D ++ (if h then [(KConfigure, r)] else [])) X.
Proof.
  intros. apply run_fail_no_undo. intros t Ht. apply in_app_iff in Ht. destruct Ht as [Ht|Ht].
  - apply in_map_iff in Ht. destruct Ht as (x & <- & _). left; reflexivity.
  - destruct h; [destruct Ht as [<-|[]]; right; reflexivity|destruct Ht].
Qed.

Lemma run_fail_discards : forall o c D X, run_fail o c (discards D) X = run_ok o (discards D) X.
Proof. intros. rewrite <- (app_nil_r (discards D)). apply (run_fail_after_link o c D false 0). Qed.

Lemma filter_discard_ess : forall l : list task, filter is_discard (filter essential l) = filter is_discard l.
Proof.
  induction l as [|[k r] l IH]; [reflexivity|]. cbn [filter].
  destruct (essential (k, r)) eqn:E; cbn [filter].
  - destruct (is_discard (k, r)); rewrite IH; reflexivity.
  - assert (Z : is_discard (k, r) = false) by (destruct k; try discriminate E; reflexivity).
    rewrite Z. exact IH.
Qed.

Lemma no_discard_filter : forall l : list task,
  forallb (fun t => negb (is_discard t)) l = true -> filter is_discard l = [].
Proof.
  induction l as [|t l IH]; [reflexivity|]. cbn [forallb filter]. intros H. apply andb_true_iff in H.
  destruct H as [H1 H2]. apply negb_true_iff in H1. rewrite H1. auto.
Qed.

Definition c10_op (o : op) : Prop := okind o = OInstall \/ okind o = ORefresh \/ okind o = ORevert.

Lemma tasks_for_c10 : forall o s retain inuse, c10_op o -> tasks_for o s retain inuse = install_tasks o s retain inuse.
Proof. intros o s retain inuse [K|[K|K]]; unfold tasks_for; rewrite K; reflexivity. Qed.

Lemma is_revert_iff : forall o, is_revert o = true <-> okind o = ORevert.
Proof. intros o. unfold is_revert. destruct (okind o); split; congruence. Qed.

Ltac bool_hyps :=
  repeat match goal with
  | H : _ && _ = true |- _ => apply andb_true_iff in H; destruct H
  | H : negb _ = true |- _ => apply negb_true_iff in H
  | H : _ =? _ = true |- _ => apply N.eqb_eq in H
  | H : _ =? _ = false |- _ => apply N.eqb_neq in H
  end.

Lemma accepts_refresh : forall o s, okind o = ORefresh -> accepts o s = true ->
  seq s <> [] /\ active s = true /\ orev o <> cur s.
Proof.
  intros o s K AC. unfold accepts in AC. rewrite K in AC. bool_hyps.
  repeat split; auto. apply installed_iff. assumption.
Qed.

Lemma accepts_revert : forall o s, okind o = ORevert -> accepts o s = true ->
  seq s <> [] /\ active s = true /\ orev o <> cur s /\ In (orev o) (seq s).
Proof.
  intros o s K AC. unfold accepts in AC. rewrite K in AC. bool_hyps.
  match goal with H : mem _ _ = true |- _ => apply mem_In in H; rename H into I end.
  repeat split; auto. intros E. rewrite E in I. destruct I.
Qed.

Lemma c10_accepted : forall o s, c10_op o -> accepts o s = true ->
  (seq s = [] /\ is_revert o = false) \/
  (seq s <> [] /\ active s = true /\ orev o <> cur s /\ (is_revert o = true -> In (orev o) (seq s))).
Proof.
  intros o s [K|[K|K]] AC.
  - left. unfold accepts, installed, is_revert in *. rewrite K in *. destruct (seq s); [split; reflexivity|discriminate].
  - right. destruct (accepts_refresh o s K AC) as (NE & A & RC). unfold is_revert. rewrite K. repeat split; auto. discriminate.
  - right. destruct (accepts_revert o s K AC) as (NE & A & RC & I). auto.
Qed.

Lemma accepts_remove : forall o s, okind o = ORemove -> accepts o s = true -> seq s <> [].
Proof. intros o s K AC. unfold accepts in AC. rewrite K in AC. apply installed_iff. exact AC. Qed.

Lemma accepts_remove_rev : forall o s, okind o = ORemoveRev -> accepts o s = true ->
  In (orev o) (seq s) /\ (orev o = cur s -> active s = false).
Proof.
  intros o s K AC. unfold accepts in AC. rewrite K in AC. bool_hyps. split; [apply mem_In; assumption|].
  intros E. match goal with H : active s && _ = false |- _ => rewrite E, N.eqb_refl, andb_true_r in H; exact H end.
Qed.

Lemma accepts_enable : forall o s, okind o = OEnable -> accepts o s = true ->
  seq s <> [] /\ active s = false /\ orev o = cur s.
Proof.
  intros o s K AC. unfold accepts in AC. rewrite K in AC. bool_hyps. repeat split; auto. apply installed_iff. assumption.
Qed.

Lemma accepts_disable : forall o s, okind o = ODisable -> accepts o s = true -> seq s <> [] /\ active s = true.
Proof.
  intros o s K AC. unfold accepts in AC. rewrite K in AC. bool_hyps. split; auto. apply installed_iff. assumption.
Qed.

(* install / refresh / revert: mount-snap of a revision that is not kept yet and unlink-current-snap of an installed
   snap, then link-snap, the discards of the garbage collection (refresh only), and the configure hook *)
Definition pre_link (o : op) (s : st) : list task :=
  (if mem (orev o) (seq s) then [] else [(KMount, orev o)]) ++ (if installed s then [(KUnlinkCurrent, orev o)] else []).

Definition gc_of (o : op) (s : st) (retain : Z) (inuse : N -> bool) : list N :=
  if installed s && negb (is_revert o) then gc_revs s (orev o) retain inuse else [].

Lemma gc_of_refresh : forall o s retain inuse, okind o = ORefresh -> seq s <> [] ->
  gc_of o s retain inuse = gc_revs s (orev o) retain inuse.
Proof. intros o s retain inuse K NE. apply installed_iff in NE. unfold gc_of, is_revert. rewrite NE, K. reflexivity. Qed.

Lemma filter_map_kinds : forall r (ks : list kind),
  filter essential (map (fun k => (k, r)) ks) = map (fun k => (k, r)) (filter (fun k => essential (k, r)) ks).
Proof. induction ks as [|k ks IH]; simpl; [reflexivity|]. destruct (essential (k, r)); simpl; rewrite IH; reflexivity. Qed.

Lemma install_tasks_ess : forall o s retain inuse,
  filter essential (install_tasks o s retain inuse)
  = pre_link o s ++ (KLink, orev o) :: discards (gc_of o s retain inuse) ++ [(KConfigure, orev o)].
Proof.
  intros. unfold install_tasks, pre_link, gc_of.
  rewrite !filter_app, filter_map_kinds.
  destruct (mem (orev o) (seq s)), (installed s), (is_revert o), (ofromstore o); simpl;
    try rewrite filter_app; try rewrite filter_ess_gc; simpl; rewrite ?app_nil_r; reflexivity.
Qed.

Lemma pre_link_no_discard : forall o s, filter is_discard (pre_link o s) = [].
Proof. intros. unfold pre_link. destruct (mem (orev o) (seq s)), (installed s); reflexivity. Qed.

Lemma firstn_gc_tail : forall j G (t : task), exists m (h : bool),
  firstn j (discards G ++ [t]) = discards (firstn m G) ++ (if h then [t] else []).
Proof.
  intros j G t. exists j, (length G <? j)%nat.
  rewrite firstn_app, firstn_discards. unfold discards at 2. rewrite map_length. f_equal.
  destruct (length G <? j)%nat eqn:LT.
  - apply Nat.ltb_lt in LT. destruct (j - length G)%nat eqn:Z; [lia|cbn; rewrite firstn_nil; reflexivity].
  - apply Nat.ltb_ge in LT. replace (j - length G)%nat with O by lia. reflexivity.
Qed.

Lemma discards_of_link_tail : forall r D (h : bool),
  map snd (filter is_discard ((KLink, r) :: discards D ++ (if h then [(KConfigure, r)] else []))) = D.
Proof.
  intros. cbn [filter is_discard fst kind_eqb]. rewrite filter_app, map_app, discards_of_map. destruct h; apply app_nil_r.
Qed.

Lemma In_discards_firstn : forall (l : list task) j x,
  In x (map snd (filter is_discard (firstn j l))) -> In x (map snd (filter is_discard l)).
Proof.
  intros l j x H. apply in_map_iff in H. destruct H as (t & E & H). apply filter_In in H. destruct H as [H D].
  apply in_map_iff. exists t. split; [exact E|]. apply filter_In. split; [eapply In_firstn; exact H|exact D].
Qed.

Lemma install_discards : forall o s retain inuse,
  map snd (filter is_discard (install_tasks o s retain inuse)) = gc_of o s retain inuse.
Proof.
  intros. rewrite <- filter_discard_ess, install_tasks_ess, filter_app, pre_link_no_discard.
  apply (discards_of_link_tail (orev o) _ true).
Qed.

Lemma enable_ess : forall o s retain inuse,
  okind o = OEnable -> filter essential (tasks_for o s retain inuse) = [(KLink, cur s)].
Proof. intros o s retain inuse K. unfold tasks_for. rewrite K. reflexivity. Qed.

Lemma disable_ess : forall o s retain inuse,
  okind o = ODisable -> filter essential (tasks_for o s retain inuse) = [(KUnlinkSnap, cur s)].
Proof. intros o s retain inuse K. unfold tasks_for. rewrite K. reflexivity. Qed.

(* remove: every other revision, in reverse sequence order, then the current one *)
Lemma remove_ess : forall o s retain inuse,
  okind o = ORemove ->
  filter essential (tasks_for o s retain inuse)
  = (if active s then [(KUnlinkSnap, cur s)] else []) ++ discards (rev (rem (cur s) (seq s)) ++ [cur s]).
Proof.
  intros o s retain inuse K. unfold tasks_for. rewrite K. unfold remove_tasks. rewrite K. unfold discards. rewrite map_app.
  rewrite !filter_app, filter_ess_gc. destruct (active s); reflexivity.
Qed.

(* remove --revision: accepted on the only kept revision only when the snap is inactive, so no unlink-snap *)
Lemma remove_rev_ess : forall o s retain inuse,
  okind o = ORemoveRev -> accepts o s = true -> wf s ->
  filter essential (tasks_for o s retain inuse) = [(KDiscard, orev o)].
Proof.
  intros o s retain inuse K AC W. destruct (accepts_remove_rev o s K AC) as [IN CA].
  unfold tasks_for. rewrite K. unfold remove_tasks. rewrite K.
  destruct (seq s) as [|a [|b l]] eqn:SQ; [destruct IN| |reflexivity].
  destruct IN as [IN|[]].
  assert (C : In (cur s) (seq s)) by (apply (wf_cur s W); rewrite SQ; discriminate).
  rewrite SQ in C. destruct C as [C|[]].
  rewrite CA by congruence. reflexivity.
Qed.

(* guard for finding 13: the snap has some configuration, or nothing can write configuration during the change *)
Definition cfg_guard (o : op) (s : st) : Prop :=
  cfg s <> 0 \/ seq s = [] \/
  (ohookcfg o = 0 /\ rc_get (cur s) (revcfg s) = None /\ (is_revert o = true -> rc_get (orev o) (revcfg s) = None)).

Definition mk_refresh (r hook now : N) : op := mkOp ORefresh r false 0 false false false false false 0 false hook now true.
Definition mk_revert (r : N) (nbk : bool) (now : N) : op := mkOp ORevert r false 0 false false false false false 0 nbk 0 now true.

(* kept [1,2,3], current 1 after a not-blocking revert from 3: RevertStatus = {3: NotBlocked}, Block() = [2] *)
Definition s_reverted : st := mkSt [1;2;3] 1 true 1 false false false false false 0 3 0 [3] 5 [(3,5)] [1;2;3] 1.
(* kept [1,2], current 2, no configuration *)
Definition s_two : st := mkSt [1;2] 2 true 1 false false false false false 0 2 0 [] 0 [] [1;2] 2.

Lemma sorted_123 : sorted [1;2;3].
Proof. repeat constructor. Qed.

Lemma wf_s_reverted : wf s_reverted.
Proof.
  constructor; simpl; try tauto; try discriminate.
  - apply sorted_NoDup, sorted_123.
  - intros x [<-|[]]. simpl. auto.
  - repeat constructor.
  - exact sorted_123.
Qed.

Lemma wf_s_two : wf s_two.
Proof.
  assert (S12 : sorted [1;2]) by (repeat constructor).
  constructor; simpl; try tauto; try discriminate.
  - apply sorted_NoDup, S12.
  - intros x [].
  - constructor.
Qed.

Lemma wf_empty : wf empty.
Proof.
  constructor; simpl; try tauto; try constructor. intros x [].
Qed.

(* finding 7 on the model: refresh of [1,2] to the new revision 3 with retain 2, failure after discard-snap of 1 *)
Lemma discard_not_undone :
  let o := mk_refresh 3 0 9 in let ts := tasks_for o s_two 2 no_inuse in
  accepts o s_two = true /\
  nth 17 ts (KOther, 0) = (KDiscard, 1) /\
  seq (run_change o 19 ts s_two) = [2] /\ mounted (run_change o 19 ts s_two) = [2].
Proof. vm_compute. repeat split; reflexivity. Qed.

(* finding 13 on the model: a snap without configuration, the configure hook of the failed refresh writes some *)
Lemma config_from_nothing :
  let o := mk_refresh 3 7 9 in let ts := tasks_for o s_two 3 no_inuse in
  accepts o s_two = true /\
  forallb (fun t => negb (is_discard t)) ts = true /\
  cfg s_two = 0 /\ cfg (run_change o (S (length ts)) ts s_two) = 7.
Proof. vm_compute. repeat split; reflexivity. Qed.
