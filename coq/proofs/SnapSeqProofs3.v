(* C10, failed install / refresh / revert, about models/SnapSeq.v.  A change that fails at ANY task, also after
   discard-snap tasks completed, is undone to the state before minus exactly the discarded revisions (`minus`, `undone`,
   `failed_c10_undone`); only the configuration bookkeeping may differ, and under cfg_guard the configuration itself does not. *)
From Coq Require Import List NArith ZArith Bool Arith Lia.
Import ListNotations.
Require Import V.models.SnapSeq V.proofs.ListFacts V.proofs.SnapSeqProofs V.proofs.SnapSeqGc.
Open Scope N_scope.

Definition fl (D l : list N) : list N := filter (fun y => negb (mem y D)) l.
Definition rcdel (D : list N) (m : list (N * N)) : list (N * N) := filter (fun kv => negb (mem (fst kv) D)) m.

(* the state with the revisions D gone: from the kept list, the RevertStatus keys, the mounted set (and their saved configs) *)
Definition minus (D : list N) (s : st) : st :=
  mkSt (fl D (seq s)) (cur s) (active s) (chan s) (devmode s) (jailmode s) (classic s) (trymode s) (ignoreval s) (cohort s)
       (lastref s) (inhib s) (fl D (nb s)) (cfg s) (rcdel D (revcfg s)) (fl D (mounted s)) (link s).

Lemma fl_nil : forall l, fl [] l = l.
Proof. intros. apply filter_all. reflexivity. Qed.
Lemma rcdel_nil : forall m, rcdel [] m = m.
Proof. intros. apply filter_all. reflexivity. Qed.

Lemma fl_rem : forall d D l, fl D (rem d l) = fl (d :: D) l.
Proof.
  unfold fl, rem. induction l as [|y r IH]; simpl; [reflexivity|].
  destruct (y =? d) eqn:Q; simpl; [exact IH|]. destruct (mem y D); simpl; rewrite IH; reflexivity.
Qed.
Lemma rcdel_del : forall d D m, rcdel D (rc_del d m) = rcdel (d :: D) m.
Proof.
  unfold rcdel, rc_del. induction m as [|[k v] r IH]; simpl; [reflexivity|].
  destruct (k =? d) eqn:Q; simpl; [exact IH|]. destruct (mem k D); simpl; rewrite IH; reflexivity.
Qed.

Lemma In_fl : forall D x l, In x (fl D l) <-> In x l /\ ~ In x D.
Proof. intros. unfold fl. rewrite filter_In, negb_true_iff, mem_false. tauto. Qed.

Lemma fl_app : forall D a b, fl D (a ++ b) = fl D a ++ fl D b.
Proof. intros. unfold fl. apply filter_app. Qed.

Lemma fl_cons : forall D x (a : list N), fl D (x :: a) = if mem x D then fl D a else x :: fl D a.
Proof. intros. unfold fl. cbn. destruct (mem x D); reflexivity. Qed.

Lemma fl_cons_keep : forall D r b, ~ In r D -> fl D (r :: b) = r :: fl D b.
Proof. intros D r b N. rewrite fl_cons. apply mem_false in N. rewrite N. reflexivity. Qed.

Lemma fl_app_last : forall D l r, ~ In r D -> fl D (l ++ [r]) = fl D l ++ [r].
Proof. intros D l r N. rewrite fl_app, fl_cons_keep by exact N. reflexivity. Qed.

Lemma rem_fl_comm : forall r D l, rem r (fl D l) = fl D (rem r l).
Proof.
  unfold rem, fl. induction l as [|y t IH]; [reflexivity|]. cbn.
  destruct (mem y D) eqn:M; destruct (y =? r) eqn:Q; cbn; rewrite ?M, ?Q; cbn; rewrite IH; reflexivity.
Qed.

Lemma length_fl_le : forall D (a : list N), (length (fl D a) <= length a)%nat.
Proof.
  intros D a. unfold fl. induction a as [|x a IH]; [apply Nat.le_refl|]. cbn.
  destruct (negb (mem x D)); cbn; lia.
Qed.

Lemma mem_fl : forall D x l, mem x (fl D l) = mem x l && negb (mem x D).
Proof. intros. apply eq_true_iff_eq. rewrite andb_true_iff, negb_true_iff, !mem_In, mem_false. apply In_fl. Qed.

Lemma nb_filter : forall D sq nbs, incl nbs sq -> filter (fun x => mem x (fl D sq)) nbs = fl D nbs.
Proof.
  intros D sq nbs I. apply filter_ext_in. intros x Hx. rewrite mem_fl, (proj2 (mem_In x sq)) by (apply I, Hx). reflexivity.
Qed.

Lemma rc_get_rcdel : forall k D m, ~ In k D -> rc_get k (rcdel D m) = rc_get k m.
Proof.
  intros k D m N. unfold rcdel. induction m as [|[a v] r IH]; [reflexivity|]. cbn.
  destruct (mem a D) eqn:M; cbn.
  - rewrite IH. destruct (a =? k) eqn:Q; [|reflexivity]. apply N.eqb_eq in Q. subst. apply mem_In in M. tauto.
  - rewrite IH. reflexivity.
Qed.

Lemma minus_nil : forall s, minus [] s = s.
Proof. intros []. unfold minus. cbn -[fl rcdel]. rewrite !fl_nil, rcdel_nil. reflexivity. Qed.

Lemma minus_nil_cfgs : forall s, set_cfgs (cfg s) (revcfg s) (minus [] s) = s.
Proof. intros s. rewrite minus_nil. destruct s; reflexivity. Qed.

Lemma wf_minus : forall D X, wf X -> seq X <> [] -> ~ In (cur X) D -> wf (minus D X).
Proof.
  intros D X [W1 W2 W3 W4 W5 W6 W7 W8] NE NC.
  assert (Ic : In (cur X) (fl D (seq X))) by (apply In_fl; auto).
  constructor; simpl; auto.
  - unfold fl. apply NoDup_filter. exact W1.
  - intros E. rewrite E in Ic. destruct Ic.
  - intros x Hx. apply In_fl in Hx. apply In_fl. split; [apply W4; tauto|tauto].
  - apply sorted_filter. exact W5.
  - apply sorted_filter. exact W6.
  - intros x. rewrite !In_fl, W7. tauto.
Qed.

Lemma discards_run : forall o D X p q,
  p <> q -> In p (seq X) -> In q (seq X) -> cur X = q -> ~ In p D -> ~ In q D ->
  run_ok o (discards D) X = minus D X.
Proof.
  induction D as [|d D IH]; intros X p q PQ Ip Iq C Np Nq.
  - unfold run_ok, minus. simpl. rewrite !fl_nil, rcdel_nil. destruct X; reflexivity.
  - unfold discards. cbn [map]. rewrite run_ok_cons. fold (discards D). unfold do_task. cbn [fst snd].
    assert (dp : d <> p) by (intros ->; apply Np; left; reflexivity).
    assert (dq : d <> q) by (intros ->; apply Nq; left; reflexivity).
    rewrite (do_discard_more d X p q) by auto. rewrite (proj2 (N.eqb_neq (cur X) d)) by congruence.
    rewrite (IH _ p q); simpl; auto.
    + unfold minus. simpl. rewrite !fl_rem, rcdel_del. reflexivity.
    + apply In_rem; auto.
    + apply In_rem; auto.
    + intros I; apply Np; right; exact I.
    + intros I; apply Nq; right; exact I.
Qed.

Lemma count_NoDup : forall x l, NoDup l -> length (filter (fun y : N => N.eqb y x) l) = if mem x l then 1%nat else O.
Proof.
  induction l as [|z r IH]; intros ND; [reflexivity|]. inversion ND as [|? ? Hz ND']; subst. cbn [filter mem].
  rewrite (N.eqb_sym x z). destruct (z =? x) eqn:Q; cbn [length orb]; rewrite IH by exact ND'; [|reflexivity].
  apply N.eqb_eq in Q. subst. apply mem_false in Hz. rewrite Hz. reflexivity.
Qed.

(* countMissingRevs after discards: of the revisions a that preceded the candidate, those in D are missing *)
Lemma count_found_fl : forall D a l, NoDup l -> incl a l -> NoDup a ->
  count_found a (fl D l) = length (fl D a).
Proof.
  intros D a l NDl. induction a as [|x a IH]; intros I NDa; [reflexivity|].
  inversion NDa; subst. unfold count_found in *. cbn [fold_right].
  rewrite IH; auto; [|intros y Hy; apply I; right; exact Hy].
  rewrite (fl_cons D x a), count_NoDup, mem_fl, (proj2 (mem_In x l)) by (unfold fl; auto using NoDup_filter, in_eq).
  destruct (mem x D); reflexivity.
Qed.

(* the sequence part of undoLinkSnap after the discards D: the candidate goes back in front of the survivors of b *)
Lemma seq_undo_kept_after_gc : forall D (a b : list N) r, NoDup (a ++ r :: b) -> ~ In r D ->
  let l' := fl D ((a ++ b) ++ [r]) in
  last_index r l' = Some (length (fl D (a ++ b))) /\
  firstn (length a - count_missing a l') l' ++ nth (length (fl D (a ++ b))) l' 0 :: skipn (length a - count_missing a l') (removelast l')
  = fl D (a ++ r :: b).
Proof.
  intros D a b r ND NrD l'.
  assert (E : l' = fl D (a ++ b) ++ [r]) by (unfold l'; apply fl_app_last; exact NrD).
  rewrite E. split; [apply last_index_app_last|].
  assert (NDab : NoDup ((a ++ b) ++ [r])) by (apply moved_last; exact ND).
  assert (NDa : NoDup a).
  { clear -ND. induction a as [|x a IH]; [constructor|]. inversion ND; subst. constructor; [|apply IH; assumption].
    intros I. apply H1. apply in_or_app. left. exact I. }
  assert (CM : count_missing a (fl D (a ++ b) ++ [r]) = (length a - length (fl D a))%nat).
  { unfold count_missing. rewrite <- E. unfold l'. rewrite count_found_fl; auto.
    intros x Hx. rewrite !in_app_iff. auto. }
  rewrite CM. pose proof (length_fl_le D a) as LE.
  replace (length a - (length a - length (fl D a)))%nat with (length (fl D a)) by lia.
  rewrite removelast_last, nth_middle.
  rewrite fl_app, <- app_assoc, firstn_app_exact, skipn_app_exact.
  rewrite fl_app, fl_cons_keep by exact NrD. reflexivity.
Qed.

(* what undoLinkSnap makes of the kept list l it finds (the target at index ci), given the saved task data *)
Definition undone_seq (o : op) (d : ldata) (l : list N) (ci : nat) : list N :=
  match old_cand d with
  | None => remove_at ci l
  | Some oci => if is_revert o then l
                else let oci' := (oci - count_missing (old_before d) l)%nat in
                     firstn oci' l ++ nth ci l 0 :: skipn oci' (removelast l)
  end.

Lemma undo_link_eq : forall o d Z ci, last_index (cur Z) (seq Z) = Some ci ->
  undo_link o d Z =
  let seq' := undone_seq o d (seq Z) ci in
  norm (mkSt seq' (old_cur d) false (old_chan d) (old_dev d) (old_jail d) (old_classic d) (old_try d)
             (old_ignore d) (old_cohort d) (old_lastref d) (old_inhib d)
             (match old_rs d with Some l => filter (fun r => mem r seq') l | None => if is_revert o then [] else nb Z end)
             (match seq' with [] => 0 | _ => restore_rev_cfg (old_cur d) (cfg Z) (revcfg Z) end)
             (revcfg Z) (mounted Z) 0).
Proof. intros o d Z ci H. unfold undo_link. rewrite H. reflexivity. Qed.

(* link-snap, the discards D, then the sequence part of its undo: the kept list as it was, minus D.  The three ways
   link-snap treats the list: a new revision is appended, a kept one moves to the end, a revert leaves it alone. *)
Lemma undone_seq_link : forall o X D,
  NoDup (seq X) -> (is_revert o = true -> In (orev o) (seq X)) -> ~ In (orev o) D ->
  exists ci, last_index (orev o) (fl D (seq (fst (do_link o X)))) = Some ci /\
             undone_seq o (snd (do_link o X)) (fl D (seq (fst (do_link o X)))) ci = fl D (seq X).
Proof.
  intros o X D ND RV NrD. unfold do_link, undone_seq. cbn [fst snd seq old_cand old_before].
  destruct (last_index (orev o) (seq X)) as [i|] eqn:LI.
  - destruct (is_revert o) eqn:R.
    + destruct (last_index_some (orev o) (fl D (seq X))) as [ci L]; [apply In_fl; auto|]. exists ci. auto.
    + destruct (last_index_split _ _ _ ND LI) as (a & b & SQ & LA & _ & _).
      subst i. rewrite SQ in *. rewrite remove_at_app, firstn_app_exact.
      destruct (seq_undo_kept_after_gc D a b (orev o) ND NrD) as [L1 L2].
      exists (length (fl D (a ++ b))). split; assumption.
  - destruct (is_revert o); [apply last_index_none in LI; tauto|].
    exists (length (fl D (seq X))). rewrite fl_app_last by exact NrD.
    split; [apply last_index_app_last|]. rewrite remove_at_app. apply app_nil_r.
Qed.

Lemma do_link_seq_spec : forall o X, NoDup (seq X) -> (is_revert o = true -> In (orev o) (seq X)) ->
  NoDup (seq (fst (do_link o X))) /\ forall x, In x (seq (fst (do_link o X))) <-> In x (seq X) \/ x = orev o.
Proof.
  intros o X ND RV. unfold do_link. cbn [fst seq].
  destruct (last_index (orev o) (seq X)) as [i|] eqn:LI.
  - destruct (last_index_split _ _ _ ND LI) as (a & b & SQ & LA & _ & _). subst i. rewrite SQ in *.
    pose proof (in_elt (orev o) a b) as I.
    destruct (is_revert o).
    + split; [exact ND|]. intros x. split; [auto|]. intros [H| ->]; assumption.
    + rewrite remove_at_app. destruct (moved_last a b (orev o) ND) as [ND' P].
      split; [exact ND'|]. intros x. rewrite P. split; [auto|]. intros [H| ->]; assumption.
  - apply last_index_none in LI. destruct (is_revert o); [tauto|].
    split; [apply NoDup_snoc; assumption|]. intros x. rewrite in_app_iff. simpl. intuition.
Qed.

(* undoLinkSnap on any state Z that still has the linked revision as current and whose kept and mounted revisions are
   those after link-snap minus D: everything is as before link-snap minus D, the snap inactive and unlinked, except
   that the configuration is whatever RestoreRevisionConfig finds for the old current revision *)
Lemma undo_link_minus : forall o X D Z,
  NoDup (seq X) -> In (cur X) (seq X) -> incl (nb X) (seq X) ->
  (is_revert o = true -> In (orev o) (seq X)) -> ~ In (cur X) D -> ~ In (orev o) D ->
  seq Z = fl D (seq (fst (do_link o X))) -> cur Z = orev o -> mounted Z = fl D (mounted X) ->
  undo_link o (snd (do_link o X)) Z
  = set_cfgs (restore_rev_cfg (cur X) (cfg Z) (revcfg Z)) (revcfg Z) (minus D (set_active_link false 0 X)).
Proof.
  intros o X D Z ND IC NB RV NcD NrD SZ CZ MZ.
  destruct (undone_seq_link o X D ND RV NrD) as (ci & L1 & L2).
  rewrite (undo_link_eq o _ Z ci) by (rewrite CZ, SZ; exact L1).
  rewrite SZ, L2, MZ. cbv zeta. unfold do_link.
  cbn [snd old_cur old_chan old_dev old_jail old_classic old_try old_ignore old_cohort old_lastref old_inhib old_rs].
  rewrite (nb_filter D (seq X) (nb X) NB).
  assert (Ic : In (cur X) (fl D (seq X))) by (apply In_fl; auto).
  destruct (fl D (seq X)) as [|u v] eqn:F; [destruct Ic|].
  unfold norm. cbn [seq]. rewrite <- F. reflexivity.
Qed.

(* ... and that is the configuration the snap had, unless it had none and something wrote one (finding 13) *)
Lemma cfg_restored : forall o X D cf,
  cfg_guard o X -> seq X <> [] -> ~ In (cur X) D ->
  cf = cfg (fst (do_link o X)) \/ (ohookcfg o <> 0 /\ cf = ohookcfg o) ->
  restore_rev_cfg (cur X) cf (rcdel D (revcfg (fst (do_link o X)))) = cfg X.
Proof.
  intros o X D cf CG NE NcD Hcf. unfold do_link in *. cbn [fst cfg revcfg] in *.
  destruct (seq X) as [|x0 l0] eqn:SQ; [congruence|].
  unfold restore_rev_cfg at 1. rewrite rc_get_rcdel by exact NcD.
  destruct CG as [C|[C|(C1 & C2 & C3)]]; [|congruence|].
  - fold (restore_rev_cfg (cur X) cf (save_rev_cfg (cur X) (cfg X) (revcfg X))). apply restore_after_save. exact C.
  - unfold save_rev_cfg in *. destruct (cfg X =? 0) eqn:Z; [|rewrite rc_get_set_same; reflexivity].
    rewrite C2. destruct Hcf as [->|[Hk _]]; [|congruence].
    destruct (is_revert o); [|reflexivity]. unfold restore_rev_cfg. rewrite C3; reflexivity.
Qed.

Lemma configure_fields : forall o (h : bool) r W,
  let Z := run_ok o (if h then [(KConfigure, r)] else []) W in
  seq Z = seq W /\ cur Z = cur W /\ mounted Z = mounted W /\ revcfg Z = revcfg W /\
  (cfg Z = cfg W \/ (ohookcfg o <> 0 /\ cfg Z = ohookcfg o)).
Proof.
  intros o h r W. destruct h; cbn; [|tauto]. unfold do_configure.
  destruct (ohookcfg o =? 0) eqn:HK; [tauto|]. apply N.eqb_neq in HK. cbn. tauto.
Qed.

Lemma link_tail_undone : forall o c r' X D (h : bool),
  NoDup (seq X) -> In (cur X) (seq X) -> incl (nb X) (seq X) ->
  (is_revert o = true -> In (orev o) (seq X)) -> ~ In (cur X) D -> ~ In (orev o) D ->
  (D = [] \/ cur X <> orev o) ->
  exists cf rc,
    run_fail o c ((KLink, r') :: discards D ++ (if h then [(KConfigure, orev o)] else [])) X
    = set_cfgs cf rc (minus D (set_active_link false 0 X)) /\ (cfg_guard o X -> cf = cfg X).
Proof.
  intros o c r' X D h ND IC NB RV NcD NrD DC.
  destruct (do_link_seq_spec o X ND RV) as [_ P].
  rewrite run_fail_link, run_fail_after_link, run_ok_app.
  assert (DR : run_ok o (discards D) (fst (do_link o X)) = minus D (fst (do_link o X))).
  { destruct DC as [->|DC].
    - symmetry. apply minus_nil.
    - apply (discards_run o D _ (cur X) (orev o)); auto; apply P; auto. }
  rewrite DR.
  destruct (configure_fields o h (orev o) (minus D (fst (do_link o X)))) as (SZ & CZ & MZ & RZ & FZ).
  set (Z := run_ok o _ (minus D _)) in *.
  exists (restore_rev_cfg (cur X) (cfg Z) (revcfg Z)), (revcfg Z). split.
  - apply undo_link_minus; assumption.
  - intros CG. rewrite RZ. apply cfg_restored; auto. intros E. rewrite E in IC. destruct IC.
Qed.

(* on a snap that is not installed link-snap is undone to nothing: the SnapState is deleted again *)
Lemma link_fresh_undone : forall o c r' X (h : bool),
  seq X = [] -> cur X = 0 -> nb X = [] -> is_revert o = false ->
  run_fail o c ((KLink, r') :: (if h then [(KConfigure, orev o)] else [])) X
  = mkSt [] 0 false 0 false false false false false 0 0 0 [] 0 (revcfg X) (mounted X) 0.
Proof.
  intros o c r' X h SQ CU NBX NR. pose proof (run_fail_after_link o c [] h (orev o)) as NU.
  cbn [discards map app] in NU. rewrite run_fail_link, NU.
  destruct (configure_fields o h (orev o) (fst (do_link o X))) as (SZ & CZ & MZ & RZ & _).
  set (Z := run_ok o _ _) in *.
  unfold do_link in SZ, CZ, MZ, RZ. rewrite SQ, NR in *. cbn in SZ, CZ, MZ, RZ.
  rewrite (undo_link_eq o _ Z 0) by (rewrite SZ, CZ; cbn; rewrite N.eqb_refl; reflexivity).
  unfold undone_seq, do_link. rewrite SQ, NR, SZ, MZ, RZ, NBX. reflexivity.
Qed.

(* A failed run of the tasks ts from X ends in X minus the revisions whose discard-snap ran, up to the configuration
   bookkeeping; the configuration itself is as it was when G holds.  A task with an exact undo in front of ts keeps this,
   whatever ts is: the failure may come at any point. *)
Definition undone (o : op) (c : bool) (G : Prop) (ts : list task) (X : st) : Prop :=
  exists cf rc, run_fail o c ts X = set_cfgs cf rc (minus (map snd (filter is_discard ts)) X) /\ (G -> cf = cfg X).

Lemma undone_nil : forall o c G X, undone o c G [] X.
Proof. intros. exists (cfg X), (revcfg X). split; [symmetry; apply minus_nil_cfgs|reflexivity]. Qed.

Lemma undone_mount : forall o c G r ts s,
  sorted (mounted s) -> ~ In r (mounted s) -> undone o c G ts (do_mount r s) -> undone o c G ((KMount, r) :: ts) s.
Proof.
  intros o c G r ts s SM NM (cf & rc & H & HG). exists cf, rc. split; [|exact HG].
  rewrite run_fail_mount, H. cbn [filter is_discard fst kind_eqb].
  unfold undo_mount, do_mount, set_cfgs, minus. cbn -[fl rcdel rem ins]. rewrite rem_fl_comm, rem_ins by assumption. reflexivity.
Qed.

Lemma undone_unlink_current : forall o c G r ts s,
  active s = true -> link s = cur s -> In (cur s) (seq s) -> ~ In (cur s) (map snd (filter is_discard ts)) ->
  undone o c G ts (set_active_link false 0 s) -> undone o c G ((KUnlinkCurrent, r) :: ts) s.
Proof.
  intros o c G r ts s A L Ic NcD (cf & rc & H & HG). exists cf, rc. split; [|exact HG].
  assert (NE : seq s <> []) by (intros E; rewrite E in Ic; destruct Ic).
  rewrite run_fail_unlink_current. unfold do_unlink_current. rewrite norm_id, H by exact NE.
  cbn [filter is_discard fst kind_eqb]. unfold undo_unlink_current.
  rewrite norm_id by (cbn [seq set_active_link set_cfgs minus]; intros E; eapply in_nil; rewrite <- E; apply In_fl; eauto).
  destruct s; cbn in *; subst; reflexivity.
Qed.

Lemma unlink_link_undone : forall o c X D j,
  NoDup (seq X) -> In (cur X) (seq X) -> incl (nb X) (seq X) -> (is_revert o = true -> In (orev o) (seq X)) ->
  orev o <> cur X -> active X = true -> link X = cur X ->
  let ts := firstn j ((KUnlinkCurrent, orev o) :: (KLink, orev o) :: discards D ++ [(KConfigure, orev o)]) in
  ~ In (cur X) (map snd (filter is_discard ts)) -> ~ In (orev o) (map snd (filter is_discard ts)) ->
  undone o c (cfg_guard o X) ts X.
Proof.
  intros o c X D j ND IC NB RV RC A L. cbv zeta.
  destruct j as [|j]; [intros; apply undone_nil|]. cbn [firstn filter is_discard fst kind_eqb]. intros NcD NrD.
  apply undone_unlink_current; auto.
  destruct j as [|j]; [apply undone_nil|]. cbn [firstn] in *.
  destruct (firstn_gc_tail j D (KConfigure, orev o)) as (m & h & E). unfold task in *. rewrite E in *. unfold undone.
  rewrite discards_of_link_tail in *.
  destruct (link_tail_undone o c (orev o) (set_active_link false 0 X) (firstn m D) h) as (cf & rc & E2 & HG); auto.
  exists cf, rc. split; [exact E2|exact HG].
Qed.

Theorem essential_undone : forall s o c D j,
  wf s -> c10_op o -> accepts o s = true -> (seq s = [] -> D = []) ->
  let ts := firstn j (pre_link o s ++ (KLink, orev o) :: discards D ++ [(KConfigure, orev o)]) in
  ~ In (cur s) (map snd (filter is_discard ts)) -> ~ In (orev o) (map snd (filter is_discard ts)) ->
  undone o c (cfg_guard o s) ts s.
Proof.
  intros s o c D j W OP AC D0. unfold pre_link. cbv zeta.
  assert (NM : mem (orev o) (seq s) = false -> ~ In (orev o) (mounted s)).
  { intros M I. apply mem_false in M. apply M, (wf_mounted s W), I. }
  destruct (c10_accepted o s OP AC) as [(SQ & NR)|(NE & A & RC & RV)].
  - (* install: the snap is not there *)
    rewrite (D0 SQ). unfold installed. rewrite SQ. cbn [mem app]. intros _ _.
    destruct j as [|j]; [apply undone_nil|]. cbn [firstn]. apply undone_mount; [apply W|apply NM; rewrite SQ; reflexivity|].
    destruct j as [|j]; [apply undone_nil|]. cbn [firstn].
    destruct (firstn_gc_tail j [] (KConfigure, orev o)) as (m & h & E). unfold task in *. rewrite E, firstn_nil.
    exists (cfg s), (revcfg s). split; [|reflexivity].
    pose proof (wf_zero s W SQ) as Z. rewrite discards_of_link_tail, minus_nil. cbn [discards map app].
    rewrite link_fresh_undone; auto; rewrite Z; reflexivity.
  - assert (Ic : In (cur s) (seq s)) by (apply (wf_cur s W NE)).
    assert (LK : link s = cur s) by (rewrite (wf_link s W), A; reflexivity).
    apply installed_iff in NE. rewrite NE. destruct (mem (orev o) (seq s)) eqn:M; cbn [app].
    + apply unlink_link_undone; auto; apply W.
    + destruct j as [|j]; [intros; apply undone_nil|]. cbn [firstn filter is_discard fst kind_eqb]. intros NcD NrD.
      apply undone_mount; [apply W|apply NM, eq_refl|].
      apply (unlink_link_undone o c (do_mount (orev o) s)); auto; apply W.
Qed.

(* An install / refresh / revert that fails at position j (any j) is undone to the state before
   minus D, the revisions whose discard-snap completed among the first j tasks, provided neither the current revision
   nor the target is among them; the configuration is as before under cfg_guard, the revision-config bookkeeping is not
   claimed to be. *)
Theorem failed_c10_undone : forall s o j retain inuse,
  wf s -> c10_op o -> accepts o s = true ->
  let D := map snd (filter is_discard (firstn j (tasks_for o s retain inuse))) in
  ~ In (cur s) D -> ~ In (orev o) D ->
  exists cf rc, run_change o (S j) (tasks_for o s retain inuse) s = set_cfgs cf rc (minus D s) /\
                (cfg_guard o s -> cf = cfg s).
Proof.
  intros s o j retain inuse W OP AC. rewrite (tasks_for_c10 o s retain inuse OP).
  destruct (run_change_failed o j (install_tasks o s retain inuse) s) as (j' & c & E & EF). rewrite E.
  rewrite <- filter_discard_ess, EF, install_tasks_ess.
  apply essential_undone; auto. intros SQ. unfold gc_of, installed. rewrite SQ. reflexivity.
Qed.

(* retain >= 2: the garbage collection never picks the current revision or the target *)
Lemma failed_discards_kept : forall s o j retain inuse,
  wf s -> c10_op o -> accepts o s = true -> (2 <= retain)%Z ->
  let D := map snd (filter is_discard (firstn j (tasks_for o s retain inuse))) in
  ~ In (cur s) D /\ ~ In (orev o) D /\ (seq s = [] -> D = []).
Proof.
  intros s o j retain inuse W OP AC R D.
  assert (S : incl D (gc_of o s retain inuse)).
  { intros x H. unfold D in H. rewrite (tasks_for_c10 o s retain inuse OP) in H. apply In_discards_firstn in H.
    rewrite install_discards in H. exact H. }
  clearbody D. destruct (gc_of_keeps s o retain inuse W OP AC R) as [E|(NE & G1 & G2)].
  - rewrite E in S. assert (D = []) as -> by (destruct D as [|x D']; [reflexivity|destruct (S x); left; reflexivity]).
    repeat split; auto.
  - repeat split; [intros I; apply G2, S, I|intros I; apply G1, S, I|intros Z; contradiction].
Qed.

Theorem failed_after_gc_any : forall s o j retain inuse,
  wf s -> okind o = ORefresh -> accepts o s = true -> (2 <= retain)%Z -> cfg_guard o s ->
  forget (run_change o (S j) (tasks_for o s retain inuse) s)
  = forget (minus (map snd (filter is_discard (firstn j (tasks_for o s retain inuse)))) s).
Proof.
  intros s o j retain inuse W K AC R CG.
  assert (OP : c10_op o) by (right; left; exact K).
  destruct (failed_discards_kept s o j retain inuse W OP AC R) as (N1 & N2 & _).
  destruct (failed_c10_undone s o j retain inuse W OP AC N1 N2) as (cf & rc & E & G).
  rewrite E, (G CG). reflexivity.
Qed.

(* without the guard the configuration may differ, but the invariant does not see that of an installed snap *)
Theorem failed_c10_keeps_wf : forall s o j retain inuse,
  wf s -> c10_op o -> accepts o s = true -> (2 <= retain)%Z ->
  wf (run_change o (S j) (tasks_for o s retain inuse) s).
Proof.
  intros s o j retain inuse W OP AC R.
  destruct (failed_discards_kept s o j retain inuse W OP AC R) as (N1 & N2 & D0).
  destruct (failed_c10_undone s o j retain inuse W OP AC N1 N2) as (cf & rc & E & G). rewrite E.
  destruct (seq s) as [|x0 l0] eqn:SQ.
  - rewrite (D0 eq_refl), G by (right; left; exact SQ). apply (wf_forget _ s); [rewrite minus_nil; reflexivity|exact W].
  - assert (NE : seq s <> []) by (rewrite SQ; discriminate).
    apply wf_set_cfgs; [apply wf_minus; assumption|].
    cbn [seq minus]. intros Z. eapply in_nil. rewrite <- Z. apply In_fl. split; [apply (wf_cur s W NE)|exact N1].
Qed.
