(* Proofs about models/TaskEngine.v (C01): the abort set exactly ([inA1]: [abort_exact_outside], [abort_exact_inside]),
   when no nested abortLanes call happens, and witnesses that in general neither bound of the closure sandwich is tight
   ([sandwich_not_tight]). *)
From Coq Require Import List Lia.
Import ListNotations.
Require Import V.models.TaskEngine V.proofs.TaskEngineProofs V.proofs.TaskEngineFuel V.proofs.TaskEngineLive
               V.proofs.TaskEngineClosure V.proofs.TaskEngineLower.

(* A1: the lane tasks abortLanes selects (those the healthy-lane exemption does not spare: select_abort), closed under
   halt edges *)
Inductive inA1 (s : state) (L0 : list nat) : nat -> Prop :=
| A1_sel : forall t, In t (select_abort (tasks s) L0) -> inA1 s L0 t
| A1_halt : forall t h, inA1 s L0 t -> In h (t_halts (get s t)) -> inA1 s L0 h.

Section Exact.
  Variable s : state.
  Variable L0 : list nat.
  (* no nested call: every task reached has all its lanes in the kill list *)
  Hypothesis NN : forall t, inA1 s L0 t -> forall x, In x (lanes_of (get s t)) -> In x L0.

  Theorem abort_exact_outside : forall u, ~ inA1 s L0 u -> st (abort_lanes_top s L0) u = st s u.
  Proof.
    intros u Hu. unfold abort_lanes_top. rewrite st_ready_detect. unfold depth_fuel.
    rewrite abort_lanes_S. destruct (select_abort (tasks s) L0) eqn:Es; [reflexivity|]. rewrite <- Es.
    pose proof (abort_loop_within s (inA1 s L0) (A1_halt s L0) (select_abort (tasks s) L0) (L0 ++ []) [] s eq_refl
                                  (A1_sel s L0)) as H.
    destruct (abort_loop _ _ _ _ _ _) as [[s1 seen1] lanes]; cbn [abort_cont]. destruct H as (_ & B & C).
    destruct lanes as [|x lanes]; [apply B; assumption | exfalso].
    (* no nested call: a task of A1 has all its lanes in the kill list, so it adds no lane *)
    destruct (C x (or_introl eq_refl)) as (t & At & Hx). unfold extra_lanes in Hx.
    rewrite flat_map_all_in in Hx; [destruct Hx|]. intros y Hy. apply memn_In. rewrite app_nil_r. apply (NN t At y Hy).
  Qed.
End Exact.

(* this half needs no hypothesis on nesting: A1 lies in the set the abort sweeps *)
Theorem abort_exact_inside : forall (s : state) (L0 : list nat) (u : nat),
  inA1 s L0 u -> lv (abort_lanes_top s L0) u = false.
Proof.
  intros s L0 u Hu. destruct (abort_lanes_top_swept s L0) as (seen & Sw & Sel).
  apply (swept_dead _ _ _ u Sw). induction Hu as [t Ht | t h _ IH Hh]; [apply Sel; exact Ht|].
  exact (swept_closed _ _ _ t h Sw IH Hh).
Qed.

(* neither bound of the sandwich is tight.
   Graph: S in lanes 1 and 2, F in lane 1, K in lane 2 (no wait edges). S is in the upper closure of lane 1 but not in
   the lower one. With K live (Do) S is SPARED by aborting lane 1; with K dead (Hold) S is ABORTED. *)
Definition sw_graph : list tdesc := [([1; 2], [], true); ([1], [], true); ([2], [], true)].
Definition sw_live : state := init_state sw_graph.
Definition sw_dead : state :=
  with_tasks sw_live (upd (tasks sw_live) 2 (fun tk => set_st tk Hold)).

Scheme lowR_mind := Minimality for lowR Sort Prop.

Lemma sandwich_not_tight :
  (inR sw_live [1] 0 /\ ~ lowR sw_live [1] 0 /\ st (abort_lanes_top sw_live [1]) 0 = st sw_live 0) /\
  (inR sw_dead [1] 0 /\ ~ lowR sw_dead [1] 0 /\ st sw_dead 0 = Do /\ st (abort_lanes_top sw_dead [1]) 0 = Hold).
Proof.
  assert (NL : forall s, tasks s = tasks sw_live \/ tasks s = tasks sw_dead -> ~ lowR s [1] 0).
  { intros s Hs F.
    assert (H : forall t, lowR s [1] t -> t = 1).
    { apply (lowR_mind s [1] (fun t => t = 1)).
      - intros t L Hall. unfold get in Hall. destruct Hs as [E|E]; rewrite E in Hall, L;
          (destruct t as [|[|[|t]]]; [ | reflexivity | | simpl in L; lia]);
          (exfalso; assert (X : In 2 [1]) by (apply Hall; simpl; auto); destruct X as [X|[]]; discriminate X).
      - intros t h _ -> Hh. unfold get in Hh. destruct Hs as [E|E]; rewrite E in Hh; simpl in Hh; destruct Hh. }
    specialize (H 0 F). discriminate H. }
  split; (split; [|split]).
  - apply (R_lane sw_live [1] 0 1); [simpl; lia | simpl; left; reflexivity | apply L_kill; left; reflexivity].
  - apply NL. left; reflexivity.
  - vm_compute. reflexivity.
  - apply (R_lane sw_dead [1] 0 1); [simpl; lia | simpl; left; reflexivity | apply L_kill; left; reflexivity].
  - apply NL. right; reflexivity.
  - split; vm_compute; reflexivity.
Qed.
