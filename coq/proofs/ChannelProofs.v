(* C34 - proofs about models/Channel.v, built around: the five shapes ParseVerbatim accepts (vshape, parse_verbatim_shape,
   parse_verbatim_of_shape), the normal form Clean produces on a shape (clean_shape), split_join (splitting undoes joining
   non-empty slash-free components), and being within a pinned track t: t itself or t/... (within_track, resolve_pinned_ok). *)
From Coq Require Import List NArith Bool Lia String.
Import ListNotations.
Require Import V.lib.Bytes V.proofs.BytesFacts V.gen.ChannelRisks V.models.Channel.
Open Scope N_scope.

Lemma is_nil_b_true : forall (l : bytes), is_nil_b l = true <-> l = [].
Proof. destruct l; simpl; split; intros; auto; discriminate. Qed.

Lemma is_nil_b_false : forall (l : bytes), is_nil_b l = false <-> l <> [].
Proof. destruct l; simpl; split; intros; auto; try discriminate. congruence. Qed.

Definition noslash (x : bytes) : Prop := forallb (fun c => negb (is_slash c)) x = true.

Lemma split_not_nil : forall s, split_slash s <> [].
Proof.
  induction s as [|c r IH]; simpl; [discriminate|].
  destruct (is_slash c); [discriminate|]. destruct (split_slash r); discriminate.
Qed.

Lemma split_noslash : forall s, Forall noslash (split_slash s).
Proof.
  induction s as [|c r IH]; simpl.
  - constructor; [reflexivity|constructor].
  - destruct (is_slash c) eqn:E.
    + constructor; [reflexivity|exact IH].
    + destruct (split_slash r) as [|h t]; [constructor; [|constructor]|].
      * unfold noslash. simpl. rewrite E. reflexivity.
      * inversion IH; subst. constructor; [|assumption].
        unfold noslash in *. simpl. rewrite E. simpl. assumption.
Qed.

Lemma shape_comps_noslash : forall s, Forall noslash (split_slash s). Proof. exact split_noslash. Qed.

Lemma split_app : forall x r, noslash x -> split_slash (x ++ slash :: r) = x :: split_slash r.
Proof.
  induction x as [|c x IH]; intros r H.
  - reflexivity.
  - unfold noslash in H. simpl in H. apply andb_true_iff in H. destruct H as [Hc Hx].
    apply negb_true_iff in Hc. simpl. rewrite Hc. rewrite (IH r Hx). reflexivity.
Qed.

Lemma split_single : forall x, noslash x -> split_slash x = [x].
Proof.
  induction x as [|c x IH]; intros H.
  - reflexivity.
  - unfold noslash in H. simpl in H. apply andb_true_iff in H. destruct H as [Hc Hx].
    apply negb_true_iff in Hc. simpl. rewrite Hc. rewrite (IH Hx). reflexivity.
Qed.

Lemma join_split : forall s, join_slash (split_slash s) = s.
Proof.
  induction s as [|c r IH]; [reflexivity|].
  simpl. destruct (is_slash c) eqn:E.
  - apply N.eqb_eq in E. subst c.
    destruct (split_slash r) as [|h t] eqn:Er; [exfalso; exact (split_not_nil r Er)|].
    change (join_slash ([] :: h :: t)) with ([] ++ slash :: join_slash (h :: t)). rewrite IH. reflexivity.
  - destruct (split_slash r) as [|h t] eqn:Er; [exfalso; exact (split_not_nil r Er)|].
    destruct t as [|h2 t].
    + simpl in *. rewrite IH. reflexivity.
    + change (join_slash ((c :: h) :: h2 :: t)) with ((c :: h) ++ slash :: join_slash (h2 :: t)).
      change (join_slash (h :: h2 :: t)) with (h ++ slash :: join_slash (h2 :: t)) in IH.
      rewrite <- app_comm_cons. rewrite IH. reflexivity.
Qed.

Lemma nil_app_false : forall (x y : bytes), is_nil_b y = false -> is_nil_b (x ++ y) = false.
Proof. intros [|c x] y H; [exact H|reflexivity]. Qed.

(* what the proofs use of the generated table gen/ChannelRisks.v; after these it is opaque *)
Lemma risk_nil : is_risk [] = false. Proof. reflexivity. Qed.
Lemma risk_default : is_risk default_risk = true. Proof. reflexivity. Qed.
Lemma risk_default_track : is_risk default_track = false. Proof. reflexivity. Qed.
Lemma noslash_default_risk : noslash default_risk. Proof. reflexivity. Qed.
Lemma noslash_default_track : noslash default_track. Proof. reflexivity. Qed.
Lemma default_risk_not_nil : is_nil_b default_risk = false. Proof. reflexivity. Qed.
Lemma default_track_not_nil : is_nil_b default_track = false. Proof. reflexivity. Qed.
Lemma nil_not_default_track : beq [] default_track = false. Proof. reflexivity. Qed.

Lemma beq_default_track_nil : forall t, beq t default_track = true -> is_nil_b t = false.
Proof. intros t H. apply beq_eq in H. subst. apply default_track_not_nil. Qed.

Lemma risk_not_nil : forall r, is_risk r = true -> is_nil_b r = false.
Proof. intros [|c r] H; [rewrite risk_nil in H; discriminate|reflexivity]. Qed.

Lemma is_risk_in : forall x, is_risk x = true -> In x risks.
Proof.
  intros x H. unfold is_risk in H. apply existsb_exists in H. destruct H as [y [Hy Hb]].
  apply beq_eq in Hb. subst y. exact Hy.
Qed.

Global Opaque is_risk default_risk default_track.

Lemma clean_idempotent : forall c, clean (clean c) = clean c.
Proof.
  intros [a n t r b]. unfold clean. cbn [c_arch c_name c_track c_risk c_branch].
  destruct (beq t default_track) eqn:Et; rewrite ?nil_not_default_track, ?Et;
    destruct (is_nil_b r) eqn:Er; rewrite ?default_risk_not_nil, ?Er; reflexivity.
Qed.

Inductive vshape (a : bytes) : list bytes -> chan -> Prop :=
  | ShA t r b : is_nil_b t = false -> is_risk r = true -> is_nil_b b = false ->
      vshape a [t; r; b] (mkChan a [] t r b)
  | ShB r b : is_risk r = true -> is_nil_b b = false -> vshape a [r; b] (mkChan a [] [] r b)
  | ShC t r : is_nil_b t = false -> is_risk t = false -> is_risk r = true -> vshape a [t; r] (mkChan a [] t r [])
  | ShD r : is_risk r = true -> vshape a [r] (mkChan a [] [] r [])
  | ShE t : is_nil_b t = false -> is_risk t = false -> vshape a [t] (mkChan a [] t [] []).

Definition eff_arch (sys a : bytes) : bytes := if is_nil_b a then sys else a.

Lemma parse_verbatim_nonempty : forall sys s a ch, parse_verbatim sys s a = Some ch -> is_nil_b s = false.
Proof. intros sys s a ch H. unfold parse_verbatim in H. destruct (is_nil_b s); [discriminate|reflexivity]. Qed.

Lemma parse_verbatim_shape : forall sys s a ch,
  parse_verbatim sys s a = Some ch -> vshape (eff_arch sys a) (split_slash s) ch.
Proof.
  intros sys s a ch H. unfold parse_verbatim in H. fold (eff_arch sys a) in H.
  destruct (is_nil_b s); [discriminate|].
  destruct (split_slash s) as [|x [|y [|z [|w l]]]]; try discriminate.
  - destruct (is_risk x) eqn:Ex; unfold build in H; cbn in H.
    + rewrite Ex in H. cbn in H. inversion H; subst. apply ShD; assumption.
    + destruct (is_nil_b x) eqn:Nx; cbn in H; [discriminate|]. inversion H; subst. apply ShE; assumption.
  - destruct (is_risk x) eqn:Ex; unfold build in H; cbn in H.
    + rewrite Ex in H. cbn in H. destruct (is_nil_b y) eqn:Ny; cbn in H; [discriminate|].
      inversion H; subst. apply ShB; assumption.
    + destruct (is_risk y) eqn:Ey; cbn in H; [|discriminate].
      destruct (is_nil_b x) eqn:Nx; cbn in H; [discriminate|]. inversion H; subst. apply ShC; assumption.
  - unfold build in H; cbn in H.
    destruct (is_risk y) eqn:Ey; cbn in H; [|discriminate].
    destruct (is_nil_b x) eqn:Nx; cbn in H; [discriminate|].
    destruct (is_nil_b z) eqn:Nz; cbn in H; [discriminate|].
    inversion H; subst. apply ShA; assumption.
Qed.

Lemma parse_verbatim_of_shape : forall sys s a ch,
  vshape (eff_arch sys a) (split_slash s) ch -> parse_verbatim sys s a = Some ch.
Proof.
  intros sys s a ch H. unfold parse_verbatim. fold (eff_arch sys a).
  assert (Hs : is_nil_b s = false).
  { destruct s; [|reflexivity]. simpl in H. inversion H; subst; try discriminate;
      match goal with X : is_risk [] = true |- _ => rewrite risk_nil in X; discriminate end. }
  rewrite Hs. inversion H; subst; unfold build; cbn;
    repeat (match goal with
            | X : is_risk _ = _ |- _ => rewrite X
            | X : is_nil_b _ = _ |- _ => rewrite X
            end; cbn); reflexivity.
Qed.

Ltac inv_forall :=
  repeat match goal with
         | H : Forall _ (_ :: _) |- _ => inversion H; clear H; subst
         | H : Forall _ [] |- _ => clear H
         end.

Definition good_comp (x : bytes) : Prop := noslash x /\ is_nil_b x = false.

Lemma split_join : forall x l, Forall good_comp (x :: l) ->
  split_slash (join_slash (x :: l)) = x :: l /\ fields_slash (join_slash (x :: l)) = x :: l /\
  is_nil_b (join_slash (x :: l)) = false.
Proof.
  intros x l F.
  assert (S : split_slash (join_slash (x :: l)) = x :: l).
  { revert x F. induction l as [|y l IH]; intros x F; inversion F as [|? ? [Hx _] Hl]; subst.
    - apply split_single, Hx.
    - change (join_slash (x :: y :: l)) with (x ++ slash :: join_slash (y :: l)).
      rewrite (split_app _ _ Hx), (IH _ Hl). reflexivity. }
  split; [exact S|]. split.
  - unfold fields_slash. rewrite S. clear S. induction F as [|y l' [_ Hy] _ IH]; [reflexivity|].
    cbn [filter]. rewrite Hy. cbn [negb]. rewrite IH. reflexivity.
  - inversion F as [|? ? [_ Hx] _]; subst. destruct x; [discriminate|]. destruct l; reflexivity.
Qed.

Definition unnamed (c : chan) : chan := mkChan (c_arch c) [] (c_track c) (c_risk c) (c_branch c).

(* the normal form: a cleaned channel has one of the first four shapes, over the components its name is joined from;
   the risk is filled in and the default track is dropped *)
Lemma clean_shape : forall a l ch, vshape a l ch -> Forall noslash l ->
  exists l', vshape a l' (unnamed (clean ch)) /\ Forall good_comp l' /\ c_name (clean ch) = join_slash l' /\
             is_risk (c_risk (clean ch)) = true /\ beq (c_track (clean ch)) default_track = false.
Proof.
  intros a l ch H F.
  inversion H; subst; inv_forall; unfold unnamed, clean; cbn [c_arch c_name c_track c_risk c_branch];
    try match goal with R : is_risk ?x = true |- _ => pose proof (risk_not_nil _ R) as Nr; rewrite Nr end;
    pose proof default_risk_not_nil as Nd; pose proof noslash_default_risk as Sd; pose proof risk_default as Rd;
    rewrite ?nil_not_default_track; try destruct (beq t default_track) eqn:Et; cbn [is_nil_b];
    repeat match goal with N : is_nil_b ?x = false |- context [is_nil_b ?x] => rewrite N end.
  (* the shapes in order: t/r/b, r/b, t/r, r, t, each with t the default track or not where there is a track *)
  all: [> exists [r; b] | exists [t; r; b] | exists [r; b] | exists [r] | exists [t; r] | exists [r]
        | exists [default_risk] | exists [t; default_risk] ];
    (split; [constructor; assumption|]); (split; [repeat constructor; assumption|]);
    rewrite <- ?app_assoc; auto using nil_not_default_track.
Qed.

Lemma clean_unnamed : forall c, clean (unnamed c) = clean c.
Proof. reflexivity. Qed.

Theorem parse_print_stable : forall sys s a c,
  parse sys s a = Some c -> parse sys (chan_string c) a = Some c.
Proof.
  intros sys s a c H. unfold parse in *.
  destruct (parse_verbatim sys s a) as [ch|] eqn:E; [|discriminate]. inversion H; subst c; clear H.
  apply parse_verbatim_shape in E.
  destruct (clean_shape _ _ _ E (split_noslash s)) as (l' & S & G & N & _).
  unfold chan_string. rewrite N. destruct l' as [|x l']; [inversion S|].
  rewrite <- (proj1 (split_join _ _ G)) in S.
  rewrite (parse_verbatim_of_shape _ _ _ _ S), clean_unnamed, clean_idempotent. reflexivity.
Qed.

Definition shown_track (c : chan) : bytes := if is_nil_b (c_track c) then default_track else c_track c.
Definition full_form (c : chan) : bytes :=
  shown_track c ++ slash :: c_risk c ++ (if is_nil_b (c_branch c) then [] else slash :: c_branch c).

Lemma full_of_shape : forall a l c, vshape a l c -> Forall good_comp l -> is_risk (c_risk c) = true ->
  full_of_string (join_slash l) = Some (full_form c).
Proof.
  intros a l c S G R. unfold full_of_string. destruct l as [|x l]; [inversion S|].
  destruct (split_join _ _ G) as (_ & -> & ->).
  inversion S; subst; unfold full_form, shown_track; cbn [c_track c_risk c_branch is_nil_b join_slash] in *;
    repeat match goal with X : _ = _ |- _ => rewrite X end; rewrite ?app_nil_r; try reflexivity.
  rewrite risk_nil in R. discriminate.
Qed.

Theorem full_names_track_and_risk : forall sys s a c, parse sys s a = Some c ->
  In (c_risk c) risks /\
  shown_track c <> [] /\
  (shown_track c = default_track <-> c_track c = []) /\
  chan_full c = Some (full_form c).
Proof.
  intros sys s a c H. unfold parse in H.
  destruct (parse_verbatim sys s a) as [ch|] eqn:E; [|discriminate]. inversion H; subst c; clear H.
  apply parse_verbatim_shape in E.
  destruct (clean_shape _ _ _ E (split_noslash s)) as (l' & S & G & N & Hr & Ht).
  split; [|split; [|split]].
  - apply is_risk_in, Hr.
  - unfold shown_track. destruct (is_nil_b (c_track (clean ch))) eqn:Nt.
    + apply is_nil_b_false. exact default_track_not_nil.
    + apply is_nil_b_false. exact Nt.
  - unfold shown_track. destruct (is_nil_b (c_track (clean ch))) eqn:Nt.
    + apply is_nil_b_true in Nt. tauto.
    + apply beq_false_iff in Ht. apply is_nil_b_false in Nt. tauto.
  - unfold chan_full. rewrite N. exact (full_of_shape _ _ _ S G Hr).
Qed.

Lemma hd_comp_split : forall s h l, split_slash s = h :: l -> hd_comp s = h.
Proof. intros s h l E. unfold hd_comp. rewrite E. reflexivity. Qed.

Lemma hd_comp_app : forall t x, noslash t -> hd_comp (t ++ slash :: x) = t.
Proof. intros t x H. unfold hd_comp. rewrite split_app by assumption. reflexivity. Qed.

Lemma hd_comp_single : forall t, noslash t -> hd_comp t = t.
Proof. intros t H. unfold hd_comp. rewrite split_single by assumption. reflexivity. Qed.

Lemma track_is_head : forall cur ch, parse_verbatim [] cur dash = Some ch -> is_nil_b (c_track ch) = false ->
  hd_comp cur = c_track ch /\ noslash (c_track ch).
Proof.
  intros cur ch H N. pose proof (parse_verbatim_shape _ _ _ _ H) as S. pose proof (split_noslash cur) as F.
  inversion S; subst; cbn [c_track is_nil_b] in *; try discriminate;
    match goal with X : _ = split_slash cur |- _ => symmetry in X; rewrite X in F; rewrite (hd_comp_split _ _ _ X) end;
    inv_forall; (split; [reflexivity|assumption]).
Qed.

Lemma trackless_shape : forall a l nc, vshape a l nc -> c_track nc = [] ->
  is_risk (hd [] l) = true /\
  forall t, is_nil_b t = false -> is_risk t = false -> vshape a (t :: l) (mkChan a [] t (c_risk nc) (c_branch nc)).
Proof.
  intros a l nc S Ht. inversion S; subst; cbn [c_track c_risk c_branch hd is_nil_b] in *; subst; try discriminate;
    (split; [assumption|intros; constructor; assumption]).
Qed.

Theorem resolve_risk_first : forall cur new ch,
  parse_verbatim [] cur dash = Some ch -> is_nil_b new = false -> is_risk (hd_comp new) = true ->
  resolve cur new = Some (if is_nil_b (c_track ch) then new else c_track ch ++ slash :: new).
Proof.
  intros cur new ch Hc Hn Hr. unfold resolve. rewrite Hn.
  rewrite (parse_verbatim_nonempty _ _ _ _ Hc), Hc, Hr. destruct (is_nil_b (c_track ch)); reflexivity.
Qed.

(* a request without a track (risk or risk/branch) resolved against a parseable current channel parses to the
   current track with the requested risk and branch - provided the current track is not spelled like a risk *)
Theorem risk_only_keeps_track : forall cur new ch nc,
  parse_verbatim [] cur dash = Some ch ->
  parse_verbatim [] new dash = Some nc ->
  c_track nc = [] ->
  is_risk (c_track ch) = false ->
  exists r rc,
    resolve cur new = Some r /\
    r = (if is_nil_b (c_track ch) then new else c_track ch ++ slash :: new) /\
    parse_verbatim [] r dash = Some rc /\
    c_track rc = c_track ch /\ c_risk rc = c_risk nc /\ c_branch rc = c_branch nc.
Proof.
  intros cur new ch nc Hc Hn Ht Hg.
  destruct (trackless_shape _ _ _ (parse_verbatim_shape _ _ _ _ Hn) Ht) as [Hhd Add].
  rewrite (resolve_risk_first _ _ _ Hc (parse_verbatim_nonempty _ _ _ _ Hn) Hhd).
  destruct (is_nil_b (c_track ch)) eqn:Nt.
  - exists new, nc. apply is_nil_b_true in Nt. rewrite Nt, Ht. repeat split; auto.
  - destruct (track_is_head _ _ Hc Nt) as [_ Tn].
    exists (c_track ch ++ slash :: new), (mkChan (eff_arch [] dash) [] (c_track ch) (c_risk nc) (c_branch nc)).
    repeat split; auto. apply parse_verbatim_of_shape. rewrite (split_app _ _ Tn). apply Add; assumption.
Qed.

Lemma within_track : forall t r rc, noslash t -> is_risk t = false ->
  r = t \/ has_prefix (t ++ [slash]) r = true -> parse_verbatim [] r dash = Some rc -> c_track rc = t.
Proof.
  intros t r rc Nt Rt W H. apply parse_verbatim_shape in H.
  assert (E : exists l, split_slash r = t :: l).
  { destruct W as [->|W]; [exists []; apply split_single, Nt|].
    destruct (has_prefix_split _ _ W) as [x ->]. rewrite <- app_assoc. eexists. apply (split_app _ x Nt). }
  destruct E as [l E]. rewrite E in H. inversion H; subst; try reflexivity; congruence.
Qed.

Lemma pinned_track_shape : forall track ch, parse_verbatim [] track dash = Some ch -> verbatim_track_only ch = true ->
  c_track ch = track /\ noslash track /\ is_risk track = false.
Proof.
  intros track ch E Vo.
  pose proof (parse_verbatim_shape _ _ _ _ E) as S. pose proof (split_noslash track) as F.
  pose proof (join_split track) as J.
  unfold verbatim_track_only in Vo. apply andb_true_iff in Vo. destruct Vo as [Vo Vb].
  apply andb_true_iff in Vo. destruct Vo as [Vt Vr]. apply negb_true_iff in Vt.
  inversion S; subst; cbn [c_track c_risk c_branch] in *; try congruence;
    try (match goal with X : is_risk ?r = true, Y : is_nil_b ?r = true |- _ =>
           rewrite (risk_not_nil _ X) in Y; discriminate end).
  match goal with X : _ = split_slash track |- _ => rewrite <- X in J, F end.
  simpl in J. subst t. inv_forall. auto.
Qed.

Lemma resolve_pinned_valid : forall track, is_nil_b track = false ->
  (forall new, resolve_pinned track new = PInvalid) \/
  (noslash track /\ is_risk track = false /\ forall new, resolve_pinned track new =
     if is_nil_b new then POk track
     else if is_risk (hd_comp new) then POk ((track ++ [slash]) ++ new)
     else if negb (beq new track) && negb (has_prefix (track ++ [slash]) new) then PSwitch else POk new).
Proof.
  intros track Ht. unfold resolve_pinned. rewrite Ht.
  destruct (parse_verbatim [] track dash) as [ch|] eqn:E; [|left; reflexivity].
  destruct (verbatim_track_only ch) eqn:Vo; cbn [negb]; [right|left; reflexivity].
  destruct (pinned_track_shape _ _ E Vo) as (-> & Nt & Rt).
  split; [exact Nt|]. split; [exact Rt|]. intros new. rewrite Ht. cbn [negb]. rewrite andb_true_r. reflexivity.
Qed.

Lemma resolve_pinned_ok : forall track new r, is_nil_b track = false -> resolve_pinned track new = POk r ->
  noslash track /\ is_risk track = false /\ (r = track \/ has_prefix (track ++ [slash]) r = true) /\
  resolve_pinned track r = POk r.
Proof.
  intros track new r Ht H.
  destruct (resolve_pinned_valid track Ht) as [Inv|(Nt & Rt & F)]; [rewrite Inv in H; discriminate|].
  assert (W : r = track \/ has_prefix (track ++ [slash]) r = true).
  { rewrite F in H. destruct (is_nil_b new); [injection H as <-; left; reflexivity|].
    destruct (is_risk (hd_comp new)); [injection H as <-; right; apply has_prefix_app|].
    destruct (beq new track) eqn:B; [apply beq_eq in B; injection H as <-; left; exact B|].
    destruct (has_prefix (track ++ [slash]) new) eqn:P; [injection H as <-; right; exact P|discriminate]. }
  repeat split; try assumption. rewrite F.
  assert (Hh : is_nil_b r = false /\ hd_comp r = track).
  { destruct W as [->|W]; [split; [exact Ht|apply hd_comp_single, Nt]|].
    destruct (has_prefix_split _ _ W) as [x ->]. rewrite <- app_assoc.
    split; [apply nil_app_false; reflexivity|apply (hd_comp_app _ x Nt)]. }
  rewrite (proj1 Hh), (proj2 Hh), Rt.
  destruct W as [-> | ->]; [rewrite beq_refl; reflexivity|rewrite andb_false_r; reflexivity].
Qed.

Theorem pinned_cannot_switch : forall track new, track <> [] ->
  match resolve_pinned track new with
  | POk r => (r = track \/ has_prefix (track ++ [slash]) r = true) /\
             (forall rc, parse_verbatim [] r dash = Some rc -> c_track rc = track)
  | PInvalid | PSwitch => True
  end.
Proof.
  intros track new Ht. apply is_nil_b_false in Ht.
  destruct (resolve_pinned track new) as [r| |] eqn:R; [|exact I|exact I].
  destruct (resolve_pinned_ok _ _ _ Ht R) as (Nt & Rt & W & _).
  split; [exact W|]. intros rc. apply within_track; assumption.
Qed.

(* the counterexample that makes the guard of risk_only_keeps_track necessary *)
Definition bad_cur : bytes := bs "edge/stable/hotfix"%string.
Definition bad_new : bytes := bs "beta"%string.

Lemma risk_only_refuted :
  exists cur new ch nc r rc,
    parse_verbatim [] cur dash = Some ch /\ parse_verbatim [] new dash = Some nc /\ c_track nc = [] /\
    resolve cur new = Some r /\ parse_verbatim [] r dash = Some rc /\ c_track rc <> c_track ch.
Proof.
  exists bad_cur, bad_new.
  eexists. eexists. eexists. eexists.
  split; [vm_compute; reflexivity|]. split; [vm_compute; reflexivity|]. split; [reflexivity|].
  split; [vm_compute; reflexivity|]. split; [vm_compute; reflexivity|]. vm_compute. discriminate.
Qed.

Lemma fields_good : forall s, Forall good_comp (fields_slash s).
Proof.
  intros s. unfold fields_slash. pose proof (split_noslash s) as F. induction F as [|x l Hx Hl IH]; [constructor|].
  simpl. destruct (is_nil_b x) eqn:N; simpl; [exact IH|]. constructor; [split; assumption|exact IH].
Qed.

Inductive full_result (s : bytes) : bytes -> list bytes -> Prop :=
  | FR1r a : fields_slash s = [a] -> is_risk a = true -> full_result s (default_track ++ slash :: a) [default_track; a]
  | FR1t a : fields_slash s = [a] -> is_risk a = false -> full_result s (a ++ slash :: default_risk) [a; default_risk]
  | FR2r a b : fields_slash s = [a; b] -> is_risk a = true ->
      full_result s (default_track ++ slash :: (a ++ slash :: b)) [default_track; a; b]
  | FR2t a b : fields_slash s = [a; b] -> is_risk a = false -> full_result s (a ++ slash :: b) [a; b]
  | FR3 a b c : fields_slash s = [a; b; c] -> full_result s (a ++ slash :: (b ++ slash :: c)) [a; b; c].

Lemma full_cases : forall s r, full_of_string s = Some r -> r = [] \/ exists cs, full_result s r cs.
Proof.
  intros s r H. unfold full_of_string in H. destruct (is_nil_b s); [inversion H; auto|].
  destruct (fields_slash s) as [|a [|b [|c [|d l]]]] eqn:E; try discriminate.
  - inversion H; auto.
  - destruct (is_risk a) eqn:R; inversion H; subst; right; eexists; [apply FR1r|apply FR1t]; auto.
  - destruct (is_risk a) eqn:R; inversion H; subst; right; eexists; [apply FR2r|apply FR2t]; auto.
  - inversion H; subst. right. eexists. apply FR3. exact E.
Qed.

Lemma full_result_split : forall s r cs, full_result s r cs ->
  split_slash r = cs /\ fields_slash r = cs /\ is_nil_b r = false /\ Forall good_comp cs.
Proof.
  intros s r cs H.
  assert (E : r = join_slash cs /\ Forall good_comp cs).
  { pose proof (fields_good s) as F.
    assert (Gt : good_comp default_track) by (split; [exact noslash_default_track|exact default_track_not_nil]).
    assert (Gr : good_comp default_risk) by (split; [exact noslash_default_risk|exact default_risk_not_nil]).
    inversion H; subst; match goal with X : fields_slash s = _ |- _ => rewrite X in F end; inv_forall; auto. }
  destruct E as [-> G]. destruct cs as [|x cs]; [inversion H|].
  destruct (split_join _ _ G) as (A & B & C). auto.
Qed.

Theorem full_string_idempotent : forall s r, full_of_string s = Some r -> full_of_string r = Some r.
Proof.
  intros s r H. destruct (full_cases s r H) as [E|[cs HR]]; [subst; reflexivity|].
  destruct (full_result_split s r cs HR) as (_ & Hf & Hn & _).
  unfold full_of_string. rewrite Hn, Hf.
  inversion HR; subst; cbn [join_slash]; rewrite ?risk_default_track;
    repeat match goal with X : is_risk ?a = false |- context [is_risk ?a] => rewrite X end; reflexivity.
Qed.

(* a non-empty result is track/risk or track/risk/branch with no empty component, and where Full fills in or places
   the risk itself (a single component, or two components starting with a risk name) the risk position holds a table
   entry. With three components, or two starting with a track, the input's own second component is passed through. *)
Theorem full_string_shape : forall s r, full_of_string s = Some r ->
  r = [] \/
  exists cs, split_slash r = cs /\ (List.length cs = 2%nat \/ List.length cs = 3%nat) /\
             Forall (fun c => c <> []) cs /\
             ((List.length (fields_slash s) = 1%nat \/
               (List.length (fields_slash s) = 2%nat /\ is_risk (hd [] (fields_slash s)) = true)) ->
              In (nth 1 cs []) risks).
Proof.
  intros s r H. destruct (full_cases s r H) as [E|[cs HR]]; [left; exact E|]. right. exists cs.
  destruct (full_result_split s r cs HR) as (Hs & _ & _ & Hg).
  split; [exact Hs|]. split; [inversion HR; subst; auto|].
  split; [clear - Hg; induction Hg as [|x l [_ Hx] _ IH]; constructor; [apply is_nil_b_false; exact Hx|exact IH]|].
  intros Hin. inversion HR; subst; cbn [nth];
    match goal with X : fields_slash s = _ |- _ => rewrite X in Hin; cbn [List.length hd] in Hin end.
  - apply is_risk_in; assumption.
  - apply is_risk_in. exact risk_default.
  - apply is_risk_in; assumption.
  - destruct Hin as [Hin|[_ Hin]]; [discriminate|]. match goal with X : is_risk a = false |- _ => rewrite X in Hin end. discriminate.
  - destruct Hin as [Hin|[Hin _]]; discriminate.
Qed.

Theorem snapstate_pinned : forall ik ig kt gt old new,
  pinned_for ik ig kt gt <> [] -> new <> [] ->
  match resolve_channel ik ig kt gt old new with
  | Some r => (r = pinned_for ik ig kt gt \/ has_prefix (pinned_for ik ig kt gt ++ [slash]) r = true) /\
              (forall rc, parse_verbatim [] r dash = Some rc -> c_track rc = pinned_for ik ig kt gt)
  | None => True
  end.
Proof.
  intros ik ig kt gt old new Hp Hn. unfold resolve_channel.
  apply is_nil_b_false in Hn. rewrite Hn. pose proof Hp as Hp'. apply is_nil_b_false in Hp'. rewrite Hp'.
  pose proof (pinned_cannot_switch (pinned_for ik ig kt gt) new Hp) as H.
  destruct (resolve_pinned (pinned_for ik ig kt gt) new); [exact H|exact I|exact I].
Qed.

Theorem resolve_idempotent : forall cur new r ch,
  parse_verbatim [] cur dash = Some ch -> is_risk (c_track ch) = false ->
  resolve cur new = Some r -> resolve cur r = Some r.
Proof.
  intros cur new r ch Hp Hg H.
  pose proof (parse_verbatim_nonempty _ _ _ _ Hp) as Hcur.
  unfold resolve in H. rewrite Hcur, Hp in H.
  destruct (is_nil_b new) eqn:Nn.
  - inversion H; subst r. unfold resolve. rewrite Hcur, Hp.
    destruct (is_nil_b (c_track ch)) eqn:Nt.
    + cbn [negb]. rewrite andb_false_r. reflexivity.
    + rewrite (proj1 (track_is_head _ _ Hp Nt)), Hg. reflexivity.
  - destruct (is_risk (hd_comp new) && negb (is_nil_b (c_track ch))) eqn:C.
    + inversion H; subst r. apply andb_true_iff in C. destruct C as [_ Ct]. apply negb_true_iff in Ct.
      destruct (track_is_head _ _ Hp Ct) as [_ Hn].
      unfold resolve. rewrite Hcur, Hp.
      assert (Nr : is_nil_b (c_track ch ++ slash :: new) = false) by (apply nil_app_false; reflexivity).
      rewrite Nr, (hd_comp_app _ _ Hn), Hg. reflexivity.
    + inversion H; subst r. unfold resolve. rewrite Nn, Hcur, Hp, C. reflexivity.
Qed.

Theorem pinned_idempotent : forall track new r, resolve_pinned track new = POk r -> resolve_pinned track r = POk r.
Proof.
  intros track new r H. destruct (is_nil_b track) eqn:Nt.
  - unfold resolve_pinned. rewrite Nt. reflexivity.
  - apply (resolve_pinned_ok _ _ _ Nt H).
Qed.
