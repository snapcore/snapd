(* C11 — proofs about models/SnapSeq.v: every step of every kind, completed, refused, or failed at ANY position and undone,
   preserves the invariant (step_wf_all), hence every history does (history_wf_all); the configuration never flows into
   any other field (core, core_run_fail). *)
From Coq Require Import List NArith ZArith Bool.
Import ListNotations.
Require Import V.models.SnapSeq V.proofs.SnapSeqProofs V.proofs.SnapSeqProofs3 V.proofs.SnapSeqDone V.proofs.SnapSeqProofs7.
Open Scope N_scope.

Definition core (s : st) : st :=
  mkSt (seq s) (cur s) (active s) (chan s) (devmode s) (jailmode s) (classic s) (trymode s) (ignoreval s) (cohort s)
       (lastref s) (inhib s) (nb s) 0 [] (mounted s) (link s).

(* two states with the same core differ by a set_cfgs, and every projection of `set_cfgs c rc a` computes *)
Lemma core_eq : forall a b, core a = core b -> exists c rc, b = set_cfgs c rc a.
Proof. intros [] [] H. injection H; intros; subst. eexists _, _. reflexivity. Qed.

Lemma core_norm : forall X Y, core X = core Y -> core (norm X) = core (norm Y).
Proof.
  intros X Y H. destruct (core_eq X Y H) as (c & rc & ->). unfold norm. cbn [seq set_cfgs].
  destruct (seq X); reflexivity.
Qed.

Lemma core_do_task : forall o t a b, core a = core b ->
  core (fst (do_task o t a)) = core (fst (do_task o t b)) /\ snd (do_task o t a) = snd (do_task o t b).
Proof.
  intros o [k r] a b H. destruct (core_eq a b H) as (c & rc & ->).
  destruct k; unfold do_task; cbn [fst snd]; (split; [|reflexivity]); try reflexivity.
  - apply core_norm. reflexivity.
  - unfold do_discard. cbn [seq cur set_cfgs].
    match goal with |- context [let '(_, _) := ?e in _] => destruct e as [sq' c'] end.
    apply core_norm. destruct sq'; reflexivity.
  - unfold do_configure. destruct (ohookcfg o =? 0); reflexivity.
  - apply core_norm. reflexivity.
Qed.

Lemma core_undo_task : forall o c t d a b, core a = core b -> core (undo_task o c t d a) = core (undo_task o c t d b).
Proof.
  intros o c [k r] d a b H. destruct (core_eq a b H) as (cf & rc & ->).
  unfold undo_task. cbn [fst snd]. destruct k; try reflexivity.
  - apply core_norm. reflexivity.
  - destruct d as [d|]; [|reflexivity]. unfold undo_link. cbn [seq cur set_cfgs].
    destruct (last_index (cur a) (seq a)); [|reflexivity]. apply core_norm. reflexivity.
  - unfold undo_unlink_snap. destruct (negb c); [|reflexivity]. apply core_norm. reflexivity.
Qed.

Lemma core_run_fail : forall o c ts a b, core a = core b -> core (run_fail o c ts a) = core (run_fail o c ts b).
Proof.
  induction ts as [|t ts IH]; intros a b H; [exact H|]. cbn [run_fail].
  destruct (core_do_task o t a b H) as [H1 H2].
  destruct (do_task o t a) as [a' da]. destruct (do_task o t b) as [b' db]. simpl in H1, H2. subst db.
  apply core_undo_task. apply IH. exact H1.
Qed.

(* the same state with some configuration: outside the config-from-nothing class *)
Definition with_cfg (s : st) : st :=
  mkSt (seq s) (cur s) (active s) (chan s) (devmode s) (jailmode s) (classic s) (trymode s) (ignoreval s) (cohort s)
       (lastref s) (inhib s) (nb s) 1 (revcfg s) (mounted s) (link s).

Lemma core_with_cfg : forall s, core (with_cfg s) = core s. Proof. reflexivity. Qed.
Lemma accepts_with_cfg : forall o s, accepts o (with_cfg s) = accepts o s. Proof. reflexivity. Qed.

Theorem failed_c10_wf : forall s o j retain inuse,
  wf s -> c10_op o -> accepts o s = true -> (2 <= retain)%Z ->
  wf (run_change o (S j) (tasks_for o s retain inuse) s).
Proof. exact failed_c10_keeps_wf. Qed.

(* relinking after a partial remove (undoUnlinkSnap when the data of the current revision is still there) *)
Lemma wf_relink : forall X, wf X -> active X = false -> wf (norm (set_active_link true (cur X) X)).
Proof.
  intros X [W1 W2 W3 W4 W5 W6 W7 W8] A. unfold norm. cbn [seq set_active_link].
  destruct (seq X) as [|x l] eqn:SQ.
  - specialize (W3 eq_refl). rewrite W3. simpl. constructor; simpl; try tauto; try constructor. intros y [].
  - constructor; simpl; auto; rewrite ?SQ; auto. intros Z; discriminate.
Qed.

(* unlink-snap and some discards, then unlink-snap undone: discard-snap has no undo, and undoUnlinkSnap relinks or not *)
Lemma unlink_snap_tail_wf : forall o c r s D n, wf s -> seq s <> [] -> NoDup D -> incl D (seq s) ->
  wf (run_fail o c (firstn n ((KUnlinkSnap, r) :: discards D)) s).
Proof.
  intros o c r s D n W NE ND I. destruct n as [|n]; [exact W|].
  cbn [firstn]. rewrite run_fail_unlink_snap, firstn_discards, run_fail_discards.
  destruct (unlink_snap_wf s W NE) as (WX & AX & SX).
  destruct (discards_wf o (firstn n D) _ WX AX) as [WD AD].
  - apply NoDup_firstn, ND.
  - intros x Hx. rewrite SX. eapply I, In_firstn, Hx.
  - unfold undo_unlink_snap. destruct (negb c); [apply wf_relink; assumption|exact WD].
Qed.

Theorem failed_disable_wf : forall s o j retain inuse,
  wf s -> okind o = ODisable -> accepts o s = true -> wf (run_change o (S j) (tasks_for o s retain inuse) s).
Proof.
  intros s o j retain inuse W K AC.
  destruct (run_change_failed o j (tasks_for o s retain inuse) s) as (j' & c & E & _). rewrite E.
  rewrite (disable_ess o s retain inuse K).
  apply (unlink_snap_tail_wf o c (cur s) s []); [exact W|apply (accepts_disable o s K AC)|constructor|intros x []].
Qed.

(* link-snap of the current revision of an inactive snap, undone: the configuration bookkeeping may differ *)
Theorem failed_enable_wf : forall s o j retain inuse,
  wf s -> okind o = OEnable -> accepts o s = true -> wf (run_change o (S j) (tasks_for o s retain inuse) s).
Proof.
  intros s o j retain inuse W K AC.
  destruct (run_change_failed o j (tasks_for o s retain inuse) s) as (j' & c & E & _). rewrite E.
  rewrite (enable_ess o s retain inuse K).
  destruct (accepts_enable o s K AC) as (NE & A & RC).
  destruct j' as [|j']; [exact W|]. cbn [firstn]. rewrite firstn_nil.
  destruct (link_tail_undone o c (cur s) s [] false (wf_nodup s W) (wf_cur s W NE) (wf_nb s W)) as (cf & rc & E1 & _);
    [intros _; rewrite RC; exact (wf_cur s W NE)|intros []|intros []|left; reflexivity|].
  change (discards [] ++ []) with (@nil task) in E1. unfold task in *. rewrite E1, minus_nil. apply wf_set_cfgs; [|exact NE].
  replace (set_active_link false 0 s) with s; [exact W|].
  pose proof (wf_link s W) as L. rewrite A in L. destruct s; simpl in *; subst; reflexivity.
Qed.

Theorem failed_remove_rev_wf : forall s o j retain inuse,
  wf s -> okind o = ORemoveRev -> accepts o s = true -> wf (run_change o (S j) (tasks_for o s retain inuse) s).
Proof.
  intros s o j retain inuse W K AC.
  destruct (run_change_failed o j (tasks_for o s retain inuse) s) as (j' & c & E & _). rewrite E.
  rewrite (remove_rev_ess o s retain inuse K AC W).
  destruct j' as [|j']; [exact W|]. cbn [firstn]. rewrite firstn_nil.
  (* discard-snap has no undo: the change has simply completed *)
  change (wf (run_fail o c (discards [orev o]) s)). rewrite run_fail_discards.
  change (wf (run_ok o [(KDiscard, orev o)] s)). rewrite <- (remove_rev_ess o s retain inuse K AC W), <- run_change_ok.
  apply remove_rev_wf; assumption.
Qed.

Theorem failed_remove_wf : forall s o j retain inuse,
  wf s -> okind o = ORemove -> accepts o s = true -> wf (run_change o (S j) (tasks_for o s retain inuse) s).
Proof.
  intros s o j retain inuse W K AC.
  destruct (run_change_failed o j (tasks_for o s retain inuse) s) as (j' & c & E & _). rewrite E.
  rewrite (remove_ess o s retain inuse K).
  pose proof (accepts_remove o s K AC) as NE. destruct (remove_order s W NE) as [NDD ID].
  destruct (active s) eqn:A; [apply unlink_snap_tail_wf; assumption|].
  cbn [app]. rewrite firstn_discards, run_fail_discards.
  apply discards_wf; auto; [apply NoDup_firstn, NDD|]. intros x Hx. eapply ID, In_firstn, Hx.
Qed.

(* any step — completed, refused, or failed at any position and undone — preserves the invariant; the only side condition
   is the range of refresh.retain that the configuration accepts *)
Theorem step_wf_all : forall o k retain inuse s, wf s -> (2 <= retain)%Z -> wf (step o k retain inuse s).
Proof.
  intros o k retain inuse s W R.
  destruct k as [|j]; [apply completed_wf; assumption|].
  destruct (accepts o s) eqn:AC; [|rewrite refused_unchanged; auto].
  destruct (okind o) eqn:K; try (apply poke_wf; auto; fail); unfold step; rewrite AC, K.
  - apply failed_c10_wf; auto. left; exact K.
  - apply failed_c10_wf; auto. right; left; exact K.
  - apply failed_c10_wf; auto. right; right; exact K.
  - apply failed_remove_wf; auto.
  - apply failed_remove_rev_wf; auto.
  - apply failed_enable_wf; auto.
  - apply failed_disable_wf; auto.
Qed.

(* every history of operations, each completed, refused, or failed at an arbitrary task and undone, played with
   retain values >= 2 from a state that satisfies the invariant, ends in one that does *)
Theorem history_wf_all : forall hs s, wf s -> (forall h, In h hs -> (2 <= h_retain h)%Z) -> wf (hplay hs s).
Proof.
  induction hs as [|h r IH]; intros s W R; [exact W|]. simpl. apply IH.
  - unfold hrun. apply step_wf_all; auto. apply R. left; reflexivity.
  - intros h' Hh. apply R. right. exact Hh.
Qed.
