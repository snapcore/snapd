(* Proofs about models/SnapSeq.v — C10 after garbage collection with the configuration guard refined to the
   failure position (has the configure hook completed before the failure?). *)
From Coq Require Import List NArith ZArith Bool.
Import ListNotations.
Require Import V.models.SnapSeq V.proofs.SnapSeqProofs V.proofs.SnapSeqProofs3.
Open Scope N_scope.

(* the same operation whose configure hook writes nothing *)
Definition no_hook (o : op) : op :=
  mkOp (okind o) (orev o) (odefault o) (ochan o) (odev o) (ojail o) (oclassic o) (otry o) (oignore o) (ocohort o)
       (onotblocked o) 0 (onow o) (ofromstore o).

Definition is_configure (t : task) : bool := kind_eqb (fst t) KConfigure.

Lemma do_task_no_hook : forall o t s, is_configure t = false -> do_task (no_hook o) t s = do_task o t s.
Proof. intros o [k r] s H. destruct k; try reflexivity. discriminate H. Qed.

Lemma undo_task_no_hook : forall o c t d s, undo_task (no_hook o) c t d s = undo_task o c t d s.
Proof. intros o c [k r] d s. destruct k; reflexivity. Qed.

Lemma run_fail_no_hook : forall o c ts s,
  forallb (fun t => negb (is_configure t)) ts = true -> run_fail (no_hook o) c ts s = run_fail o c ts s.
Proof.
  induction ts as [|t ts IH]; intros s H; [reflexivity|]. simpl in H. apply andb_true_iff in H. destruct H as [H1 H2].
  apply negb_true_iff in H1. cbn [run_fail]. rewrite (do_task_no_hook o t s H1).
  destruct (do_task o t s) as [s' d]. rewrite undo_task_no_hook. rewrite IH; auto.
Qed.

Lemma tasks_no_hook : forall o s retain inuse, tasks_for (no_hook o) s retain inuse = tasks_for o s retain inuse.
Proof. reflexivity. Qed.
Lemma accepts_no_hook : forall o s, accepts (no_hook o) s = accepts o s.
Proof. reflexivity. Qed.

Lemma run_change_no_hook : forall o j ts s,
  forallb (fun t => negb (is_configure t)) (firstn j ts) = true ->
  run_change (no_hook o) (S j) ts s = run_change o (S j) ts s.
Proof. intros. rewrite !run_change_fail. apply run_fail_no_hook. assumption. Qed.

(* the guard, position by position: the snap has some configuration; or it has none, no stale snapshot exists for the
   current revision, and the configure hook writes nothing or has NOT completed among the first j tasks *)
Definition cfg_guard_at (o : op) (s : st) (j : nat) (ts : list task) : Prop :=
  cfg s <> 0 \/
  (rc_get (cur s) (revcfg s) = None /\
   (ohookcfg o = 0 \/ forallb (fun t => negb (is_configure t)) (firstn j ts) = true)).

Theorem failed_after_gc_at : forall s o j retain inuse,
  wf s -> okind o = ORefresh -> accepts o s = true -> (2 <= retain)%Z ->
  cfg_guard_at o s j (tasks_for o s retain inuse) ->
  forget (run_change o (S j) (tasks_for o s retain inuse) s)
  = forget (minus (map snd (filter is_discard (firstn j (tasks_for o s retain inuse)))) s).
Proof.
  intros s o j retain inuse W K AC R G.
  assert (NR : is_revert o = false) by (unfold is_revert; rewrite K; reflexivity).
  destruct G as [C|[N [H|H]]].
  - apply failed_after_gc_any; auto. left; exact C.
  - apply failed_after_gc_any; auto. right; right. repeat split; auto. congruence.
  - rewrite <- (run_change_no_hook o j (tasks_for o s retain inuse) s H).
    rewrite <- (tasks_no_hook o s retain inuse).
    apply failed_after_gc_any; auto.
    right; right. repeat split; auto. unfold is_revert. simpl. rewrite K. discriminate.
Qed.
