(* C20 - the stream round trip: Decoder.Decode called repeatedly on what one Encoder wrote returns exactly the
   assertions, in order, then EOF (models/AssertCodec.v: stream_all, encode_stream).  Builds on AssertCodecProofs. *)
From Coq Require Import List NArith ZArith Bool Arith Lia ZifyBool ZifyNat ZifyN.
Import ListNotations.
Require Import V.lib.Bytes V.proofs.BytesFacts V.proofs.ListFacts V.models.AssertCodec V.proofs.AssertCodecProofs.
Open Scope N_scope.

Lemma delim_end_ge_2 : forall s e, delim_end s = Some e -> 2 <= e.
Proof. intros s e H. unfold delim_end in H. destruct (cut_first_nlnl s) as [[a b]|]; inversion H; lia. Qed.

Lemma has_prefix_nlnl_firstn2 : forall c r n, (1 <= n)%nat -> has_prefix NLNL (c :: firstn n r) = has_prefix NLNL (c :: r).
Proof. intros c r n H. destruct n; [lia|]. apply has_prefix_nlnl_firstn. Qed.

Lemma delim_end_firstn : forall s n,
  delim_end (firstn n s) = match delim_end s with Some e => if e <=? N.of_nat n then Some e else None | None => None end.
Proof.
  induction s as [|c r IH]; intro n; [rewrite firstn_nil; reflexivity|].
  destruct (Nat.le_gt_cases n 1) as [Hn|Hn].
  - rewrite delim_end_short by (unfold lenN; rewrite firstn_length; lia).
    destruct (delim_end (c :: r)) as [e|] eqn:E; [|reflexivity].
    apply delim_end_ge_2 in E. destruct (N.leb_spec e (N.of_nat n)); [lia|reflexivity].
  - destruct n as [|n]; [lia|]. cbn [firstn].
    assert (P : has_prefix NLNL (c :: firstn n r) = has_prefix NLNL (c :: r)) by (apply has_prefix_nlnl_firstn2; lia).
    destruct (has_prefix NLNL (c :: r)) eqn:Q.
    + unfold delim_end. cbn [cut_first_nlnl]. rewrite P, Q. change (lenN [] + 2) with 2.
      destruct (N.leb_spec 2 (N.of_nat (S n))); [reflexivity|lia].
    + rewrite (delim_end_cons _ _ P), (delim_end_cons _ _ Q), IH. destruct (delim_end r) as [e|]; [|reflexivity].
      destruct (N.leb_spec e (N.of_nat n)); destruct (N.leb_spec (1 + e) (N.of_nat (S n))); try lia; reflexivity.
Qed.

Lemma delim_end_takeN : forall s k,
  delim_end (takeN k s) = match delim_end s with Some e => if e <=? k then Some e else None | None => None end.
Proof. intros s k. rewrite takeN_firstn, delim_end_firstn, N2Nat.id. reflexivity. Qed.

Lemma delim_end_le : forall s e, delim_end s = Some e -> e <= lenN s.
Proof.
  intros s e H. pose proof (delim_end_firstn s (length s)) as F. rewrite firstn_all, H in F. fold (lenN s) in F.
  destruct (N.leb_spec e (lenN s)); [assumption|discriminate].
Qed.

Lemma takeN_all : forall n s, lenN s <= n -> takeN n s = s.
Proof. intros n s H. rewrite takeN_firstn. apply firstn_all2. unfold lenN in H. lia. Qed.

Lemma ru_ok_next : forall f size maxSize n, ru_ok (S f) size maxSize n = true -> (n <=? size) = false ->
  (maxSize <? size * 2) = false /\ ru_ok f (size * 2) maxSize n = true.
Proof.
  intros f size maxSize n H Hn. cbn [ru_ok] in H. rewrite Hn in H. apply andb_true_iff in H as [Hm H].
  apply negb_true_iff in Hm. split; assumption.
Qed.

(* readUntil is decided by the whole remaining input: it returns up to the first blank line if there is one and all of
   it with EOF otherwise, once the doubling reaches a window that shows which *)
Theorem read_until_spec : forall fuel size maxSize d,
  ru_ok fuel size maxSize (match delim_end (d_rem d) with Some e => e | None => lenN (d_rem d) + 1 end) = true ->
  exists ef, read_until fuel size maxSize d =
    match delim_end (d_rem d) with
    | Some e => (RFound (takeN e (d_rem d)), mkD (dropN e (d_rem d)) ef)
    | None => (REof (d_rem d), mkD [] ef)
    end.
Proof.
  induction fuel as [|f IH]; intros size maxSize d Hok; [discriminate|]. specialize (IH (size * 2) maxSize d).
  cbn [read_until]. unfold peek. destruct (lenN (d_rem d) <? size) eqn:Eshort.
  - cbn [d_rem d_eof]. destruct (delim_end (d_rem d)); [|rewrite N.eqb_refl]; eexists; reflexivity.
  - rewrite delim_end_takeN. destruct (delim_end (d_rem d)) as [e|] eqn:He.
    + destruct (e <=? size) eqn:Ele; [rewrite takeN_takeN by lia; eexists; reflexivity|].
      pose proof (delim_end_le _ _ He). pose proof (takeN_len_le_size size (d_rem d)).
      replace (lenN (takeN size (d_rem d)) =? lenN (d_rem d)) with false by lia.
      rewrite andb_false_r. destruct (ru_ok_next _ _ _ _ Hok Ele) as [-> Hok']. exact (IH Hok').
    + destruct (d_eof d && (lenN (takeN size (d_rem d)) =? lenN (d_rem d))) eqn:Ec.
      * apply andb_true_iff in Ec as [_ Ec]. rewrite takeN_all by (rewrite <- (proj1 (N.eqb_eq _ _) Ec); apply takeN_len_le_size).
        eexists. reflexivity.
      * assert (Hn : (lenN (d_rem d) + 1 <=? size) = false) by lia.
        destruct (ru_ok_next _ _ _ _ Hok Hn) as [-> Hok']. exact (IH Hok').
Qed.

Theorem read_until_eof : forall fuel size maxSize d,
  delim_end (d_rem d) = None -> ru_ok fuel size maxSize (lenN (d_rem d) + 1) = true ->
  exists ef, read_until fuel size maxSize d = (REof (d_rem d), mkD [] ef).
Proof. intros fuel size maxSize d He Hok. pose proof (read_until_spec fuel size maxSize d) as H. rewrite He in H. exact (H Hok). Qed.

Lemma ru_ok_mono : forall fuel size maxSize n n', n' <= n -> ru_ok fuel size maxSize n = true -> ru_ok fuel size maxSize n' = true.
Proof.
  induction fuel as [|f IH]; intros size maxSize n n' Hle H; [discriminate|]. cbn [ru_ok] in *.
  apply orb_true_iff in H. apply orb_true_iff. destruct H as [H|H]; [left; lia|]. right.
  apply andb_true_iff in H. destruct H as [H1 H2]. rewrite H1. cbn. eapply IH; eassumption.
Qed.

Lemma takeN_app_exact : forall a b : bytes, takeN (lenN a) (a ++ b) = a.
Proof. intros a b. rewrite takeN_firstn. unfold lenN. rewrite Nat2N.id. apply firstn_app_exact. Qed.

Lemma dropN_app_exact : forall a b : bytes, dropN (lenN a) (a ++ b) = b.
Proof.
  intros a b. unfold dropN, lenN. rewrite app_length.
  replace (N.to_nat (N.min (N.of_nat (length a)) (N.of_nat (length a + length b)))) with (length a) by lia.
  apply skipn_app_exact.
Qed.

Lemma found_app : forall fuel size maxSize p X ef,
  cut_first_nlnl p = None -> last p 0 <> NL -> ru_ok fuel size maxSize (lenN p + 2) = true ->
  exists ef1, read_until fuel size maxSize (mkD (p ++ NLNL ++ X) ef) = (RFound (p ++ NLNL), mkD X ef1).
Proof.
  intros fuel size maxSize p X ef Hc Hl Hok.
  pose proof (read_until_spec fuel size maxSize (mkD (p ++ NLNL ++ X) ef)) as H. cbn [d_rem] in H.
  unfold delim_end in H. rewrite (cut_first_app_sep p X Hc Hl) in H. destruct (H Hok) as [ef1 ->]. exists ef1.
  replace (lenN p + 2) with (lenN (p ++ NLNL)) by (unfold lenN; rewrite app_length; cbn; lia).
  replace (p ++ NLNL ++ X) with ((p ++ NLNL) ++ X) by (rewrite <- app_assoc; reflexivity).
  rewrite takeN_app_exact, dropN_app_exact. reflexivity.
Qed.

Lemma eof_app : forall fuel size maxSize s ef,
  cut_first_nlnl s = None -> last s 0 <> NL -> ru_ok fuel size maxSize (lenN s + 2) = true ->
  exists ef1, read_until fuel size maxSize (mkD (s ++ [NL]) ef) = (REof (s ++ [NL]), mkD [] ef1).
Proof.
  intros fuel size maxSize s ef Hc Hl Hok.
  assert (He : delim_end (d_rem (mkD (s ++ [NL]) ef)) = None).
  { cbn [d_rem]. unfold delim_end. rewrite (cut_first_app s _ Hc Hl). reflexivity. }
  apply (read_until_eof fuel size maxSize _ He). cbn [d_rem].
  replace (lenN (s ++ [NL]) + 1) with (lenN s + 2) by (unfold lenN; rewrite app_length; cbn; lia). exact Hok.
Qed.

Lemma read_exact_app : forall (a b : bytes) ef, read_exact (lenN a) (mkD (a ++ b) ef) = (Some a, mkD b ef).
Proof.
  intros a b ef. unfold read_exact, peek. cbn [d_rem d_eof].
  replace (lenN (a ++ b) <? lenN a) with false by (unfold lenN; rewrite app_length; lia).
  rewrite takeN_app_exact, N.eqb_refl. cbn [d_rem d_eof]. rewrite dropN_app_exact. reflexivity.
Qed.

Lemma has_suffix_nlnl_app : forall s : bytes, has_suffix_nlnl (s ++ NLNL) = true.
Proof. intro s. unfold has_suffix_nlnl. rewrite rev_app_distr. reflexivity. Qed.

Lemma has_suffix_nlnl_single : forall s : bytes, last s 0 <> NL -> has_suffix_nlnl (s ++ [NL]) = false.
Proof.
  intros s H. unfold has_suffix_nlnl. rewrite rev_unit, has_prefix_nlnl_cons, N.eqb_refl. cbn [andb].
  destruct s as [|c s] using rev_ind; [reflexivity|]. rewrite last_last in H. rewrite rev_unit. cbn [has_prefix].
  destruct (N.eqb_spec NL c); [congruence|reflexivity].
Qed.

Lemma removelast_app_nlnl : forall s : bytes, removelast (s ++ NLNL) = s ++ [NL].
Proof. intro s. change NLNL with ([NL] ++ [NL]). rewrite app_assoc. apply removelast_last. Qed.

Lemma head_facts : forall it, wf_item it ->
  cut_first_nlnl (i_head it) = None /\ last (i_head it) 0 <> NL /\ parse_headers (i_head it) = Ok (i_h it).
Proof.
  intros it [Hn [Hne [Hl [Hu _]]]]. unfold i_head in *. destruct (head_text_ok _ Hn Hne Hl) as [Hc Hlast].
  repeat split; [exact Hc|exact Hlast|apply roundtrip_bytes; assumption].
Qed.

Definition tail_of (more : option bytes) : bytes := match more with Some rest => NL :: rest | None => [] end.
Definition rest_of (more : option bytes) : bytes := match more with Some rest => rest | None => [] end.

(* the signature part of the stream: either the stream ends after it, or a blank line and [rest] follow *)
Lemma sig_read : forall lim it ef (more : option bytes),
  wf_item it -> lim_ok lim it ->
  exists ef1,
    read_until ru_fuel (l_buf lim) (l_sig lim)
      (mkD (i_sig it ++ tail_of more) ef)
    = (match more with Some _ => RFound (i_s it ++ NLNL) | None => REof (i_sig it) end, mkD (rest_of more) ef1).
Proof.
  intros lim it ef more [_ [_ [_ [_ [_ [Hc [Hl _]]]]]]] [_ [_ Hok]]. unfold i_sig, tail_of, rest_of. destruct more as [rest|].
  - replace ((i_s it ++ [NL]) ++ NL :: rest) with (i_s it ++ NLNL ++ rest) by (rewrite <- app_assoc; reflexivity).
    apply found_app; assumption.
  - rewrite app_nil_r. apply eof_app; assumption.
Qed.

Lemma sig_norm : forall it (more : option bytes), wf_item it ->
  (let b := match more with Some _ => i_s it ++ NLNL | None => i_sig it end in
   if has_suffix_nlnl b then removelast b else b) = i_sig it.
Proof.
  intros it more [_ [_ [_ [_ [_ [_ [Hl _]]]]]]]. destruct more; cbn zeta.
  - rewrite has_suffix_nlnl_app, removelast_app_nlnl. reflexivity.
  - unfold i_sig. rewrite (has_suffix_nlnl_single _ Hl). reflexivity.
Qed.

Lemma firstn_head_sep : forall head : bytes, firstn (length (head ++ NLNL) - 2) (head ++ NLNL) = head.
Proof.
  intro head. rewrite app_length. cbn [length NLNL]. replace (length head + 2 - 2)%nat with (length head) by lia.
  apply firstn_app_exact.
Qed.

Lemma sig_not_blank : forall it (more : option bytes), wf_item it ->
  beq (match more with Some _ => i_s it ++ NLNL | None => i_sig it end) NLNL = false.
Proof.
  intros it more [_ [_ [_ [_ [_ [_ [Hl Hne]]]]]]]. destruct (beq _ NLNL) eqn:E; [|reflexivity]. exfalso.
  apply beq_true_iff in E. destruct more.
  - apply (f_equal (@length N)) in E. rewrite app_length in E. cbn in E. destruct (i_s it); [congruence|cbn in E; lia].
  - unfold i_sig in E. change NLNL with ([NL] ++ [NL]) in E. apply app_inj_tail in E. destruct E as [E _].
    rewrite E in Hl. cbn in Hl. congruence.
Qed.

Theorem stream_step : forall lim it ef (more : option bytes),
  wf_item it -> lim_ok lim it ->
  exists ef', stream_decode lim (mkD (written it ++ tail_of more) ef) = (SOk (i_parts it), mkD (rest_of more) ef').
Proof.
  intros lim it ef more Hwf Hlim.
  destruct (head_facts it Hwf) as [Hhc [Hhl Hparse]].
  pose proof Hwf as [_ [_ [_ [_ [Hbl _]]]]]. pose proof Hlim as [Hokh [Hbody Hoks]].
  pose proof (sig_norm it more Hwf) as Hsn. cbn zeta in Hsn.
  (* the input is head, blank line, X: one readUntil takes the head; of X the body (if any) is read by its length, the
     blank line after it by a second readUntil, and the signature by sig_read *)
  set (X := (if is_nil_b (i_body it) then [] else i_body it ++ NLNL) ++ i_sig it ++ tail_of more).
  assert (Ew : written it ++ tail_of more = i_head it ++ NLNL ++ X).
  { unfold X, written, i_content, content_of. destruct (i_body it); cbn [is_nil_b]; rewrite <- !app_assoc; reflexivity. }
  destruct (found_app ru_fuel (l_buf lim) (l_headers lim) (i_head it) X ef Hhc Hhl Hokh) as [ef1 H1].
  unfold stream_decode. rewrite Ew, H1, firstn_head_sep, Hparse, Hbl.
  replace (Z.of_N (lenN (i_body it)) <? 0)%Z with false by lia.
  replace (Z.of_N (l_body lim) <? Z.of_N (lenN (i_body it)))%Z with false by lia.
  replace (Z.of_N (lenN (i_head it ++ NLNL)) + Z.of_N (lenN (i_body it)) <? 0)%Z with false by lia.
  unfold i_parts, i_content, content_of, X. destruct (i_body it) as [|b0 body']; cbn [is_nil_b].
  - cbn [app]. replace (0 <? Z.of_N (lenN (@nil N)))%Z with false by reflexivity. cbv beta iota zeta.
    destruct (sig_read lim it ef1 more Hwf Hlim) as [ef2 H2]. rewrite H2. cbv beta iota zeta.
    pose proof (sig_not_blank it more Hwf) as Hnb.
    exists ef2. destruct more as [rest|]; cbn [rest_of]; rewrite Hnb, Hsn; reflexivity.
  - set (body := b0 :: body') in *. rewrite <- (app_assoc body).
    replace (0 <? Z.of_N (lenN body))%Z with true by (unfold lenN, body; cbn [length]; lia).
    rewrite N2Z.id. cbv beta iota zeta.
    rewrite read_exact_app. cbv beta iota zeta.
    assert (Hok2 : ru_ok ru_fuel (l_buf lim) (l_sig lim) (lenN (@nil N) + 2) = true).
    { eapply ru_ok_mono; [|exact Hoks]. unfold lenN. cbn. lia. }
    destruct (found_app ru_fuel (l_buf lim) (l_sig lim) [] (i_sig it ++ tail_of more) ef1 eq_refl ltac:(cbn; unfold NL; lia) Hok2) as [ef3 H3].
    cbn [app] in H3. cbn [app]. rewrite H3. cbv beta iota zeta.
    assert (Hb : beq NLNL NLNL = true) by reflexivity. rewrite Hb.
    destruct (sig_read lim it ef3 more Hwf Hlim) as [ef4 H4]. rewrite H4. cbv beta iota zeta.
    exists ef4. destruct more as [rest|]; cbn [rest_of]; rewrite Hsn, <- app_assoc; reflexivity.
Qed.

Lemma stream_of_cons : forall it r,
  stream_of (it :: r) = written it ++ tail_of (match r with [] => None | _ => Some (stream_of r) end).
Proof. intros it [|it2 r]; cbn [stream_of tail_of]; [rewrite app_nil_r|]; reflexivity. Qed.

Lemma ru_ok_fits : forall f size maxSize n, n <= size -> ru_ok (S f) size maxSize n = true.
Proof. intros f size maxSize n H. cbn [ru_ok]. apply orb_true_iff. left. lia. Qed.

(* on an exhausted reader the first round of readUntil already sees the end *)
Lemma stream_empty : forall lim ef, 1 <= l_buf lim -> fst (stream_decode lim (mkD [] ef)) = SEof.
Proof.
  intros lim ef H. unfold stream_decode.
  destruct (read_until_eof ru_fuel (l_buf lim) (l_headers lim) (mkD [] ef) eq_refl (ru_ok_fits _ _ _ _ H)) as [ef1 ->].
  reflexivity.
Qed.

Theorem stream_roundtrip_items : forall lim l ef,
  1 <= l_buf lim -> Forall wf_item l -> Forall (lim_ok lim) l ->
  stream_all lim (mkD (stream_of l) ef) (repeat true (S (length l))) = map (fun it => SOk (i_parts it)) l ++ [SEof].
Proof.
  intros lim l. induction l as [|it r IH]; intros ef Hb Hwf Hlim.
  - cbn [stream_of length repeat stream_all map app]. pose proof (stream_empty lim ef Hb) as He.
    destruct (stream_decode lim (mkD [] ef)) as [x d1]. cbn [fst] in He. subst x. reflexivity.
  - inversion Hwf as [|? ? Hw Hwf']; subst. inversion Hlim as [|? ? Hl Hlim']; subst.
    rewrite stream_of_cons. cbn [length repeat stream_all].
    destruct (stream_step lim it ef (match r with [] => None | _ => Some (stream_of r) end) Hw Hl) as [ef' Hs].
    rewrite Hs. cbn [map app]. f_equal.
    replace (rest_of match r with [] => None | _ :: _ => Some (stream_of r) end) with (stream_of r) by (destruct r; reflexivity).
    apply (IH ef' Hb Hwf' Hlim').
Qed.

Lemma enc_item_closed : forall t it, wf_item it ->
  enc_item t it ++ (if last (enc_item t it) 0 =? NL then [] else [NL]) = written it.
Proof.
  intros t it [_ [_ [_ [_ [_ [_ [Hl Hne]]]]]]]. destruct t; unfold enc_item.
  - rewrite app_assoc. rewrite (last_app _ (i_s it) 0 Hne).
    replace (last (i_s it) 0 =? NL) with false by (symmetry; apply N.eqb_neq; exact Hl).
    unfold written, i_sig. rewrite <- !app_assoc. reflexivity.
  - unfold written, i_sig. rewrite !app_assoc. rewrite last_last. rewrite N.eqb_refl. apply app_nil_r.
Qed.

Lemma encode_stream_from_items : forall l next, Forall (fun x => wf_item (snd x)) l ->
  encode_stream_from next (enc_items l) = match l with [] => [] | _ => next ++ stream_of (map snd l) end.
Proof.
  induction l as [|[t it] r IH]; intros next H; [reflexivity|].
  inversion H as [|? ? Hw Hr]; subst. cbn [snd] in Hw.
  cbn [enc_items map fst snd encode_stream_from]. fold (enc_items r). rewrite (IH [NL] Hr).
  rewrite (app_assoc (enc_item t it)). rewrite (enc_item_closed t it Hw).
  destruct r as [|x r']; [cbn [map stream_of]; rewrite app_nil_r; reflexivity|].
  cbn [map]. destruct (map snd r') eqn:E; cbn [stream_of app]; rewrite <- ?app_assoc; reflexivity.
Qed.

Theorem stream_roundtrip : forall lim (l : list (bool * item)) ef,
  1 <= l_buf lim -> Forall (fun x => wf_item (snd x)) l -> Forall (fun x => lim_ok lim (snd x)) l ->
  stream_all lim (mkD (encode_stream (enc_items l)) ef) (repeat true (S (length l)))
  = map (fun x => SOk (i_parts (snd x))) l ++ [SEof].
Proof.
  intros lim l ef Hb Hwf Hlim. unfold encode_stream. rewrite (encode_stream_from_items l [] Hwf).
  assert (Hgen : stream_all lim (mkD (stream_of (map snd l)) ef) (repeat true (S (length (map snd l))))
                 = map (fun it => SOk (i_parts it)) (map snd l) ++ [SEof]).
  { apply stream_roundtrip_items; [exact Hb| |]; apply Forall_map; assumption. }
  rewrite map_length, map_map in Hgen. destruct l as [|x l']; exact Hgen.
Qed.

(* the production limits: header text up to 128 KiB - 2, body up to 2 MiB, signature text up to 128 KiB - 2: the
   doubling from 4096 reaches 131072 without exceeding it, and with it every smaller window *)
Lemma ru_ok_default : forall n, n <= 131072 -> ru_ok ru_fuel 4096 131072 n = true.
Proof. intros n H. apply (ru_ok_mono _ _ _ 131072 n H). reflexivity. Qed.

