(* C19 - the assertion store (models/AssertStore.v).  Highest revision, latest and first member of a sequence are [pick] for
   three orders (pick_best); [put] has two outcomes (put_spec); a history of adds keeps [highest_inv]; the escape of the
   filesystem backstore can be undone, hence distinct keys get distinct files. *)
From Coq Require Import List NArith ZArith Bool Lia ZifyBool.
Import ListNotations.
Require Import V.lib.Bytes V.proofs.BytesFacts V.models.AssertStore.
Open Scope N_scope.

Lemma key_eqb_true_iff : forall a b, key_eqb a b = true <-> a = b.
Proof.
  induction a as [|x a IH]; destruct b as [|y b]; cbn; split; intro H; try congruence.
  - apply andb_true_iff in H as [H1 H2]. apply beq_eq in H1. apply IH in H2. congruence.
  - injection H as -> ->. rewrite beq_refl. apply IH. reflexivity.
Qed.

Lemma same_key_iff : forall t k x, same_key t k x = true <-> a_typ x = t /\ a_key x = k.
Proof.
  intros t k x. unfold same_key. rewrite andb_true_iff, N.eqb_eq, key_eqb_true_iff. tauto.
Qed.

Lemma same_key_self : forall a, same_key (a_typ a) (a_key a) a = true.
Proof. intro a. apply same_key_iff. split; reflexivity. Qed.

Lemma pick_none : forall better l, pick better l = None -> l = [].
Proof.
  intros better [|x r] H; [reflexivity|]. cbn in H. destruct (pick better r) as [b|]; [destruct (better x b)|]; discriminate.
Qed.

(* [pick better l] is an element of l that none beats, whenever [better x b] decides a total preorder: R x y reads
   "y is at least as good as x".  The lookups below (latest or first member of a sequence, highest revision) are instances. *)
Lemma pick_best : forall (better : asn -> asn -> bool) (R : asn -> asn -> Prop),
  (forall x, R x x) -> (forall x y z, R x y -> R y z -> R x z) ->
  (forall x b, better x b = true -> R b x) -> (forall x b, better x b = false -> R x b) ->
  forall l r, pick better l = Some r -> In r l /\ forall x, In x l -> R x r.
Proof.
  intros better R Rrefl Rtrans Ht Hf. induction l as [|y l IH]; intros r H; cbn in H; [discriminate|].
  destruct (pick better l) as [b|] eqn:E.
  - destruct (IH b eq_refl) as [Hin Hb]. destruct (better y b) eqn:L; injection H as <-.
    + split; [left; reflexivity|]. intros x [<-|Hx]; [apply Rrefl|]. exact (Rtrans _ _ _ (Hb x Hx) (Ht _ _ L)).
    + split; [right; exact Hin|]. intros x [<-|Hx]; [exact (Hf _ _ L) | exact (Hb x Hx)].
  - injection H as <-. rewrite (pick_none _ _ E). split; [left; reflexivity|]. intros x [<-|[]]. apply Rrefl.
Qed.

Lemma best_pick : forall l, best l = pick (fun x b => a_rev b <=? a_rev x) l.
Proof.
  induction l as [|x r IH]; [reflexivity|]. cbn. rewrite IH. destruct (pick _ r) as [b|]; [|reflexivity].
  rewrite N.leb_antisym. destruct (a_rev x <? a_rev b); reflexivity.
Qed.

Lemma best_max : forall l b, best l = Some b -> In b l /\ forall x, In x l -> a_rev x <= a_rev b.
Proof.
  intros l b. rewrite best_pick. apply (pick_best _ (fun x y => a_rev x <= a_rev y)); intros; lia.
Qed.

Lemma best_none : forall l, best l = None -> l = [].
Proof. intro l. rewrite best_pick. apply pick_none. Qed.

Lemma best_cons_higher : forall a l, (forall x, In x l -> a_rev x < a_rev a) -> best (a :: l) = Some a.
Proof.
  intros a l H. cbn. destruct (best l) as [b|] eqn:E; [|reflexivity].
  pose proof (H b (proj1 (best_max _ _ E))) as Hb. destruct (a_rev a <? a_rev b) eqn:L; [lia|reflexivity].
Qed.

Definition sel (t : N) (k : list bytes) (m : N) (x : asn) : bool := same_key t k x && (a_fmt x <=? m).

Lemma cur_unfold : forall s t k m, cur s t k m = best (filter (sel t k m) s).
Proof. reflexivity. Qed.

Lemma cur_key : forall s t k m c, cur s t k m = Some c -> In c s /\ a_typ c = t /\ a_key c = k /\ a_fmt c <= m.
Proof.
  intros s t k m c H. rewrite cur_unfold in H. apply best_max in H as [H _]. apply filter_In in H as [Hin Hs].
  unfold sel in Hs. apply andb_true_iff in Hs as [Hk Hf]. apply same_key_iff in Hk as [Ht Hk]. repeat split; auto. lia.
Qed.

Lemma cur_bounds : forall s t k m n, (forall c, cur s t k m = Some c -> a_rev c < n) ->
  forall x, In x (filter (sel t k m) s) -> a_rev x < n.
Proof.
  intros s t k m n H x Hx. rewrite cur_unfold in H. destruct (best (filter (sel t k m) s)) as [c|] eqn:E.
  - specialize (H c eq_refl). pose proof (proj2 (best_max _ _ E) x Hx). lia.
  - rewrite (best_none _ E) in Hx. contradiction.
Qed.

Lemma filter_filter_drop : forall (A : Type) (p q : A -> bool) s,
  (forall x, p x = true -> q x = true) -> filter p (filter q s) = filter p s.
Proof.
  intros A p q. induction s as [|x s IH]; intro H; cbn; [reflexivity|].
  destruct (q x) eqn:Q; cbn.
  - destruct (p x); rewrite IH by exact H; reflexivity.
  - destruct (p x) eqn:P; [rewrite (H x P) in Q; discriminate|]. apply IH. exact H.
Qed.

Lemma put_spec : forall s a s' r, put s a = (s', r) ->
  (r = RevErr /\ s' = s /\ exists c, cur s (a_typ a) (a_key a) (max_supp (a_typ a)) = Some c /\ a_rev a <= a_rev c) \/
  (r = Accepted /\ s' = insert a s /\ forall c, cur s (a_typ a) (a_key a) (max_supp (a_typ a)) = Some c -> a_rev c < a_rev a).
Proof.
  intros s a s' r H. unfold put in H. destruct (cur s (a_typ a) (a_key a) (max_supp (a_typ a))) as [c|].
  - destruct (a_rev a <=? a_rev c) eqn:L; injection H as <- <-.
    + left. repeat split. exists c. split; [reflexivity|lia].
    + right. repeat split. intros c0 [= <-]. lia.
  - injection H as <- <-. right. repeat split. discriminate.
Qed.

Lemma insert_other_key : forall s a t k m,
  same_key t k a = false -> cur (insert a s) t k m = cur s t k m.
Proof.
  intros s a t k m H. rewrite !cur_unfold. unfold insert. cbn [filter]. unfold sel at 1. rewrite H. cbn [andb].
  f_equal. apply filter_filter_drop. intros x Hx. unfold sel in Hx. apply andb_true_iff in Hx as [Hx _].
  apply negb_true_iff. unfold same_slot. destruct (same_key (a_typ a) (a_key a) x) eqn:E; [|reflexivity].
  apply same_key_iff in E as [E1 E2]. apply same_key_iff in Hx as [H1 H2].
  assert (same_key t k a = true) by (apply same_key_iff; split; congruence). congruence.
Qed.

Theorem put_accepted : forall s a s',
  put s a = (s', Accepted) -> a_fmt a <= max_supp (a_typ a) ->
  s' = insert a s /\ cur s' (a_typ a) (a_key a) (max_supp (a_typ a)) = Some a /\
  (forall c, cur s (a_typ a) (a_key a) (max_supp (a_typ a)) = Some c -> a_rev c < a_rev a).
Proof.
  intros s a s' H Hf. destruct (put_spec _ _ _ _ H) as [(E & _)|(_ & -> & Hlt)]; [discriminate|].
  split; [reflexivity|]. split; [|exact Hlt].
  rewrite cur_unfold. unfold insert. cbn [filter]. unfold sel at 1. rewrite same_key_self.
  replace (a_fmt a <=? max_supp (a_typ a)) with true by lia. cbn [andb].
  apply best_cons_higher. intros x Hx. apply filter_In in Hx as [Hx Hsel]. apply filter_In in Hx as [Hx _].
  apply (cur_bounds _ _ _ _ _ Hlt). apply filter_In. split; assumption.
Qed.

Definition add_step (st : store * list asn) (a : asn) : store * list asn :=
  let '(s, acc) := st in
  match put s a with
  | (s', Accepted) => (s', acc ++ [a])
  | (s', _) => (s', acc)
  end.

Definition adds_run (l : list asn) : store * list asn := fold_left add_step l ([], []).

Definition supported (l : list asn) : Prop := forall a, In a l -> a_fmt a <= max_supp (a_typ a).

(* what the store returns for a key is the accepted add with the highest revision, or nothing if none was accepted *)
Definition highest_inv (s : store) (acc : list asn) : Prop :=
  forall t k,
    match cur s t k (max_supp t) with
    | Some c => In c acc /\ same_key t k c = true /\ forall a, In a acc -> same_key t k a = true -> a_rev a <= a_rev c
    | None => forall a, In a acc -> same_key t k a = false
    end.

Lemma highest_step : forall s acc a,
  highest_inv s acc -> a_fmt a <= max_supp (a_typ a) ->
  highest_inv (fst (add_step (s, acc) a)) (snd (add_step (s, acc) a)).
Proof.
  intros s acc a Inv Hf. unfold add_step. destruct (put s a) as [s' r] eqn:E.
  destruct (put_spec _ _ _ _ E) as [(-> & -> & _)|(-> & _)]; [exact Inv|].
  destruct (put_accepted _ _ _ E Hf) as [-> [Hcur Hlt]]. cbn [fst snd]. intros t k.
  destruct (same_key t k a) eqn:Ek.
  - apply same_key_iff in Ek. destruct Ek as [<- <-]. rewrite Hcur. split; [apply in_or_app; right; left; reflexivity|].
    split; [apply same_key_self|]. intros a' Ha' Hk'. apply in_app_or in Ha'. destruct Ha' as [Ha'|[<-|[]]]; [|lia].
    specialize (Inv (a_typ a) (a_key a)). destruct (cur s (a_typ a) (a_key a) (max_supp (a_typ a))) as [c|] eqn:Ec.
    + destruct Inv as [_ [_ Inv]]. specialize (Inv a' Ha' Hk'). specialize (Hlt c eq_refl). lia.
    + specialize (Inv a' Ha'). congruence.
  - rewrite (insert_other_key s a t k (max_supp t) Ek). specialize (Inv t k).
    destruct (cur s t k (max_supp t)) as [c|].
    + destruct Inv as [Hin [Hk Hmax]]. split; [apply in_or_app; left; exact Hin|]. split; [exact Hk|].
      intros a' Ha' Hk'. apply in_app_or in Ha'. destruct Ha' as [Ha'|[<-|[]]]; [apply Hmax; assumption|congruence].
    + intros a' Ha'. apply in_app_or in Ha'. destruct Ha' as [Ha'|[<-|[]]]; [apply Inv; exact Ha'|exact Ek].
Qed.

Lemma highest_run : forall l s acc, highest_inv s acc -> supported l ->
  highest_inv (fst (fold_left add_step l (s, acc))) (snd (fold_left add_step l (s, acc))).
Proof.
  induction l as [|a l IH]; intros s acc Inv Hs; cbn [fold_left]; [exact Inv|].
  pose proof (highest_step s acc a Inv (Hs a (or_introl eq_refl))) as Hst.
  destruct (add_step (s, acc) a) as [s1 acc1]. apply IH; [exact Hst|]. intros x Hx. apply Hs. right. exact Hx.
Qed.

Lemma accepted_sub : forall l s acc a, In a (snd (fold_left add_step l (s, acc))) -> In a acc \/ In a l.
Proof.
  induction l as [|x l IH]; intros s acc a H; cbn [fold_left] in H; [left; exact H|].
  assert (E : exists s', add_step (s, acc) x = (s', acc) \/ add_step (s, acc) x = (s', acc ++ [x]))
    by (unfold add_step; destruct (put s x) as [s' []]; eauto).
  destruct E as [s' [E|E]]; rewrite E in H; apply IH in H as [H|H]; auto using in_cons.
  apply in_app_or in H as [H|[<-|[]]]; auto using in_eq.
Qed.

Theorem db_unsupported_refused : forall d a, max_supp (a_typ a) < a_fmt a -> db_add d a = (d, Unsupported).
Proof. intros d a H. unfold db_add. replace (max_supp (a_typ a) <? a_fmt a) with true by lia. reflexivity. Qed.

Theorem db_refused_changes_nothing : forall d a d' r, db_add d a = (d', r) -> r <> Accepted -> d' = d.
Proof.
  intros d a d' r H Hr. unfold db_add in H.
  destruct (max_supp (a_typ a) <? a_fmt a); [inversion H; reflexivity|].
  destruct (in_keys (a_typ a) (a_key a) (d_trusted d) || in_keys (a_typ a) (a_key a) (d_predefined d)); [inversion H; reflexivity|].
  destruct (put (d_bs d) a) as [s' r'] eqn:E. injection H as <- <-.
  destruct (put_spec _ _ _ _ E) as [(_ & -> & _)|(-> & _)]; [destruct d; reflexivity|congruence].
Qed.

Definition members (s : store) (t : N) (prefix : list bytes) (maxf : N) : list asn :=
  currents s t maxf (fun x => key_eqb (prefix_of (a_key x)) prefix).

Theorem sequence_lookup : forall s t prefix after maxf r,
  seq_after s t prefix after maxf = Some r ->
  In r (members s t prefix maxf) /\
  if (after =? -1)%Z then forall x, In x (members s t prefix maxf) -> a_seq x <= a_seq r
  else (after < Z.of_N (a_seq r))%Z /\
       forall x, In x (members s t prefix maxf) -> (after < Z.of_N (a_seq x))%Z -> a_seq r <= a_seq x.
Proof.
  intros s t prefix after maxf r H. unfold seq_after in H. fold (members s t prefix maxf) in H.
  destruct (after =? -1)%Z.
  - apply (pick_best _ (fun x y => a_seq x <= a_seq y)) in H; [exact H|intros; lia..].
  - apply (pick_best _ (fun x y => a_seq y <= a_seq x)) in H as [Hin Hmin]; [|intros; lia..].
    apply filter_In in Hin as [Hin Haf].
    split; [exact Hin|]. split; [lia|]. intros x Hx Hxa. apply Hmin. apply filter_In. split; [exact Hx|lia].
Qed.

Lemma insert_tag_in : forall x l y, In y (insert_tag x l) <-> y = x \/ In y l.
Proof.
  intros x. induction l as [|z r IH]; intro y; cbn [insert_tag]; [cbn; intuition congruence|].
  destruct (x <? z); [cbn; intuition congruence|]. destruct (x =? z) eqn:E.
  - apply N.eqb_eq in E. subst z. cbn. intuition congruence.
  - cbn [In]. rewrite IH. tauto.
Qed.

Lemma tags_of_in : forall l y, In y (tags_of l) <-> exists a, In a l /\ a_tag a = y.
Proof.
  induction l as [|a l IH]; intro y; cbn.
  - split; [contradiction|intros [a [[] _]]].
  - unfold tags_of in *. cbn. rewrite insert_tag_in. rewrite IH. split.
    + intros [->|[b [Hb Ht]]]; [exists a; auto|exists b; auto].
    + intros [b [[<-|Hb] Ht]]; [left; auto|right; exists b; auto].
Qed.

Lemma currents_in : forall s t maxf p c, In c (currents s t maxf p) <->
  exists x, In x s /\ a_typ x = t /\ p x = true /\ cur s t (a_key x) maxf = Some c.
Proof.
  intros s t maxf p c. unfold currents. rewrite in_flat_map. split.
  - intros [x [Hx Hc]]. destruct ((a_typ x =? t) && p x) eqn:E; [|contradiction].
    apply andb_true_iff in E. destruct E as [E1 E2]. apply N.eqb_eq in E1.
    destruct (cur s t (a_key x) maxf) as [c0|] eqn:Ec; [|contradiction]. destruct Hc as [<-|[]]. exists x. auto.
  - intros [x [Hx [Ht [Hp Hc]]]]. exists x. split; [exact Hx|]. rewrite Ht, N.eqb_refl, Hp, Hc. left. reflexivity.
Qed.

Theorem search_sound : forall s t hint m tg, In tg (search s t hint m) ->
  exists c, a_tag c = tg /\ In c s /\ a_typ c = t /\ hint_match hint (a_key c) = true /\ cur s t (a_key c) m = Some c.
Proof.
  intros s t hint m tg H. unfold search in H. apply tags_of_in in H. destruct H as [c [Hc Ht]].
  apply currents_in in Hc. destruct Hc as [x [Hx [Htx [Hp Hcur]]]].
  destruct (cur_key _ _ _ _ _ Hcur) as [Hin [Hty [Hk _]]]. exists c. rewrite Hk. auto.
Qed.

Lemma hint_match_full : forall k k', forallb (fun c => negb (is_nil_b c)) k = true -> hint_match k k' = key_eqb k k'.
Proof.
  induction k as [|h k IH]; intros k' H; destruct k' as [|x k']; cbn in *; try reflexivity.
  apply andb_true_iff in H. destruct H as [H1 H2]. apply negb_true_iff in H1. rewrite H1. cbn. rewrite (IH k' H2). reflexivity.
Qed.

Lemma tags_of_all_same : forall a l, l <> [] -> (forall c, In c l -> c = a) -> tags_of l = [a_tag a].
Proof.
  intros a. induction l as [|c l IH]; intros Hne Hall; [congruence|].
  rewrite (Hall c (or_introl eq_refl)). unfold tags_of. cbn [fold_right]. fold (tags_of l).
  destruct l as [|c2 l2]; [reflexivity|]. rewrite IH; [|discriminate|intros c' Hc'; apply Hall; right; exact Hc'].
  cbn. rewrite N.ltb_irrefl, N.eqb_refl. reflexivity.
Qed.

Theorem search_after_put : forall s a s',
  put s a = (s', Accepted) -> a_fmt a <= max_supp (a_typ a) ->
  forallb (fun c => negb (is_nil_b c)) (a_key a) = true ->
  search s' (a_typ a) (a_key a) (max_supp (a_typ a)) = [a_tag a].
Proof.
  intros s a s' H Hf Hne. destruct (put_accepted _ _ _ H Hf) as [-> [Hcur _]]. unfold search.
  assert (Hin : In a (currents (insert a s) (a_typ a) (max_supp (a_typ a)) (fun x => hint_match (a_key a) (a_key x)))).
  { apply currents_in. exists a. split; [left; reflexivity|]. split; [reflexivity|]. split; [|exact Hcur].
    rewrite (hint_match_full _ _ Hne). apply key_eqb_true_iff. reflexivity. }
  apply tags_of_all_same; [intro E; rewrite E in Hin; contradiction|].
  intros c Hc. apply currents_in in Hc as [x [_ [_ [Hp Hc]]]]. rewrite (hint_match_full _ _ Hne) in Hp.
  apply key_eqb_true_iff in Hp. rewrite <- Hp in Hc. congruence.
Qed.

Lemma beq_under_injective : forall esc : bytes -> bytes, (forall a b, esc a = esc b -> a = b) ->
  forall a b, beq (esc a) (esc b) = beq a b.
Proof.
  intros esc Hinj a b. destruct (beq a b) eqn:E.
  - apply beq_eq in E. subst. apply beq_refl.
  - apply beq_neq. intro H. apply Hinj in H. apply beq_false_iff in E. contradiction.
Qed.

Lemma pat_match_injective : forall esc, (forall a b, esc a = esc b -> a = b) ->
  forall hint k, pat_match esc hint k = hint_match hint k.
Proof.
  intros esc Hinj. induction hint as [|h hint IH]; intros [|x k]; cbn; try reflexivity.
  rewrite IH, (beq_under_injective esc Hinj). reflexivity.
Qed.

Lemma currents_ext : forall s t m p q, (forall x, p x = q x) -> currents s t m p = currents s t m q.
Proof.
  intros s t m p q H. unfold currents. generalize s at 2 4. induction s0 as [|x r IH]; [reflexivity|].
  cbn. rewrite H, IH. reflexivity.
Qed.

Theorem search_esc_injective : forall esc, (forall a b, esc a = esc b -> a = b) ->
  forall s t hint m, search_esc esc s t hint m = search s t hint m.
Proof.
  intros esc Hinj s t hint m. unfold search_esc, search. f_equal. apply currents_ext. intro x. apply pat_match_injective. exact Hinj.
Qed.

(* path cleaning: keys without "." and ".." components keep their path; with them two keys can share one *)
Lemma clean_from : forall k acc, forallb (fun c => negb (is_dot c)) k = true ->
  fold_left (fun acc c => if beq c DOT then acc else if beq c DOTDOT then removelast acc else acc ++ [c]) k acc = acc ++ k.
Proof.
  induction k as [|c k IH]; intros acc H; cbn [fold_left]; [rewrite app_nil_r; reflexivity|].
  cbn in H. apply andb_true_iff in H. destruct H as [H1 H2]. apply negb_true_iff in H1. unfold is_dot in H1.
  apply orb_false_iff in H1. destruct H1 as [Ha Hb]. rewrite Ha, Hb. rewrite (IH _ H2). rewrite <- app_assoc. reflexivity.
Qed.

Theorem clean_dot_free : forall k, forallb (fun c => negb (is_dot c)) k = true -> clean_path k = k.
Proof. intros k H. unfold clean_path. rewrite (clean_from k [] H). reflexivity. Qed.

Lemma unhex_hex : forall d, unhex (hex_digit d) = d.
Proof. intro d. unfold unhex, hex_digit. destruct (d <? 10) eqn:E; [destruct (48 + d <? 58) eqn:E2|destruct (55 + d <? 58) eqn:E2]; lia. Qed.

Lemma unreserved_plain : forall c, unreserved c = true -> (c =? 43) = false /\ (c =? 37) = false /\ (c =? 47) = false.
Proof. intros c H. unfold unreserved, is_alpha, is_lower, is_upper, is_digit in H. lia. Qed.

Theorem unescape_query_escape : forall s, unescape (query_escape s) = s.
Proof.
  induction s as [|c r IH]; [reflexivity|]. cbn [query_escape]. destruct (unreserved c) eqn:U.
  - destruct (unreserved_plain c U) as [H1 [H2 _]]. cbn [unescape]. rewrite H1, H2, IH. reflexivity.
  - destruct (c =? 32) eqn:E.
    + apply N.eqb_eq in E. subst c. cbn [unescape]. rewrite N.eqb_refl, IH. reflexivity.
    + cbn [unescape]. change (37 =? 43) with false. change (37 =? 37) with true. cbn iota. rewrite !unhex_hex, IH.
      f_equal. pose proof (N.div_mod c 16 ltac:(lia)). lia.
Qed.

Theorem unescape_escape_comp : forall s, unescape (escape_comp s) = s.
Proof.
  intro s. unfold escape_comp. pose proof (unescape_query_escape s) as H.
  destruct (beq (query_escape s) [46]) eqn:E1.
  - apply beq_true_iff in E1. rewrite E1 in H. rewrite <- H. reflexivity.
  - destruct (beq (query_escape s) [46; 46]) eqn:E2; [|exact H].
    apply beq_true_iff in E2. rewrite E2 in H. rewrite <- H. reflexivity.
Qed.

Theorem escape_comp_injective : forall a b, escape_comp a = escape_comp b -> a = b.
Proof. intros a b H. rewrite <- (unescape_escape_comp a), <- (unescape_escape_comp b), H. reflexivity. Qed.

Lemma hex_digit_no_slash : forall d, (hex_digit d =? 47) = false.
Proof. intro d. unfold hex_digit. destruct (d <? 10); lia. Qed.

Lemma query_escape_no_slash : forall s, existsb (fun c => c =? 47) (query_escape s) = false.
Proof.
  induction s as [|c r IH]; [reflexivity|]. cbn [query_escape]. destruct (unreserved c) eqn:U.
  - destruct (unreserved_plain c U) as [_ [_ H3]]. cbn [existsb]. rewrite H3, IH. reflexivity.
  - destruct (c =? 32); cbn [existsb]; rewrite ?hex_digit_no_slash, IH; reflexivity.
Qed.

Theorem escape_comp_safe : forall s,
  is_dot (escape_comp s) = false /\ existsb (fun c => c =? 47) (escape_comp s) = false /\ (escape_comp s = [] -> s = []).
Proof.
  intro s. unfold escape_comp. destruct (beq (query_escape s) [46]) eqn:E1; [repeat split; try reflexivity; discriminate|].
  destruct (beq (query_escape s) [46; 46]) eqn:E2; [repeat split; try reflexivity; discriminate|].
  split; [unfold is_dot, DOT, DOTDOT; rewrite E1, E2; reflexivity|]. split; [apply query_escape_no_slash|].
  intro H. rewrite <- (unescape_query_escape s), H. reflexivity.
Qed.

Theorem escaped_path_kept : forall k, clean_path (map escape_comp k) = map escape_comp k.
Proof.
  intro k. apply clean_dot_free. apply forallb_forall. intros x Hx. apply in_map_iff in Hx. destruct Hx as [y [<- _]].
  destruct (escape_comp_safe y) as [H _]. rewrite H. reflexivity.
Qed.

Theorem distinct_keys_distinct_files : forall k1 k2,
  clean_path (map escape_comp k1) = clean_path (map escape_comp k2) -> k1 = k2.
Proof.
  intros k1 k2 H. rewrite !escaped_path_kept in H. revert k2 H.
  induction k1 as [|a k1 IH]; intros [|b k2] H; cbn in H; try discriminate; [reflexivity|].
  inversion H as [[Ha Hk]]. apply escape_comp_injective in Ha. subst. f_equal. apply IH. exact Hk.
Qed.

