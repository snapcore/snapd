(* C15 — refresh holds (models/Holds.v). One iteration of HoldRefresh's loop is characterised by hold_one_spec, the whole
   loop record by record by hold_loop_entry; `inv` (the bounds on every record) holds in every state of every history
   (history_inv), and effective_entry reads the 48 h and 90 d bounds off it. Evaluation is used for the witness histories
   only (refused_many_witness_spec at the end; the others under their theorems in props/C15.v). *)
From Coq Require Import List NArith ZArith Bool Lia ZifyBool.
Import ListNotations.
Require Import V.gen.HoldConsts V.models.Holds V.proofs.ListFacts.
Open Scope Z_scope.

(* the generated constants are the ones of the property *)
Lemma mp_val : mp = ninety_days.
Proof. reflexivity. Qed.
Lemma max_duration_val : max_duration = max_int64.
Proof. reflexivity. Qed.
Lemma max_allowed_val : forall g s, max_allowed g s mp = if (s =? g)%N then ninety_days else forty_eight_h.
Proof. reflexivity. Qed.

Lemma fold_left_inv : forall (A B : Type) (f : A -> B -> A) (P : A -> Prop) (l : list B),
  (forall a x, In x l -> P a -> P (f a x)) -> forall a, P a -> P (fold_left f l a).
Proof.
  intros A B f P l. induction l as [|y r IH]; intros Hf a Ha; cbn [fold_left]; [exact Ha|].
  apply IH.
  - intros a' x Hx. apply Hf. right. exact Hx.
  - apply Hf; [left; reflexivity | exact Ha].
Qed.

Lemma clamp_pos : forall z, 0 < clamp64 z -> 0 < z /\ clamp64 z <= z.
Proof. intros z; unfold clamp64, min_int64, max_int64; lia. Qed.
Lemma clamp_nonpos : forall z, clamp64 z <= 0 <-> z <= 0.
Proof. intros z; unfold clamp64, min_int64, max_int64; lia. Qed.
Lemma clamp_nonzero : forall z, z <> 0 -> clamp64 z <> 0.
Proof. intros z; unfold clamp64, min_int64, max_int64; lia. Qed.

Lemma duration_left_pos : forall now lr first maxdur mpv,
  0 < hold_duration_left now lr first maxdur mpv ->
  now + hold_duration_left now lr first maxdur mpv <= first + maxdur /\
  now + hold_duration_left now lr first maxdur mpv <= lr + mpv.
Proof.
  intros now lr first maxdur mpv. unfold hold_duration_left, time_sub.
  pose proof (clamp_pos (first + maxdur - now)). pose proof (clamp_pos (lr + mpv - now)).
  destruct (_ <? _) eqn:E; lia.
Qed.

Lemma duration_left_nonpos : forall now lr first maxdur mpv,
  first + maxdur <= now \/ lr + mpv <= now -> hold_duration_left now lr first maxdur mpv <= 0.
Proof.
  intros now lr first maxdur mpv H. unfold hold_duration_left, time_sub.
  pose proof (clamp_nonpos (first + maxdur - now)). pose proof (clamp_nonpos (lr + mpv - now)).
  destruct (_ <? _) eqn:E; lia.
Qed.

Definition first_of (now : Z) (gt : gating) (s g : N) : Z :=
  match gt s g with Some h => h_first h | None => now end.

Lemma first_of_some : forall now gt s g h, gt s g = Some h -> first_of now gt s g = h_first h.
Proof. intros now gt s g h H. unfold first_of. rewrite H. reflexivity. Qed.

Lemma gset_same : forall gt s g o, gset gt s g o s g = o.
Proof. intros. unfold gset. rewrite !N.eqb_refl. reflexivity. Qed.
Lemma gset_other : forall gt s g o s' g', (s' <> s \/ g' <> g) -> gset gt s g o s' g' = gt s' g'.
Proof.
  intros. unfold gset. destruct (N.eqb_spec s' s); destruct (N.eqb_spec g' g); try reflexivity. tauto.
Qed.

Lemma gset_cases : forall gt s g o s' g',
  s' = s /\ g' = g /\ gset gt s g o s' g' = o \/ gset gt s g o s' g' = gt s' g'.
Proof.
  intros. unfold gset. destruct (N.eqb_spec s' s); destruct (N.eqb_spec g' g); cbn [andb]; auto.
Qed.

Lemma mem_In : forall x l, mem x l = true <-> In x l.
Proof. exact (existsb_eqb_In N.eqb N.eqb_eq). Qed.
Lemma mem_false : forall x l, mem x l = false <-> ~ In x l.
Proof. intros x l. rewrite <- mem_In. symmetry. apply not_true_iff_false. Qed.

(* gt' has no record that gt has not: all that Proceed, the refresh operations and a refused request do to the table *)
Definition subtable (gt' gt : gating) : Prop := forall s g h, gt' s g = Some h -> gt s g = Some h.

Lemma subtable_refl : forall gt, subtable gt gt.
Proof. intros gt s g h H. exact H. Qed.

Lemma drop_holder_sub : forall gt g snaps, subtable (drop_holder gt g snaps) gt.
Proof. intros gt g snaps s g' h. unfold drop_holder. destruct (_ && _); [discriminate | auto]. Qed.
Lemma proceed_sub : forall gt g snaps, subtable (proceed gt g snaps) gt.
Proof. intros gt g snaps s g' h. unfold proceed. destruct (_ && _); [discriminate | auto]. Qed.
Lemma reset_sub : forall gt x, subtable (reset gt x) gt.
Proof. intros gt x s g' h. unfold reset. destruct (_ && _); [discriminate | auto]. Qed.
Lemma reset_many_sub : forall snaps gt, subtable (fold_left reset snaps gt) gt.
Proof.
  intros snaps gt. apply fold_left_inv with (P := fun gt' => subtable gt' gt); [|apply subtable_refl].
  intros gt' x _ Hsub s g h H. apply Hsub. exact (reset_sub gt' x s g h H).
Qed.

Lemma drop_holder_in : forall gt g snaps s, In s snaps -> drop_holder gt g snaps s g = None.
Proof. intros gt g snaps s H. unfold drop_holder. apply mem_In in H. rewrite N.eqb_refl, H. reflexivity. Qed.
Lemma drop_holder_other : forall gt g snaps s g', (g' <> g \/ ~ In s snaps) -> drop_holder gt g snaps s g' = gt s g'.
Proof.
  intros gt g snaps s g' [H|H]; unfold drop_holder.
  - apply N.eqb_neq in H. rewrite H. reflexivity.
  - apply mem_false in H. rewrite H, andb_false_r. reflexivity.
Qed.

Lemma reset_system : forall gt x s, reset gt x s system = gt s system.
Proof. intros. unfold reset. cbn [N.eqb system negb]. rewrite andb_false_r. reflexivity. Qed.
Lemma reset_many_system : forall snaps gt s, fold_left reset snaps gt s system = gt s system.
Proof.
  intros snaps gt s. apply fold_left_inv with (P := fun gt' => gt' s system = gt s system); [|reflexivity].
  intros gt' x _ <-. apply reset_system.
Qed.

(* dflt = true: the history so far only contains default-duration requests by gating snaps *)
Definition entry_inv (dflt : bool) (lr : N -> Z) (s g : N) (h : hold) : Prop :=
  (g <> system -> h_until h <= lr s + ninety_days) /\
  (dflt = true -> g <> system -> g <> s -> h_until h <= h_first h + forty_eight_h).

Definition gating_inv (dflt : bool) (lr : N -> Z) (gt : gating) : Prop :=
  forall s g h, gt s g = Some h -> entry_inv dflt lr s g h.

Definition inv (dflt : bool) (st : state) : Prop :=
  (forall s, st_lastref st s <= st_now st) /\ gating_inv dflt (st_lastref st) (st_gating st).

Lemma gating_inv_mono : forall dflt lr gt lr' gt',
  gating_inv dflt lr gt -> subtable gt' gt -> (forall s, lr s <= lr' s) -> gating_inv dflt lr' gt'.
Proof.
  intros dflt lr gt lr' gt' Hinv Hsub Hlr s g h H. destruct (Hinv s g h (Hsub s g h H)) as [H90 H48].
  split; [|exact H48]. intros Hg. specialize (H90 Hg). specialize (Hlr s). lia.
Qed.

(* the duration of a system hold: zero stands for the maximum *)
Definition norm_dur (d : Z) : Z := if d =? 0 then max_duration else d.
Lemma norm_idem : forall d, norm_dur (norm_dur d) = norm_dur d.
Proof. intros d. unfold norm_dur. destruct (d =? 0) eqn:E; [reflexivity | rewrite E; reflexivity]. Qed.

Section HoldLoop.
Variables (now : Z) (lr : N -> Z) (level : N).

(* One iteration refuses or writes one entry that keeps its first-held; a gating snap is granted what
   hold_duration_left leaves, which gives the two bounds. *)
Lemma hold_one_spec : forall g a s,
  a_gt (hold_one now lr level g a s) = a_gt a /\ a_err (hold_one now lr level g a s) = true \/
  exists u,
    a_gt (hold_one now lr level g a s) = gset (a_gt a) s g (Some (mkHold (first_of now (a_gt a) s g) u level)) /\
    a_err (hold_one now lr level g a s) = a_err a /\
    (g <> system -> u <= lr s + mp /\ (a_dur a = 0 -> u <= first_of now (a_gt a) s g + max_allowed g s mp)).
Proof.
  intros g a s. unfold hold_one. fold (first_of now (a_gt a) s g).
  destruct (N.eqb_spec g system) as [Hg|Hg].
  - right. eexists. split; [reflexivity|]. split; [reflexivity|]. intros Hn. contradiction.
  - destruct (_ <=? 0) eqn:E0; [left; split; reflexivity|].
    destruct (negb _ && _); [left; split; reflexivity|].
    right. eexists. split; [reflexivity|]. split; [reflexivity|]. intros _.
    assert (Hl : 0 < hold_duration_left now (lr s) (first_of now (a_gt a) s g) (max_allowed g s mp) mp) by lia.
    apply duration_left_pos in Hl. destruct (a_dur a =? 0) eqn:Ed; destruct (_ <? _) eqn:E2; lia.
Qed.

Lemma hold_one_system : forall a s,
  hold_one now lr level system a s =
  mkAcc (gset (a_gt a) s system (Some (mkHold (first_of now (a_gt a) s system) (now + norm_dur (a_dur a)) level)))
        (norm_dur (a_dur a)) (upd_dmin (a_dmin a) (norm_dur (a_dur a))) (a_err a).
Proof. reflexivity. Qed.

Lemma hold_one_dur : forall g a s, g <> system -> a_dur (hold_one now lr level g a s) = a_dur a.
Proof.
  intros g a s Hg. unfold hold_one. apply N.eqb_neq in Hg. rewrite Hg.
  destruct (_ <=? 0); [reflexivity|]. destruct (negb _ && _); reflexivity.
Qed.

Lemma hold_one_at_bound : forall g a s, g <> system ->
  (first_of now (a_gt a) s g + max_allowed g s mp <= now \/ lr s + mp <= now) ->
  a_err (hold_one now lr level g a s) = true.
Proof.
  intros g a s Hg Hb. apply duration_left_nonpos in Hb. unfold hold_one. fold (first_of now (a_gt a) s g).
  apply N.eqb_neq in Hg. rewrite Hg. destruct (_ <=? 0) eqn:E0; [reflexivity | lia].
Qed.

Lemma hold_one_err_sticky : forall g a s, a_err a = true -> a_err (hold_one now lr level g a s) = true.
Proof.
  intros g a s H. destruct (hold_one_spec g a s) as [[_ ->] | (u & _ & -> & _)]; [reflexivity | exact H].
Qed.

Lemma hold_loop_err_sticky : forall g snaps a, a_err a = true -> a_err (hold_loop now lr level g snaps a) = true.
Proof.
  intros g snaps a. apply fold_left_inv with (P := fun a' => a_err a' = true).
  intros a' x _. apply hold_one_err_sticky.
Qed.

(* what a request of g for snaps, started on a, has made of the record of s' by g' in a': left it alone, or written it
   with the first-held it had and an end within the bounds *)
Definition touched (g : N) (snaps : list N) (a a' : hacc) (s' g' : N) : Prop :=
  a_gt a' s' g' = a_gt a s' g' \/
  g' = g /\ In s' snaps /\ exists u,
    a_gt a' s' g' = Some (mkHold (first_of now (a_gt a) s' g') u level) /\
    (g <> system -> u <= lr s' + mp /\ (a_dur a = 0 -> u <= first_of now (a_gt a) s' g' + max_allowed g s' mp)).

Lemma hold_loop_entry : forall g snaps a s' g', touched g snaps a (hold_loop now lr level g snaps a) s' g'.
Proof.
  intros g snaps a s' g'.
  apply proj2 with (A := g <> system -> a_dur (hold_loop now lr level g snaps a) = a_dur a).
  apply fold_left_inv with (P := fun a' => (g <> system -> a_dur a' = a_dur a) /\ touched g snaps a a' s' g');
    [| split; [reflexivity | left; reflexivity]].
  unfold touched. intros a' x Hx [Hd Ht]. split; [intros Hg; rewrite hold_one_dur by exact Hg; exact (Hd Hg)|].
  destruct (hold_one_spec g a' x) as [[-> _] | (u & -> & _ & Hu)]; [exact Ht|].
  destruct (gset_cases (a_gt a') x g (Some (mkHold (first_of now (a_gt a') x g) u level)) s' g') as [(-> & -> & ->) | ->];
    [|exact Ht].
  (* an earlier iteration for the same snap has kept the first-held too *)
  assert (Ef : first_of now (a_gt a') x g = first_of now (a_gt a) x g).
  { unfold first_of at 1. destruct Ht as [-> | (_ & _ & v & -> & _)]; reflexivity. }
  rewrite Ef in Hu |- *. right. split; [reflexivity|]. split; [exact Hx|]. exists u. split; [reflexivity|].
  intros Hg. rewrite <- (Hd Hg). exact (Hu Hg).
Qed.

Lemma hold_loop_other : forall g snaps a s' g',
  (g' <> g \/ ~ In s' snaps) -> a_gt (hold_loop now lr level g snaps a) s' g' = a_gt a s' g'.
Proof.
  intros g snaps a s' g' H. destruct (hold_loop_entry g snaps a s' g') as [E | (Eg & Hin & _)]; [exact E | tauto].
Qed.

Lemma hold_loop_first : forall g snaps a s' g',
  first_of now (a_gt (hold_loop now lr level g snaps a)) s' g' = first_of now (a_gt a) s' g'.
Proof.
  intros g snaps a s' g'. unfold first_of at 1.
  destruct (hold_loop_entry g snaps a s' g') as [-> | (_ & _ & u & -> & _)]; reflexivity.
Qed.

Lemma hold_loop_err_at_bound : forall g snaps a s,
  g <> system -> In s snaps ->
  (first_of now (a_gt a) s g + max_allowed g s mp <= now \/ lr s + mp <= now) ->
  a_err (hold_loop now lr level g snaps a) = true.
Proof.
  intros g snaps a s Hg Hin Hb. apply in_split in Hin. destruct Hin as (l1 & l2 & ->).
  unfold hold_loop. rewrite fold_left_app. cbn [fold_left]. apply hold_loop_err_sticky.
  apply hold_one_at_bound; [exact Hg|]. fold (hold_loop now lr level g l1 a). rewrite hold_loop_first. exact Hb.
Qed.

Lemma sys_loop_err : forall snaps a, a_err (hold_loop now lr level system snaps a) = a_err a.
Proof.
  intros snaps a. apply fold_left_inv with (P := fun a' => a_err a' = a_err a); [|reflexivity].
  intros a' x _ <-. rewrite hold_one_system. reflexivity.
Qed.

Lemma sys_loop_entry : forall snaps a s, In s snaps ->
  exists f, a_gt (hold_loop now lr level system snaps a) s system = Some (mkHold f (now + norm_dur (a_dur a)) level).
Proof.
  induction snaps as [|x r IH]; intros a s Hin; [contradiction|].
  change (hold_loop now lr level system (x :: r) a) with (hold_loop now lr level system r (hold_one now lr level system a x)).
  (* the record of s is written by the last iteration that names s; the duration is normalised by the first iteration *)
  destruct (in_dec N.eq_dec s r) as [Hr|Hr].
  - destruct (IH (hold_one now lr level system a x) s Hr) as [f Hf].
    rewrite hold_one_system in Hf at 2. cbn [a_dur] in Hf. rewrite norm_idem in Hf. exists f. exact Hf.
  - destruct Hin as [->|Hin]; [|contradiction].
    rewrite hold_loop_other by (right; exact Hr). rewrite hold_one_system. cbn [a_gt]. rewrite gset_same.
    eexists. reflexivity.
Qed.
End HoldLoop.

Lemma hold_refresh_sub : forall st level g dur snaps,
  subtable (fst (hold_refresh st level g dur snaps))
      (a_gt (hold_loop (st_now st) (st_lastref st) level g snaps (mkAcc (st_gating st) dur 0 false))).
Proof.
  intros. unfold hold_refresh. destruct (a_err _); cbn [fst]; [apply drop_holder_sub | apply subtable_refl].
Qed.

Lemma hold_refresh_other : forall st level g dur snaps s g',
  (g' <> g \/ ~ In s snaps) -> fst (hold_refresh st level g dur snaps) s g' = st_gating st s g'.
Proof.
  intros st level g dur snaps s g' H. unfold hold_refresh.
  destruct (a_err _); cbn [fst]; [rewrite drop_holder_other by exact H|]; apply hold_loop_other; exact H.
Qed.

Lemma hold_refresh_inv : forall dflt st level g dur snaps,
  gating_inv dflt (st_lastref st) (st_gating st) -> (dflt = true -> g <> system -> dur = 0) ->
  gating_inv dflt (st_lastref st) (fst (hold_refresh st level g dur snaps)).
Proof.
  intros dflt st level g dur snaps Hinv Hd.
  eapply gating_inv_mono; [| apply hold_refresh_sub | intros; apply Z.le_refl]. intros s g' h H.
  destruct (hold_loop_entry (st_now st) (st_lastref st) level g snaps (mkAcc (st_gating st) dur 0 false) s g')
    as [E | (-> & _ & u & E & Hu)]; rewrite E in H; [exact (Hinv _ _ _ H)|].
  injection H as <-. cbn [a_gt a_dur] in Hu. split; cbn [h_first h_until].
  - intros Hg. rewrite <- mp_val. apply Hu, Hg.
  - intros Hdf Hg Hgs. destruct (Hu Hg) as [_ Hb]. specialize (Hb (Hd Hdf Hg)).
    rewrite max_allowed_val in Hb. destruct (N.eqb_spec s g); [congruence | exact Hb].
Qed.

(* first-held is the start of the episode: a request never changes it *)
Lemma hold_refresh_first : forall st level g dur snaps s g' h,
  fst (hold_refresh st level g dur snaps) s g' = Some h -> h_first h = first_of (st_now st) (st_gating st) s g'.
Proof.
  intros st level g dur snaps s g' h H. apply hold_refresh_sub in H.
  apply first_of_some with (now := st_now st) in H. rewrite hold_loop_first in H. symmetry. exact H.
Qed.

Lemma step_gating : forall st o,
  subtable (st_gating (step st o)) (st_gating st) \/
  exists level g dur snaps,
    step st o = mkState (fst (hold_refresh st level g dur snaps)) (st_lastref st) (st_now st) /\
    (default_duration o = true -> g <> system -> dur = 0).
Proof.
  intros st o. destruct o as [| level g dur snaps | level t snaps | | | | | | | | | | |]; cbn [step st_gating];
    try (left; apply subtable_refl).
  - right. exists level, g, dur, snaps. split; [reflexivity|]. cbn [default_duration]. intros H Hg.
    apply N.eqb_neq in Hg. rewrite Hg in H. lia.
  - right. exists level, system, (sys_duration (st_now st) t), snaps. split; [reflexivity|]. intros _ Hg. contradiction.
  - left. apply proceed_sub.
  - left. apply reset_sub.
  - left. apply reset_many_sub.
  - left. apply reset_many_sub.
  - left. apply reset_many_sub.
Qed.

Lemma step_lastref : forall st o, (forall s, st_lastref st s <= st_now st) ->
  forall s, st_lastref st s <= st_lastref (step st o) s <= st_now (step st o).
Proof.
  intros st o Hlr z. specialize (Hlr z).
  destruct o as [| | | | | | | | | | | | x | d]; cbn [step st_now st_lastref]; try lia.
  destruct (z =? x)%N; lia.
Qed.

Lemma step_inv : forall dflt st o, (dflt = true -> default_duration o = true) -> inv dflt st -> inv dflt (step st o).
Proof.
  intros dflt st o Hdd [Hlr Hg]. pose proof (step_lastref st o Hlr) as Hlr'. split; [intros s; apply Hlr'|].
  destruct (step_gating st o) as [Hsub | (level & g & dur & snaps & E & Hdur)].
  - eapply gating_inv_mono; [exact Hg | exact Hsub | intros s; apply Hlr'].
  - rewrite E. cbn [st_gating st_lastref]. apply hold_refresh_inv; [exact Hg|].
    intros Hdf. apply Hdur, Hdd, Hdf.
Qed.

Lemma run_inv : forall dflt ops st,
  (dflt = true -> forallb default_duration ops = true) -> inv dflt st -> inv dflt (run st ops).
Proof.
  intros dflt ops st Hdd. apply fold_left_inv.
  intros st' o Ho. apply step_inv. intros Hdf. exact (proj1 (forallb_forall _ _) (Hdd Hdf) o Ho).
Qed.

Lemma history_inv : forall dflt lr0 now0 ops,
  (forall s, lr0 s <= now0) -> (dflt = true -> forallb default_duration ops = true) ->
  inv dflt (run (init_state lr0 now0) ops).
Proof.
  intros dflt lr0 now0 ops Hlr Hdd. apply run_inv; [exact Hdd|]. split; [exact Hlr|]. intros s g h H. discriminate H.
Qed.

Lemma step_first : forall st o s g h,
  st_gating (step st o) s g = Some h -> h_first h = first_of (st_now st) (st_gating st) s g.
Proof.
  intros st o s g h H. destruct (step_gating st o) as [Hsub | (level & g0 & dur & snaps & E & _)].
  - symmetry. apply first_of_some, Hsub, H.
  - rewrite E in H. exact (hold_refresh_first _ _ _ _ _ _ _ _ H).
Qed.

Definition ep_ok (st : state) (ep : episodes) : Prop :=
  forall s g, ep s g = option_map h_first (st_gating st s g).

Lemma ep_step_ok : forall st o ep, ep_ok st ep -> ep_ok (step st o) (ep_step st (step st o) ep).
Proof.
  intros st o ep Hok s g. unfold ep_step.
  destruct (st_gating (step st o) s g) as [h|] eqn:E; [|reflexivity]. cbn [option_map].
  apply step_first in E. rewrite E. unfold first_of. rewrite (Hok s g).
  destruct (st_gating st s g); reflexivity.
Qed.

Lemma run_ep_spec : forall ops st ep st' ep',
  run_ep st ep ops = (st', ep') -> st' = run st ops /\ (ep_ok st ep -> ep_ok st' ep').
Proof.
  induction ops as [|o r IH]; intros st ep st' ep' H; cbn [run_ep] in H.
  - injection H as <- <-. split; [reflexivity | exact (fun Hok => Hok)].
  - apply IH in H. destruct H as [-> H]. split; [reflexivity|]. intros Hok. apply H, ep_step_ok, Hok.
Qed.

Lemma run_ep_init : forall lr0 now0 ops st ep,
  run_ep (init_state lr0 now0) no_episodes ops = (st, ep) -> st = run (init_state lr0 now0) ops /\ ep_ok st ep.
Proof.
  intros lr0 now0 ops st ep H. apply run_ep_spec in H. destruct H as [-> H].
  split; [reflexivity | apply H; intros s g; reflexivity].
Qed.

Lemma effective_entry : forall dflt st level s g, inv dflt st -> effective st level s g = true ->
  exists h, st_gating st s g = Some h /\ st_now st <= h_until h /\ entry_inv dflt (st_lastref st) s g h.
Proof.
  intros dflt st level s g [_ Hinv] H. unfold effective in H. destruct (st_gating st s g) as [h|] eqn:E; [|discriminate].
  exists h. split; [reflexivity|]. split; [lia | exact (Hinv s g h E)].
Qed.

Theorem other_48h : forall lr0 now0 ops st ep,
  (forall s, lr0 s <= now0) -> forallb default_duration ops = true ->
  run_ep (init_state lr0 now0) no_episodes ops = (st, ep) ->
  forall level s g, g <> system -> g <> s -> effective st level s g = true ->
  exists t0, ep s g = Some t0 /\ st_now st <= t0 + forty_eight_h.
Proof.
  intros lr0 now0 ops st ep Hlr Hdd Hrun level s g Hg Hgs Heff.
  apply run_ep_init in Hrun. destruct Hrun as [-> Hok].
  assert (Hinv : inv true (run (init_state lr0 now0) ops)) by (apply history_inv; [exact Hlr | intros _; exact Hdd]).
  destruct (effective_entry true _ level s g Hinv Heff) as (h & E & Hu & _ & H48).
  exists (h_first h). split; [rewrite (Hok s g), E; reflexivity|]. specialize (H48 eq_refl Hg Hgs). lia.
Qed.

Theorem any_90d : forall lr0 now0 ops,
  (forall s, lr0 s <= now0) ->
  let st := run (init_state lr0 now0) ops in
  forall level s g, g <> system -> effective st level s g = true ->
  st_now st <= st_lastref st s + ninety_days.
Proof.
  intros lr0 now0 ops Hlr st level s g Hg Heff.
  assert (Hinv : inv false st) by (apply history_inv; [exact Hlr | discriminate]).
  destruct (effective_entry false st level s g Hinv Heff) as (h & _ & Hu & H90 & _). specialize (H90 Hg). lia.
Qed.

Theorem not_reported_after_bound : forall lr0 now0 ops st ep,
  (forall s, lr0 s <= now0) -> forallb default_duration ops = true ->
  run_ep (init_state lr0 now0) no_episodes ops = (st, ep) ->
  forall level s g t0, g <> system -> ep s g = Some t0 ->
  (g <> s /\ t0 + forty_eight_h < st_now st) \/ st_lastref st s + ninety_days < st_now st ->
  effective st level s g = false.
Proof.
  intros lr0 now0 ops st ep Hlr Hdd Hrun level s g t0 Hg Hep Hb.
  apply not_true_is_false. intros Heff. destruct Hb as [[Hgs Hb] | Hb].
  - destruct (other_48h _ _ _ _ _ Hlr Hdd Hrun level s g Hg Hgs Heff) as (t1 & H1 & H2).
    rewrite Hep in H1. injection H1 as <-. lia.
  - apply run_ep_init in Hrun. destruct Hrun as [-> _].
    pose proof (any_90d lr0 now0 ops Hlr level s g Hg Heff). lia.
Qed.

Theorem refused_at_bound : forall st level g dur snaps s,
  g <> system -> In s snaps -> at_bound st g s ->
  op_result st (Hold level g dur snaps) = None /\
  forall s', In s' snaps -> st_gating (step st (Hold level g dur snaps)) s' g = None.
Proof.
  intros st level g dur snaps s Hg Hin Hb.
  assert (Herr : a_err (hold_loop (st_now st) (st_lastref st) level g snaps (mkAcc (st_gating st) dur 0 false)) = true).
  { apply (hold_loop_err_at_bound _ _ _ _ _ _ s Hg Hin). cbn [a_gt]. rewrite mp_val, max_allowed_val.
    destruct Hb as [Hb | (h & E & Hb)]; [right; exact Hb | left]. rewrite (first_of_some _ _ _ _ _ E). exact Hb. }
  unfold op_result, step, hold_refresh. rewrite Herr. cbn [fst snd st_gating]. split; [reflexivity|].
  intros s'. apply drop_holder_in.
Qed.

Lemma sys_until_duration : forall now t, now + norm_dur (sys_duration now t) = sys_until now t.
Proof.
  intros now [u|]; unfold sys_until, sys_duration, norm_dur.
  - unfold time_sub. destruct (clamp64 (u - now) =? 0) eqn:E; [reflexivity|]. rewrite E. reflexivity.
  - cbn [Z.eqb]. rewrite max_duration_val. reflexivity.
Qed.

Lemma effective_some : forall st level s g h, st_gating st s g = Some h ->
  effective st level s g =
  (level <=? h_level h)%N && ((g =? system)%N || (st_now st <=? st_lastref st s + max_postponement))
  && (st_now st <=? h_until h).
Proof.
  intros st level s g h E. unfold effective. rewrite E.
  rewrite N.ltb_antisym, !Z.ltb_antisym, negb_andb, !negb_involutive. reflexivity.
Qed.

Lemma effective_system : forall st lvl s h, st_gating st s system = Some h ->
  effective st lvl s system = (lvl <=? h_level h)%N && (st_now st <=? h_until h).
Proof.
  intros st lvl s h E. rewrite (effective_some _ _ _ _ _ E). cbn [N.eqb system orb]. rewrite andb_true_r. reflexivity.
Qed.

Lemma step_sys_untouched : forall st o s, sys_untouched s o = true ->
  st_gating (step st o) s system = st_gating st s system.
Proof.
  intros st o s H. destruct o as [| level g dur snaps | level t snaps | g snaps | | | | | | | | | |];
    cbn [step st_gating]; try reflexivity; cbn [sys_untouched] in H.
  - apply hold_refresh_other. apply orb_prop in H. destruct H as [H|H]; [left; intros <-; discriminate | right].
    apply mem_false, negb_true_iff, H.
  - apply hold_refresh_other. right. apply mem_false, negb_true_iff, H.
  - unfold proceed. apply orb_prop in H. destruct H as [H|H].
    + destruct (N.eqb_spec system g) as [<-|_]; [discriminate | reflexivity].
    + destruct snaps as [|x r]; [discriminate|]. apply negb_true_iff in H. rewrite H, andb_false_r. reflexivity.
  - apply reset_system.
  - apply reset_many_system.
  - apply reset_many_system.
  - apply reset_many_system.
Qed.

Lemma run_sys_untouched : forall ops st s, forallb (sys_untouched s) ops = true ->
  st_gating (run st ops) s system = st_gating st s system.
Proof.
  intros ops st s H. apply fold_left_inv with (P := fun st' => st_gating st' s system = st_gating st s system); [|reflexivity].
  intros st' o Ho <-. apply step_sys_untouched. exact (proj1 (forallb_forall _ _) H o Ho).
Qed.

Theorem system_hold : forall st level t snaps s ops,
  In s snaps -> forallb (sys_untouched s) ops = true ->
  let st2 := run (step st (SysHold level t snaps)) ops in
  forall lvl, effective st2 lvl s system = (lvl <=? level)%N && (st_now st2 <=? sys_until (st_now st) t).
Proof.
  intros st level t snaps s ops Hin Hops st2 lvl.
  destruct (sys_loop_entry (st_now st) (st_lastref st) level snaps
              (mkAcc (st_gating st) (sys_duration (st_now st) t) 0 false) s Hin) as [f Hf].
  cbn [a_dur] in Hf. rewrite sys_until_duration in Hf.
  apply (effective_system st2 lvl s (mkHold f (sys_until (st_now st) t) level)).
  unfold st2. rewrite run_sys_untouched by exact Hops.
  cbn [step st_gating]. unfold hold_refresh. rewrite sys_loop_err. exact Hf.
Qed.

(* within the range of a Go duration the end is the requested time itself, unless it is the current instant *)
Lemma sys_until_exact : forall now u, min_int64 <= u - now <= max_int64 -> u <> now -> sys_until now (Some u) = u.
Proof.
  intros now u H Hne. unfold sys_until, clamp64 in *.
  destruct (Z.max min_int64 (Z.min max_int64 (u - now)) =? 0) eqn:E; lia.
Qed.
Lemma sys_until_now : forall now, sys_until now (Some now) = now - 1.
Proof. intros now. unfold sys_until. replace (now - now) with 0 by lia. reflexivity. Qed.

Theorem system_hold_until_requested_time : forall st level u snaps s ops,
  In s snaps -> min_int64 <= u - st_now st <= max_int64 -> forallb (sys_untouched s) ops = true ->
  let st2 := run (step st (SysHold level (Some u) snaps)) ops in
  u <> st_now st \/ st_now st < st_now st2 ->
  forall lvl, effective st2 lvl s system = (lvl <=? level)%N && (st_now st2 <=? u).
Proof.
  intros st level u snaps s ops Hin Hr Hops st2 Hc lvl.
  unfold st2. rewrite (system_hold st level (Some u) snaps s ops Hin Hops lvl). fold st2.
  destruct (Z.eq_dec u (st_now st)) as [->|Hne].
  - destruct Hc as [Hc|Hc]; [contradiction|]. rewrite sys_until_now. f_equal. lia.
  - rewrite sys_until_exact by assumption. reflexivity.
Qed.

Lemma held_by_any_false : forall st level holders s,
  held_by_any st level holders s = false <-> forall g, In g holders -> effective st level s g = false.
Proof.
  intros st level holders s. unfold held_by_any. rewrite <- not_true_iff_false, existsb_exists. split.
  - intros H g Hg. apply not_true_is_false. intros E. apply H. exists g. split; assumption.
  - intros H (g & Hg & E). rewrite (H g Hg) in E. discriminate.
Qed.

Theorem refresh_targets_spec : forall st level holders cands s,
  In s (refresh_targets st level holders cands) <->
  In s cands /\ forall g, In g holders -> effective st level s g = false.
Proof.
  intros st level holders cands s. unfold refresh_targets.
  rewrite filter_In, negb_true_iff, held_by_any_false. reflexivity.
Qed.

Theorem held_not_refreshed : forall st level holders cands s g h,
  st_gating st s g = Some h -> In g holders -> (level <= h_level h)%N -> st_now st <= h_until h ->
  (g = system \/ st_now st <= st_lastref st s + max_postponement) ->
  ~ In s (refresh_targets st level holders cands).
Proof.
  intros st level holders cands s g h Hg Hin Hl Hu Hp Ht. apply refresh_targets_spec in Ht. destruct Ht as [_ Hall].
  specialize (Hall g Hin). rewrite (effective_some _ _ _ _ _ Hg) in Hall.
  destruct Hp as [->|Hp]; [cbn [N.eqb system orb] in Hall|]; lia.
Qed.

Theorem auto_refresh_excluded_bound : forall lr0 now0 ops holders cands s,
  (forall x, lr0 x <= now0) ->
  let st := run (init_state lr0 now0) ops in
  In s cands -> ~ In s (refresh_targets st 0 holders cands) ->
  effective st 0 s system = true \/ st_now st <= st_lastref st s + ninety_days.
Proof.
  intros lr0 now0 ops holders cands s Hlr st Hc Hn.
  destruct (held_by_any st 0 holders s) eqn:E.
  - apply existsb_exists in E. destruct E as (g & _ & Hg).
    destruct (N.eq_dec g system) as [->|Hne]; [left; exact Hg | right].
    exact (any_90d lr0 now0 ops Hlr 0%N s g Hne Hg).
  - contradiction Hn. apply refresh_targets_spec. split; [exact Hc | apply held_by_any_false; exact E].
Qed.

Lemma allhold_after_untouched : forall ops v,
  (forall o, In o ops -> forall w, o <> SetAllHold w) -> allhold_after v ops = v.
Proof.
  intros ops v H. apply fold_left_inv with (P := fun w => w = v); [|reflexivity].
  intros w o Ho ->. destruct o; try reflexivity. contradiction (H _ Ho _ eq_refl).
Qed.

Lemma run_app : forall l1 l2 st, run st (l1 ++ l2) = run (run st l1) l2.
Proof. intros. unfold run. apply fold_left_app. Qed.

Theorem hrun_expand : forall ops st, hrun st ops = run st (expand_all ops).
Proof.
  unfold hrun, expand_all. induction ops as [|o r IH]; intros st; cbn [fold_left flat_map]; [reflexivity|].
  rewrite run_app, IH. reflexivity.
Qed.

Lemma hook_ops_default : forall g snaps script fails, forallb default_duration (hook_ops g snaps script fails) = true.
Proof.
  intros. unfold hook_ops. rewrite forallb_app. apply andb_true_intro. split.
  - induction script as [|c r IH]; [reflexivity|]. cbn [flat_map]. rewrite forallb_app, IH.
    destruct c; cbn; [rewrite orb_true_r|]; reflexivity.
  - destruct (last_action script) as [[|]|]; destruct fails; cbn; try rewrite orb_true_r; reflexivity.
Qed.

Theorem expand_default : forall ops, forallb default_duration ops = true -> forallb default_duration (expand_all ops) = true.
Proof.
  unfold expand_all. induction ops as [|o r IH]; intros H; [reflexivity|].
  cbn [forallb] in H. apply andb_prop in H. destruct H as [H1 H2].
  cbn [flat_map]. rewrite forallb_app, (IH H2), andb_true_r.
  destruct o; try (cbn [expand forallb]; rewrite H1; reflexivity). apply hook_ops_default.
Qed.

Definition h_ns : Z := 3600000000000.

(* the statement `a refused refresh request leaves every hold record alone` is false of the faithful model for requests
   naming several snaps: snap 1 holds snap 2 for the default time; one hour later a request to refresh snaps 1 and 2 is
   refused because snap 1 has running apps, after snap 2 had been prepared; the record of the hold is gone, snap 1 holds
   again, and 48 h after the first hold snap 2 is still reported as held *)
Definition refused_many_witness : list op :=
  [Hold 0 1 0 [2%N]; Tick (Z.to_N h_ns); RefreshRefused [1%N; 2%N] [2%N]; Hold 0 1 0 [2%N]; Tick (Z.to_N (47 * h_ns + 1))].
Lemma refused_many_witness_spec :
  forallb default_duration refused_many_witness = true /\
  st_gating (run (init_state (fun _ => - h_ns) 0) (firstn 3 refused_many_witness)) 2%N 1%N = None /\
  let st := run (init_state (fun _ => - h_ns) 0) refused_many_witness in
  effective st 0 2 1 = true /\ 0 + forty_eight_h < st_now st.
Proof. vm_compute. repeat split; reflexivity. Qed.

(* the code as it is lets a hook start a new episode by itself: --hold refused at the bound (records deleted), then a
   second --hold in the same run; or --hold refused, --proceed, exit non-zero (the fallback holds). *)
Definition rehold_script_witness : list op :=
  [Hook 1 [2%N] [CmdHold] false; Tick (Z.to_N (48 * h_ns)); Hook 1 [2%N] [CmdHold; CmdHold] false; Tick (Z.to_N h_ns)].
Definition rehold_fallback_witness : list op :=
  [Hook 1 [2%N] [CmdHold] false; Tick (Z.to_N (48 * h_ns)); Hook 1 [2%N] [CmdHold; CmdProceed] true; Tick (Z.to_N h_ns)].

(* explicit durations are not bounded by 48 h per episode: hold for the default, ask again for 47 h after 47 h *)
Definition explicit_witness : list op :=
  [Hold 0 1 0 [2%N]; Tick (Z.to_N (47 * h_ns)); Hold 0 1 (47 * h_ns) [2%N]; Tick (Z.to_N (2 * h_ns))].

(* non-vacuity: a default-duration history in which another snap's hold is reported, then refused at the bound *)
Definition default_witness : list op := [Hold 0 1 0 [1%N; 2%N]; Tick (Z.to_N (47 * h_ns))].
