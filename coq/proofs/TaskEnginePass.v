(* Proofs about models/TaskEngine.v (C01): a whole Ensure pass is monotone, so a pass that contains a firing
   iteration changes the state. Progress measure: every task's position along
   Do < Doing < Abort < Undo < Undoing < {Done, Hold, Undone, Error, Wait}  plus the number of tombs. *)
From Coq Require Import List Bool Arith Lia.
Import ListNotations.
Require Import V.models.TaskEngine V.proofs.TaskEngineProofs V.proofs.TaskEngineLive.

Definition rank (x : status) : nat :=
  match x with Do => 0 | Doing => 1 | Abort => 2 | Undo => 3 | Undoing => 4 | _ => 5 end.

Definition rsum (l : list task) : nat := list_sum (map (fun tk => rank (t_st tk)) l).
Definition pm (s : state) : nat := rsum (tasks s) + length (running s).

Lemma rsum_upd_st : forall l t nw, t < length l ->
  rsum (upd l t (fun tk => set_st tk nw)) + rank (t_st (nth t l dummy)) = rsum l + rank nw.
Proof.
  unfold rsum. induction l as [|a l IH]; intros t nw H; simpl in H; [lia|].
  destruct t; simpl.
  - lia.
  - specialize (IH t nw). assert (t < length l) by lia. specialize (IH H0). lia.
Qed.

Lemma rsum_upd_irrel : forall l t f, (forall tk, t_st (f tk) = t_st tk) -> rsum (upd l t f) = rsum l.
Proof.
  unfold rsum. induction l as [|a l IH]; intros [|t] f H; simpl; auto; rewrite ?H, ?(IH t f H); reflexivity.
Qed.

Lemma pm_set_status_ge : forall s t nw, rank (st s t) <= rank nw -> pm s <= pm (set_status s t nw).
Proof.
  intros s t nw H. unfold pm. rewrite running_set_status.
  destruct (tasks_set_status_cases s t nw) as [E|E]; rewrite E; [lia|]. unfold put; cbn [tasks with_tasks].
  destruct (Nat.lt_ge_cases t (length (tasks s))) as [L|L].
  - pose proof (rsum_upd_st (tasks s) t nw L) as R. unfold st, get in H. lia.
  - rewrite upd_out by assumption. lia.
Qed.

Lemma tasks_set_status_eff : forall s t nw,
  panicked s = false -> st s t <> nw -> (nw = Done -> st s t <> Abort) -> tasks (set_status s t nw) = tasks (put s t nw).
Proof.
  intros s t nw Hp Hn Hd. unfold set_status. rewrite Hp.
  assert (E : seqb nw Done && seqb (st s t) Abort = false).
  { destruct (seqb nw Done) eqn:E1; [|reflexivity]. apply seqb_eq in E1. apply seqb_neq in Hd; [|assumption].
    rewrite Hd. reflexivity. }
  rewrite E, tasks_change_st. apply seqb_neq in Hn. rewrite Hn. reflexivity.
Qed.

Lemma pm_set_status_gt : forall s t nw,
  panicked s = false -> t < length (tasks s) -> rank (st s t) < rank nw -> (nw = Done -> st s t <> Abort) ->
  pm s < pm (set_status s t nw).
Proof.
  intros s t nw Hp L H Hd. unfold pm. rewrite running_set_status.
  assert (Hn : st s t <> nw) by (intros E; rewrite E in H; lia).
  rewrite (tasks_set_status_eff s t nw Hp Hn Hd). unfold put; cbn [tasks with_tasks].
  pose proof (rsum_upd_st (tasks s) t nw L) as R. unfold st, get in H. lia.
Qed.

Lemma pm_run : forall s t, pm s < pm (run s t).
Proof.
  intros s t. rewrite run_eq.
  assert (G : pm s <= pm (run_write s t)).
  { unfold run_write. destruct (st s t) eqn:E; try lia; apply pm_set_status_ge; rewrite E; simpl; lia. }
  unfold pm in *. cbn [launch tasks running with_slog with_running with_tasks length].
  rewrite rsum_upd_irrel by reflexivity. lia.
Qed.

(* every move of an Ensure pass raises the measure (the Undo -> Done of a task without undo handler is suppressed, and
   the state unchanged, after a panic) *)
Lemma pm_move : forall order s s', move s (Ensure order) s' -> s' = s \/ pm s < pm s'.
Proof.
  intros order s s' M. remember (Ensure order) as e eqn:Ee. destruct M; try discriminate Ee.
  - right. assert (L : t < length (tasks s)) by (apply in_range_st; rewrite H1; discriminate).
    unfold try_undo. des_if; apply pm_set_status_gt; auto; rewrite H1; simpl; try lia; discriminate.
  - destruct (panicked s) eqn:Ep; [left; unfold set_status; rewrite Ep; reflexivity | right].
    assert (L : t < length (tasks s)) by (apply in_range_st; rewrite H0; discriminate).
    apply pm_set_status_gt; auto; rewrite H0; [simpl; lia | discriminate].
  - right. apply pm_run.
Qed.

Lemma pm_ensure_one : forall s t,
  pm s <= pm (ensure_one s t) /\ (ensure_one s t = s \/ pm s < pm (ensure_one s t)).
Proof.
  intros s t. assert (H : ensure_one s t = s \/ pm s < pm (ensure_one s t)).
  { apply (ensure_one_ind (fun x => x = s \/ pm s < pm x) []); [|left; reflexivity].
    intros x x' M [->|G]; [exact (pm_move _ _ _ M) | right]. destruct (pm_move _ _ _ M) as [->|G']; lia. }
  split; [destruct H as [->|H]; lia | exact H].
Qed.

Lemma pm_ensure_pass : forall order s, pm s <= pm (ensure_pass s order).
Proof.
  unfold ensure_pass. induction order; simpl; intros s; [lia|].
  destruct (pm_ensure_one s a) as [G _]. specialize (IHorder (ensure_one s a)). lia.
Qed.

Lemma fires_changes : forall s t, fires s t -> ~ In t (running s) -> ensure_one s t <> s.
Proof. intros s t [F|F] Hn E; rewrite E in F; [congruence | contradiction]. Qed.

(* a pass that visits a task for which the loop body fires raises the measure: later iterations cannot undo the
   status write or the handler start of an earlier one *)
Theorem pass_progress : forall order s t,
  fires s t -> ~ In t (running s) -> In t order -> pm s < pm (ensure_pass s order).
Proof.
  induction order as [|a r IH]; intros s t F Hn Hin; [destruct Hin|].
  change (ensure_pass s (a :: r)) with (ensure_pass (ensure_one s a) r).
  destruct (pm_ensure_one s a) as [G [E|G2]].
  - rewrite E. destruct Hin as [->|Hin]; [exfalso; eapply fires_changes; eauto|]. eapply IH; eauto.
  - pose proof (pm_ensure_pass r (ensure_one s a)). lia.
Qed.

(* C01 no-deadlock for a whole pass: in the situation of no_deadlock_total, a pass over any order that contains every task
   of the change changes the state (it strictly raises the progress measure) unless every task is ready *)
Theorem no_deadlock_pass : forall (g : list tdesc) (rk : nat -> nat) (es : list event) (order : list nat),
  g <> [] -> closed g -> (forall t w, In w (waits_g g t) -> rk w < rk t) ->
  tame (init_state g) es ->
  let s := run_events (init_state g) es in
  running s = [] -> (forall t, st s t <> Wait) -> (forall t, gate_open s t = true) ->
  (forall t, t < length (tasks s) -> In t order) ->
  all_ready (tasks s) = true \/ (pm s < pm (ensure_pass s order) /\ ensure_pass s order <> s).
Proof.
  intros g rk es order Hg Hc Hrk Ht s Hr Hnw Hgate Hall.
  destruct (no_deadlock_total g rk es Hg Hc Hrk Ht Hr Hnw Hgate) as [A|(t & L & F)]; [left; assumption | right].
  fold s in L, F.
  assert (P : pm s < pm (ensure_pass s order)).
  { apply pass_progress with t; auto. rewrite Hr. intros []. }
  split; [assumption|]. intros E. rewrite E in P. lia.
Qed.
