(* Proofs about models/TaskEngine.v (C03): over every history in which user aborts hit unready changes only the engine
   never panics, the ready flag equals `every task is ready`, and running handlers belong to unready tasks. This is the
   invariant [inv] that the other invariants of the engine lean on. *)
From Coq Require Import List ZArith Bool Lia.
Import ListNotations.
Require Import V.models.TaskEngine V.proofs.TaskEngineProofs V.proofs.TaskEngineStatus.

Definition unr (x : status) : bool := match x with Doing | Undoing | Abort => true | _ => false end.

Lemma unr_unready : forall x, unr x = true -> ready x = false.
Proof. destruct x; simpl; intros; congruence. Qed.

Definition stl (l : list task) (t : nat) : status := t_st (nth t l dummy).

Lemma all_ready_split : forall l t, t < length l -> all_ready l = ready (stl l t) && others_ready l t.
Proof.
  induction l as [|a l IH]; intros t H; simpl in H; [lia|].
  destruct t; unfold stl; simpl.
  - reflexivity.
  - rewrite (IH t) by lia. unfold stl. rewrite !andb_assoc. f_equal. apply andb_comm.
Qed.

Lemma others_ready_upd : forall l t f, others_ready (upd l t f) t = others_ready l t.
Proof. induction l as [|a l IH]; intros [|t] f; simpl; auto. rewrite IH; reflexivity. Qed.

Lemma stl_upd_same : forall l t nw, t < length l -> stl (upd l t (fun tk => set_st tk nw)) t = nw.
Proof. intros; unfold stl; rewrite nth_upd_same by assumption; reflexivity. Qed.

Lemma all_ready_upd : forall l t nw, t < length l ->
  all_ready (upd l t (fun tk => set_st tk nw)) = ready nw && others_ready l t.
Proof.
  intros. rewrite (all_ready_split _ t) by (rewrite upd_length; assumption).
  rewrite stl_upd_same by assumption. rewrite others_ready_upd. reflexivity.
Qed.

Lemma others_ready_false : forall l t t0, t0 <> t -> t0 < length l -> ready (stl l t0) = false -> others_ready l t = false.
Proof.
  induction l as [|a l IH]; intros t t0 Hn Hlt Hr; simpl in Hlt; [lia|].
  destruct t, t0; unfold stl in *; simpl in *; try congruence.
  - apply not_true_is_false; intros F. rewrite forallb_forall in F.
    assert (In (nth t0 l dummy) l) by (apply nth_In; lia).
    rewrite (F _ H) in Hr; discriminate.
  - rewrite Hr; reflexivity.
  - rewrite (IH t t0); [apply andb_false_r | congruence | lia | assumption].
Qed.

Lemma all_ready_false : forall l t0, t0 < length l -> ready (stl l t0) = false -> all_ready l = false.
Proof. intros. rewrite (all_ready_split l t0) by assumption. rewrite H0; reflexivity. Qed.

Lemma stl_out : forall l t, length l <= t -> stl l t = Hold.
Proof. intros; unfold stl; rewrite nth_overflow by assumption; reflexivity. Qed.

Lemma all_ready_map : forall l, all_ready l = forallb ready (map t_st l).
Proof. induction l; simpl; auto. rewrite IHl; reflexivity. Qed.

Lemma stl_map : forall l t, stl l t = nth t (map t_st l) Hold.
Proof. intros; unfold stl. change Hold with (t_st dummy). rewrite map_nth. reflexivity. Qed.

Record inv (s : state) : Prop := mkInv {
  i_np : panicked s = false;
  i_rd : cready s = all_ready (tasks s);
  i_run : forall t, In t (running s) -> unr (st s t) = true
}.

Lemma unr_range : forall s t, unr (st s t) = true -> t < length (tasks s).
Proof. intros s t H. apply in_range_st. intros E. rewrite E in H. discriminate. Qed.

Lemma cready_unready : forall s t, inv s -> ready (st s t) = false -> cready s = false.
Proof.
  intros s t I H. rewrite (i_rd s I). apply all_ready_false with t; [|exact H].
  apply in_range_st. intros E. rewrite E in H. discriminate.
Qed.

(* one write on a task that is not running, from an unready status, to any status: detectChangeReady sees a change
   that is not flagged ready, so its internal check cannot fire, and it flags the change exactly when the write made
   the last task ready *)
Lemma inv_change_st : forall s t nw,
  inv s -> ready (st s t) = false -> ~ In t (running s) -> inv (change_st s t nw).
Proof.
  intros s t nw I Hsrc Hnr. pose proof (cready_unready s t I Hsrc) as Cf. destruct I as [Hp Hc Hr].
  assert (Hlt : t < length (tasks s)) by (apply in_range_st; intros E; rewrite E in Hsrc; discriminate).
  unfold change_st. destruct (seqb (st s t) nw); [constructor; assumption|]. fold (put s t nw).
  assert (A1 : all_ready (tasks (put s t nw)) = ready nw && others_ready (tasks s) t) by (apply all_ready_upd; assumption).
  assert (R1 : forall u, In u (running s) -> unr (st (put s t nw) u) = true).
  { intros u Hu. rewrite st_put_other; [auto | intros ->; contradiction]. }
  rewrite Hsrc. unfold put in *. cbn [tasks cready with_tasks] in *. rewrite others_ready_upd, Cf. cbn [andb].
  destruct (ready nw); cbn [Bool.eqb]; [destruct (others_ready (tasks s) t) eqn:Eo|];
    constructor; auto; cbn [cready with_cready tasks with_tasks]; rewrite A1, ?Eo, ?Cf; reflexivity.
Qed.

Lemma inv_set_status : forall s t nw,
  inv s -> ready (st s t) = false -> ~ In t (running s) -> inv (set_status s t nw).
Proof. intros s t nw I Hsrc Hnr. unfold set_status. repeat des_if; auto using inv_change_st. Qed.

Lemma inv_try_undo : forall s t, inv s -> st s t = Abort -> ~ In t (running s) -> inv (try_undo s t).
Proof. intros s t H Hs Hn. unfold try_undo. des_if; apply inv_set_status; auto; rewrite Hs; reflexivity. Qed.

Lemma inv_irrel : forall s t f, (forall tk, t_st (f tk) = t_st tk) -> inv s -> inv (with_tasks s (upd (tasks s) t f)).
Proof.
  intros s t f Hf [Hp Hc Hr].
  constructor; cbn [panicked cready running tasks with_tasks]; auto.
  - rewrite Hc, !all_ready_map, (map_upd_proj _ t_st) by assumption. reflexivity.
  - intros u Hu. rewrite st_irrel by assumption. auto.
Qed.

Lemma inv_reap : forall s t, inv s -> inv (remove_running s t) /\ ~ In t (running (remove_running s t)).
Proof.
  intros s t [Hp Hc Hr]. unfold remove_running, with_running; cbn [running]. split.
  - constructor; auto. intros u Hu. apply filter_In in Hu. apply Hr. tauto.
  - intros F. apply filter_In in F. destruct F as [_ F]. rewrite Nat.eqb_refl in F. discriminate.
Qed.

Lemma inv_run : forall s t, inv s -> ~ In t (running s) -> pending (st s t) = true -> inv (run s t).
Proof.
  intros s t I Hn Hp. rewrite run_eq.
  assert (H1 : inv (run_write s t) /\ unr (st (run_write s t) t) = true).
  { assert (L : t < length (tasks s)) by (apply in_range_st; intros E; rewrite E in Hp; discriminate).
    unfold run_write. destruct (st s t) eqn:Es; try discriminate Hp; try (split; [assumption | rewrite Es; reflexivity]);
      (split; [apply inv_set_status; auto; rewrite Es; reflexivity|]);
      rewrite st_set_status_same; auto using i_np; discriminate. }
  destruct H1 as [I1 U1]. rewrite <- running_run_write with (t := t) in Hn.
  destruct (inv_irrel _ t (fun tk => set_at tk 0) (fun _ => eq_refl) I1) as [Hp2 Hc2 Hr2].
  constructor; auto. intros u [<-|Hu]; [rewrite st_launch; exact U1 | apply Hr2; exact Hu].
Qed.

(* an abort (Abort / AbortLanes, repaired code):
   the quiet rewrite leaves the flags alone and keeps unready-running statuses unready-running; readiness is then
   evaluated once on the final statuses *)
Definition qrel (s s' : state) : Prop :=
  panicked s' = panicked s /\ cready s' = cready s /\ running s' = running s /\
  length (tasks s') = length (tasks s) /\ (forall u, unr (st s u) = true -> unr (st s' u) = true).

Lemma qrel_refl : forall s, qrel s s.
Proof. intros; repeat split; auto. Qed.

Lemma unr_abort_write : forall s t u, unr (st s u) = true -> unr (st (abort_write s t) u) = true.
Proof.
  intros s t u Hu. rewrite abort_write_eq. unfold eff_status. fold (st s t).
  destruct (abort_to _) as [nw|] eqn:E; [|assumption].
  destruct (st_put s t nw u) as [A|[-> A]]; rewrite A; [assumption|].
  destruct (st s t); try discriminate Hu; inversion E; reflexivity.
Qed.

Lemma qrel_abort_write : forall s s' t, qrel s s' -> qrel s (abort_write s' t).
Proof.
  intros s s' t (A & B & C & D & E).
  assert (F : panicked (abort_write s' t) = panicked s' /\ cready (abort_write s' t) = cready s' /\
              running (abort_write s' t) = running s' /\ length (tasks (abort_write s' t)) = length (tasks s')).
  { rewrite abort_write_eq. destruct (abort_to _); repeat split; auto. apply upd_length. }
  destruct F as (A' & B' & C' & D'). unfold qrel. rewrite A', B', C', D'. repeat split; auto.
  intros u Hu. apply unr_abort_write; auto.
Qed.

Lemma qrel_oof : forall s s', qrel s s' -> qrel s (with_oof s' true).
Proof. intros s s' (A & B & C & D & E). repeat split; auto. Qed.

Lemma qrel_abort_lanes : forall d kill al seen s, qrel s (abort_lanes d kill al seen s).
Proof. intros. apply (abort_lanes_P (qrel s)); auto using qrel_abort_write, qrel_oof, qrel_refl. Qed.

Lemma qrel_abort_tasks : forall d wl al seen s, qrel s (abort_tasks d wl al seen s).
Proof. intros. apply (abort_tasks_P (qrel s)); auto using qrel_abort_write, qrel_oof, qrel_refl. Qed.

Lemma running_ready_detect : forall s, running (ready_detect s) = running s.
Proof. intros; unfold ready_detect, with_cready, with_panicked; repeat des_if; reflexivity. Qed.

Lemma inv_detect : forall s s', inv s -> cready s = false -> qrel s s' -> inv (ready_detect s').
Proof.
  intros s s' [Hp Hc Hr] Hf (A & B & C & D & E).
  assert (R' : forall t, In t (running s') -> unr (st s' t) = true) by (intros t Ht; rewrite C in Ht; auto).
  unfold ready_detect. rewrite B, Hf.
  destruct (all_ready (tasks s')) eqn:Ea.
  - constructor; cbn [panicked cready running tasks with_cready]; auto. rewrite A; assumption.
  - constructor; auto; [rewrite A; assumption | rewrite B, Hf, Ea; reflexivity].
Qed.

Lemma inv_abort_lanes_top : forall s t lanes, inv s -> unr (st s t) = true ->
  inv (abort_lanes_top s lanes) /\ unr (st (abort_lanes_top s lanes) t) = true /\
  running (abort_lanes_top s lanes) = running s /\ length (tasks (abort_lanes_top s lanes)) = length (tasks s).
Proof.
  intros s t lanes I Ut. pose proof (qrel_abort_lanes (depth_fuel s) lanes [] [] s) as Q. unfold abort_lanes_top.
  split; [exact (inv_detect s _ I (cready_unready s t I (unr_unready _ Ut)) Q)|].
  destruct Q as (_ & _ & C & D & E). rewrite st_ready_detect, running_ready_detect, tasks_ready_detect. auto.
Qed.

(* user aborts are issued on changes that are not (yet) reported ready, as daemon.abortChange and Prune do *)
Fixpoint guarded (s : state) (es : list event) : Prop :=
  match es with
  | [] => True
  | e :: r => (e = UAbort -> cready s = false) /\ guarded (step s e) r
  end.

Lemma inv_move : forall s e s', move s e s' -> (e = UAbort -> cready s = false) -> inv s -> inv s'.
Proof.
  intros s e s' M Hg I. destruct M.
  - apply inv_try_undo; assumption.
  - apply inv_set_status; auto. rewrite H0; reflexivity.
  - apply inv_run; assumption.
  - destruct (inv_reap s t I). apply inv_set_status; auto.
    change (st (remove_running s t) t) with (st s t). destruct (st s t); try discriminate H1; reflexivity.
  - apply inv_reap; assumption.
  - destruct (inv_reap s t I). apply inv_try_undo; assumption.
  - apply (inv_irrel (remove_running s t)); [reflexivity | apply inv_reap; assumption].
  - destruct (inv_reap s t I) as [I0 N0]. rewrite set_to_wait_eq by (auto using i_np).
    apply inv_change_st; [apply inv_irrel; auto | | exact N0].
    rewrite st_irrel by reflexivity. apply unr_unready. exact (i_run s I t H0).
  - destruct (inv_reap s t I) as [I0 N0].
    destruct (inv_abort_lanes_top _ t (lanes_of (get s t)) I0 (i_run s I t H0)) as (I1 & U1 & R1 & _).
    apply inv_set_status; [exact I1 | apply unr_unready; exact U1 | rewrite R1; exact N0].
  - unfold abort_change. eapply inv_detect; eauto using qrel_abort_tasks.
  - destruct I as [Hp Hc Hr]. constructor; auto.
  - apply inv_set_status; auto; [rewrite H0; reflexivity|].
    intros F. pose proof (i_run s I t F) as U. rewrite H0 in U. discriminate.
Qed.

Lemma inv_step : forall s e, (e = UAbort -> cready s = false) -> inv s -> inv (step s e).
Proof.
  intros s e He. destruct e; try (apply (step_ind inv); intros x x' M; apply (inv_move _ _ _ M); discriminate).
  intros I. cbn [step]. destruct (panicked s) eqn:Hp; [assumption|].
  exact (inv_move s UAbort _ (M_abort s Hp) He I).
Qed.

(* what every move keeps under the invariant, every event keeps: the moves of an Ensure pass keep inv, and every other
   event is a single move *)
Lemma step_ind_inv : forall (P : state -> Prop) e, (forall s s', move s e s' -> inv s -> P s -> P s') ->
  forall s, inv s -> P s -> P (step s e).
Proof.
  intros P e H s I Hs. pose proof (step_move s e) as M.
  destruct e; try (destruct M as [E|M]; [rewrite E; assumption | eauto]).
  apply (step_ind (fun x => inv x /\ P x)); [|auto]. intros x x' Mx [Ix Px].
  split; eauto. apply (inv_move _ _ _ Mx); [discriminate | exact Ix].
Qed.

Lemma guarded_ind : forall (P : state -> Prop),
  (forall s e, (e = UAbort -> cready s = false) -> inv s -> P s -> P (step s e)) ->
  forall es s, guarded s es -> inv s -> P s -> P (run_events s es) /\ inv (run_events s es).
Proof.
  intros P H. unfold run_events. induction es; simpl; intros s Hg I Hs; [auto|].
  destruct Hg as [Hg1 Hg2]. apply IHes; auto using inv_step.
Qed.

Lemma guarded_moves_ind : forall (P : state -> Prop), (forall s e s', move s e s' -> inv s -> P s -> P s') ->
  forall es s, guarded s es -> inv s -> P s -> P (run_events s es).
Proof.
  intros P H es s Hg I Hs. apply (guarded_ind P); auto.
  intros x e _ Ix Px. apply (step_ind_inv P e (fun a b => H a e b)); assumption.
Qed.

Lemma inv_run_events : forall es s, guarded s es -> inv s -> inv (run_events s es).
Proof. intros es s Hg I. apply (guarded_ind (fun _ => True)); auto. Qed.

Definition no_uabort (e : event) : Prop := match e with UAbort => False | _ => True end.

Lemma guarded_no_uabort : forall es s, Forall no_uabort es -> guarded s es.
Proof.
  induction es; simpl; intros s H; [exact I|]. inversion H; subst. split; [|auto].
  intros ->. contradiction.
Qed.

Lemma guarded_app : forall es es' s, guarded s es -> guarded (run_events s es) es' -> guarded s (es ++ es').
Proof.
  unfold run_events. induction es; simpl; intros es' s H H'; [assumption|].
  destruct H as [H1 H2]. split; auto.
Qed.

Lemma all_ready_init : forall g, g <> [] -> all_ready (init_tasks g) = false.
Proof.
  intros g Hg. unfold init_tasks. destruct g as [|a g']; [congruence|].
  simpl length. rewrite <- cons_seq. simpl map. destruct a as [[ln ws] u]. reflexivity.
Qed.

Lemma inv_init : forall g, g <> [] -> inv (init_state g).
Proof.
  intros g Hg. constructor; simpl; auto.
  symmetry; apply all_ready_init; assumption.
Qed.

(* C03: in every history in which user aborts are issued on unready changes only, the engine never panics
   (detectChangeReady's internal check and the one of deferReadyDetection are unreachable), the change is flagged
   ready exactly when every task is ready, and only unready tasks have a running handler *)
Theorem ready_consistent : forall (g : list tdesc) (es : list event),
  g <> [] -> guarded (init_state g) es ->
  let s := run_events (init_state g) es in
  panicked s = false /\ cready s = all_ready (tasks s) /\ (forall t, In t (running s) -> ready (st s t) = false).
Proof.
  intros g es Hg Hf. destruct (inv_run_events es (init_state g) Hf (inv_init g Hg)) as [A B C].
  cbv zeta. repeat split; auto. intros t Ht. apply unr_unready. auto.
Qed.

(* a user abort of an unready change, at any point of any such history: no panic, and afterwards the change is
   flagged ready exactly when every task is ready (in particular it is never flagged ready while a task is unready) *)
Theorem abort_unready_safe : forall (g : list tdesc) (es : list event),
  g <> [] -> guarded (init_state g) es ->
  let s := run_events (init_state g) es in
  cready s = false ->
  panicked (step s UAbort) = false /\ cready (step s UAbort) = all_ready (tasks (step s UAbort)).
Proof.
  intros g es Hg Hf s Hc.
  pose proof (inv_run_events es (init_state g) Hf (inv_init g Hg)) as H. fold s in H.
  pose proof (inv_step s UAbort (fun _ => Hc) H) as K. destruct K as [A B C]. split; assumption.
Qed.

(* C03: once the change is flagged ready it stays ready, whatever guarded events follow *)
Theorem ready_is_final : forall (g : list tdesc) (es es' : list event),
  g <> [] -> guarded (init_state g) es ->
  let s := run_events (init_state g) es in
  guarded s es' -> cready s = true ->
  let s' := run_events s es' in
  cready s' = true /\ all_ready (tasks s') = true /\ ready (change_status (tasks s')) = true /\ panicked s' = false.
Proof.
  intros g es es' Hg Hf s Hf' Hc s'.
  assert (E : s' = run_events (init_state g) (es ++ es')) by (unfold s', s, run_events; rewrite fold_left_app; reflexivity).
  assert (Hall : guarded (init_state g) (es ++ es')) by (apply guarded_app; assumption).
  destruct (ready_consistent g (es ++ es') Hg Hall) as (A & B & _). rewrite <- E in A, B.
  assert (C : cready s' = true) by (apply cready_run_events; exact Hc).
  assert (D : all_ready (tasks s') = true) by (rewrite <- B; exact C).
  repeat split; auto.
  destruct (tasks s') as [|a l'] eqn:Et; [reflexivity|].
  rewrite change_status_ready; [exact D | discriminate].
Qed.
