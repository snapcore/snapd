(* Proofs about models/SnapSeq.v — histories: a step that completes, is refused, or is a failed install / refresh / revert
   preserves `wf` (`step_wf`, `history_wf`, for C11); the discard-snap tasks of a change do not depend on where the snap
   file comes from (`gc_independent_of_source`, C12). *)
From Coq Require Import List NArith ZArith Bool.
Import ListNotations.
Require Import V.models.SnapSeq V.proofs.SnapSeqProofs V.proofs.SnapSeqProofs3 V.proofs.SnapSeqDone.
Open Scope N_scope.

(* one operation of a history: the operation, the failure position (0 = completes), the retain value, the in-use answer *)
Record hstep := mkH { h_op : op; h_k : nat; h_retain : Z; h_inuse : N -> bool }.

Definition hrun (h : hstep) (s : st) : st := step (h_op h) (h_k h) (h_retain h) (h_inuse h) s.

(* what the theorem asks of a step taken from state s: retain >= 2 (configcore accepts 2..20); and a FAILED operation is an
   install / refresh / revert outside the config-from-nothing class (cfg_guard) and, unless a refresh, fails before any
   discard-snap (failures inside remove / remove-revision / enable / disable are not covered) *)
Definition covered (h : hstep) (s : st) : Prop :=
  (2 <= h_retain h)%Z /\
  (h_k h = O \/
   (c10_op (h_op h) /\ cfg_guard (h_op h) s /\
    (okind (h_op h) = ORefresh \/
     forallb (fun t => negb (is_discard t)) (firstn (pred (h_k h)) (tasks_for (h_op h) s (h_retain h) (h_inuse h))) = true))).

(* of `covered` only retain >= 2 and `failed implies install / refresh / revert` are used: the guard and the position of
   the failure do not matter to the invariant *)
Theorem step_wf : forall h s, wf s -> covered h s -> wf (hrun h s).
Proof.
  intros [o k retain inuse] s W (R & F). unfold hrun. simpl in *.
  destruct k as [|j]; [apply completed_wf; assumption|].
  destruct F as [F|(OP & _)]; [discriminate|].
  destruct (accepts o s) eqn:AC; [|rewrite refused_unchanged; auto].
  unfold step. rewrite AC. destruct OP as [K|[K|K]]; rewrite K; apply failed_c10_keeps_wf; unfold c10_op; auto.
Qed.

Fixpoint hplay (hs : list hstep) (s : st) : st :=
  match hs with [] => s | h :: r => hplay r (hrun h s) end.

Fixpoint all_covered (hs : list hstep) (s : st) : Prop :=
  match hs with [] => True | h :: r => covered h s /\ all_covered r (hrun h s) end.

Theorem history_wf : forall hs s, wf s -> all_covered hs s -> wf (hplay hs s).
Proof.
  induction hs as [|h r IH]; intros s W C; [exact W|]. destruct C as [C1 C2]. simpl. apply IH; auto. apply step_wf; auto.
Qed.

(* the same operation with source b (store download vs local file) *)
Definition with_source (b : bool) (o : op) : op :=
  mkOp (okind o) (orev o) (odefault o) (ochan o) (odev o) (ojail o) (oclassic o) (otry o) (oignore o) (ocohort o)
       (onotblocked o) (ohookcfg o) (onow o) b.

Theorem gc_independent_of_source : forall o s retain inuse b,
  filter is_discard (tasks_for (with_source b o) s retain inuse) = filter is_discard (tasks_for o s retain inuse).
Proof.
  intros o s retain inuse b. unfold tasks_for. change (okind (with_source b o)) with (okind o).
  assert (I : filter is_discard (install_tasks (with_source b o) s retain inuse)
              = filter is_discard (install_tasks o s retain inuse)).
  { rewrite <- (filter_discard_ess (install_tasks (with_source b o) s retain inuse)).
    rewrite <- (filter_discard_ess (install_tasks o s retain inuse)).
    rewrite !install_tasks_ess. reflexivity. }
  destruct (okind o) eqn:K; try exact I; try reflexivity;
    unfold remove_tasks; change (okind (with_source b o)) with (okind o); rewrite K; reflexivity.
Qed.
