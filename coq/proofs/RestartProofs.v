(* C04 — proofs about models/Restart.v. A rank on statuses ([rk]) that no step lowers gives "nothing finished is started
   again" over every event list ([frozen]); two Ensure passes run side by side, one after a restart, give "same outcome"
   up to [eqv]; the bounded table against the fixed policy is evaluated in one walk per graph and configuration (Section Stop);
   the store models with stale or failing writes are reduced to [run_events]. *)
From Coq Require Import List NArith Bool Lia ZifyN.
Import ListNotations.
Require Import V.models.Restart V.proofs.ListFacts.
Open Scope N_scope.

(* how far a task has got: Do 0, Doing 1, Done/Abort/Undo 2, Undoing 4, Undone/Hold/Error 5 *)
Definition rk (s : N) : N :=
  let n := norm s in
  if n =? 2 then 0 else if n =? 3 then 1 else if (n =? 4) || (n =? 5) || (n =? 6) then 2 else if n =? 7 then 4 else 5.

Definition fnd (ts : list task) (id : N) := find (fun t => t_id t =? id) ts.

Lemma status_of_fnd : forall ts i, status_of ts i = match fnd ts i with Some t => norm (t_status t) | None => 0 end.
Proof. reflexivity. Qed.

Lemma norm_norm : forall s, norm (norm s) = norm s.
Proof. intros s. unfold norm. destruct (s =? 0) eqn:E; [reflexivity | rewrite E; reflexivity]. Qed.
Lemma rk_norm : forall s, rk (norm s) = rk s.
Proof. intros s. unfold rk. rewrite norm_norm. reflexivity. Qed.

Lemma rk_le5 : forall x, rk x <= 5.
Proof.
  intros x. unfold rk. destruct (norm x =? 2); [lia|]. destruct (norm x =? 3); [lia|].
  destruct ((norm x =? 4) || (norm x =? 5) || (norm x =? 6)); [lia|]. destruct (norm x =? 7); lia.
Qed.

Lemma fnd_map : forall (f : task -> task) ts i, (forall t, t_id (f t) = t_id t) ->
  fnd (map f ts) i = option_map f (fnd ts i).
Proof.
  intros f ts i Hf. unfold fnd. induction ts as [|a ts IH]; simpl; [reflexivity|].
  rewrite Hf. destruct (t_id a =? i); [reflexivity | assumption].
Qed.

Definition mono (ts ts' : list task) : Prop :=
  (forall i, rk (status_of ts i) <= rk (status_of ts' i)) /\ map t_id ts' = map t_id ts /\ map t_waits ts' = map t_waits ts.

Lemma mono_refl : forall ts, mono ts ts.
Proof. intros ts. repeat split; intros; lia. Qed.
Lemma mono_trans : forall a b c, mono a b -> mono b c -> mono a c.
Proof.
  intros a b c (A1 & A2 & A3) (B1 & B2 & B3). repeat split; try congruence.
  intros i. specialize (A1 i). specialize (B1 i). lia.
Qed.

Lemma set_status_shape : forall id v ts, map t_id (set_status id v ts) = map t_id ts /\ map t_waits (set_status id v ts) = map t_waits ts.
Proof.
  intros id v ts. unfold set_status. rewrite !map_map. split; apply map_ext; intros t; destruct (t_id t =? id); reflexivity.
Qed.

Lemma status_of_set : forall id v ts i,
  status_of (set_status id v ts) i =
  if i =? id then match fnd ts i with Some _ => norm v | None => 0 end else status_of ts i.
Proof.
  intros id v ts i. rewrite !status_of_fnd. unfold set_status.
  rewrite fnd_map by (intros t; destruct (t_id t =? id); reflexivity).
  destruct (fnd ts i) as [t|] eqn:F; simpl.
  - unfold fnd in F. apply find_some in F. destruct F as [_ F]. apply N.eqb_eq in F. rewrite F.
    destruct (i =? id); reflexivity.
  - destruct (i =? id); reflexivity.
Qed.

Lemma mono_set : forall id v ts, rk (status_of ts id) <= rk v -> mono ts (set_status id v ts).
Proof.
  intros id v ts H. split; [|apply set_status_shape]. intros i. rewrite status_of_set.
  destruct (i =? id) eqn:E; [|lia]. apply N.eqb_eq in E. subst i.
  rewrite status_of_fnd in *. destruct (fnd ts id); [rewrite (rk_norm v); assumption | lia].
Qed.

Lemma rk_abort1 : forall s, rk s <= rk (abort1 s).
Proof.
  intros s. unfold abort1. destruct (norm s =? 2) eqn:E2; [unfold rk at 1; rewrite E2; vm_compute; discriminate|].
  destruct (norm s =? 3) eqn:E3; [unfold rk at 1; rewrite E2, E3; vm_compute; discriminate|].
  destruct (norm s =? 4) eqn:E4; [unfold rk at 1; rewrite E2, E3, E4; vm_compute; discriminate | lia].
Qed.

Lemma mono_map : forall (f : task -> task) ts,
  (forall t, t_id (f t) = t_id t /\ t_waits (f t) = t_waits t /\ rk (t_status t) <= rk (t_status (f t))) -> mono ts (map f ts).
Proof.
  intros f ts H. repeat split.
  - intros i. rewrite !status_of_fnd, fnd_map by (intros t; apply H). destruct (fnd ts i) as [t|]; simpl; [rewrite !rk_norm; apply H | lia].
  - rewrite map_map. apply map_ext. intros t. apply H.
  - rewrite map_map. apply map_ext. intros t. apply H.
Qed.

Lemma mono_abort : forall ts, mono ts (abort_all ts).
Proof. intros ts. apply mono_map. intros t. simpl. repeat split. apply rk_abort1. Qed.

Lemma set_status_twice : forall id v v' ts, set_status id v (set_status id v' ts) = set_status id v ts.
Proof.
  intros id v v' ts. unfold set_status. rewrite map_map. apply map_ext. intros t.
  destruct (t_id t =? id) eqn:E; simpl; rewrite ?E; reflexivity.
Qed.

Lemma consider_spec : forall c id s,
  (tasks (consider c id s) = tasks s \/
   exists v, tasks (consider c id s) = set_status id v (tasks s) /\ rk (status_of (tasks s) id) <= rk v) /\
  (log (consider c id s) = log s \/
   (log (consider c id s) = log s ++ [(id, false)] /\ rk (status_of (tasks s) id) <= 1) \/
   (log (consider c id s) = log s ++ [(id, true)] /\ rk (status_of (tasks s) id) <= 4)).
Proof.
  intros c id s. unfold consider. destruct (find (fun t => t_id t =? id) (tasks s)) as [t0|] eqn:F0.
  2:{ split; left; reflexivity. }
  assert (S0 : status_of (tasks s) id = norm (t_status t0)) by (unfold status_of; rewrite F0; reflexivity).
  destruct ((norm (t_status t0) =? 5) && mem id (running s)) eqn:EA. { split; left; reflexivity. }
  set (ts1 := if norm (t_status t0) =? 5 then set_status id (if mem id (no_undo c) then 1 else 6) (tasks s) else tasks s).
  assert (C1 : ts1 = tasks s \/ exists v, ts1 = set_status id v (tasks s) /\ rk (status_of (tasks s) id) <= rk v).
  { subst ts1. destruct (norm (t_status t0) =? 5) eqn:E5; [right | left; reflexivity]. eexists. split; [reflexivity|].
    apply N.eqb_eq in E5. rewrite S0, E5. destruct (mem id (no_undo c)); vm_compute; discriminate. }
  assert (M1 : rk (status_of (tasks s) id) <= rk (status_of ts1 id)).
  { destruct C1 as [->|(v & -> & R)]; [lia | apply (mono_set id v (tasks s) R)]. }
  (* a second change of the same task overwrites the first *)
  assert (C2 : forall v, rk (status_of ts1 id) <= rk v ->
            exists v', set_status id v ts1 = set_status id v' (tasks s) /\ rk (status_of (tasks s) id) <= rk v').
  { intros v R. exists v. split; [destruct C1 as [->|(v' & -> & _)]; [reflexivity | apply set_status_twice] | lia]. }
  assert (S1 : status_of ts1 id = if norm (t_status t0) =? 5 then (if mem id (no_undo c) then 1 else 6) else norm (t_status t0)).
  { subst ts1. destruct (norm (t_status t0) =? 5) eqn:E5; [|assumption]. rewrite status_of_set, N.eqb_refl.
    unfold fnd. rewrite F0. destruct (mem id (no_undo c)); reflexivity. }
  destruct (mem id (running s)). { split; [exact C1 | left; reflexivity]. }
  destruct (ready (status_of ts1 id)) eqn:ER. { split; [exact C1 | left; reflexivity]. }
  destruct (find (fun t => t_id t =? id) ts1) as [t1|] eqn:F1. 2:{ split; left; reflexivity. }
  destruct (must_wait ts1 t1). { split; [exact C1 | left; reflexivity]. }
  destruct ((status_of ts1 id =? 6) && mem id (no_undo c)) eqn:E6.
  { split; [right; apply C2 | left; reflexivity].
    apply andb_true_iff in E6. destruct E6 as [E6 _]. apply N.eqb_eq in E6. rewrite E6. vm_compute. discriminate. }
  destruct ((status_of ts1 id =? 2) || (status_of ts1 id =? 3)) eqn:E23.
  { assert (R : rk (status_of ts1 id) <= 1).
    { apply orb_true_iff in E23. destruct E23 as [E|E]; apply N.eqb_eq in E; rewrite E; vm_compute; discriminate. }
    split; [right; apply C2; exact R|].
    right. left. split; [reflexivity|]. rewrite S0. rewrite S1 in E23, R.
    destruct (norm (t_status t0) =? 5); [destruct (mem id (no_undo c)); discriminate | assumption]. }
  destruct ((status_of ts1 id =? 6) || (status_of ts1 id =? 7)) eqn:E67.
  { assert (R : rk (status_of ts1 id) <= 4).
    { apply orb_true_iff in E67. destruct E67 as [E|E]; apply N.eqb_eq in E; rewrite E; vm_compute; discriminate. }
    split; [right; apply C2; exact R|]. right. right. split; [reflexivity | lia]. }
  split; [exact C1 | left; reflexivity].
Qed.

Lemma consider_mono : forall c id s, mono (tasks s) (tasks (consider c id s)).
Proof.
  intros c id s. destruct (proj1 (consider_spec c id s)) as [->|(v & -> & R)]; [apply mono_refl | apply mono_set, R].
Qed.

Lemma consider_other : forall c id s x, x <> id -> status_of (tasks (consider c id s)) x = status_of (tasks s) x.
Proof.
  intros c id s x Hx. destruct (proj1 (consider_spec c id s)) as [->|(v & -> & _)]; [reflexivity|].
  rewrite status_of_set. apply N.eqb_neq in Hx. rewrite Hx. reflexivity.
Qed.

Lemma count_app : forall id u a b, count id u (a ++ b) = count id u a + count id u b.
Proof. intros. unfold count. rewrite filter_app, app_length. lia. Qed.
Lemma count_one : forall id u id' u', count id u [(id', u')] = if (id' =? id) && Bool.eqb u' u then 1 else 0.
Proof. intros. unfold count. simpl. destruct ((id' =? id) && Bool.eqb u' u); reflexivity. Qed.

(* the invariants carried through every step: for a task whose do phase is over (rank >= 2) the number of do starts
   stays; for a task whose undo phase is over or can no longer happen (rank 5) the number of undo starts stays *)
Definition frozen (id : N) (s s' : st) : Prop :=
  mono (tasks s) (tasks s') /\
  (2 <= rk (status_of (tasks s) id) -> count id false (log s') = count id false (log s)) /\
  (5 <= rk (status_of (tasks s) id) -> count id true (log s') = count id true (log s)).

Lemma frozen_refl : forall id s, frozen id s s.
Proof. intros. repeat split; intros; try lia; reflexivity. Qed.

Lemma frozen_trans : forall id a b c, frozen id a b -> frozen id b c -> frozen id a c.
Proof.
  intros id a b c (A1 & A2 & A3) (B1 & B2 & B3). split; [eapply mono_trans; eassumption|].
  destruct A1 as [A1 _]. specialize (A1 id). split; intros H; [rewrite B2, A2 | rewrite B3, A3]; lia.
Qed.

Lemma consider_frozen : forall c id' id s, frozen id s (consider c id' s).
Proof.
  intros c id' id s. split; [apply consider_mono|]. destruct (proj2 (consider_spec c id' s)) as [L|[[L R]|[L R]]].
  all: rewrite L; split; intros H; try reflexivity; rewrite count_app, count_one;
    destruct (id' =? id) eqn:E; simpl; try lia; apply N.eqb_eq in E; subst id'; lia.
Qed.

Lemma ensure_frozen : forall c id s, frozen id s (ensure c s).
Proof.
  intros c id s. unfold ensure. generalize (tasks s) at 1. intros l. revert s.
  induction l as [|t l IH]; intros s; simpl; [apply frozen_refl|].
  eapply frozen_trans; [apply consider_frozen | apply IH].
Qed.

Lemma frozen_same_log : forall id s ts' r, mono (tasks s) ts' -> frozen id s (mkSt ts' r (log s)).
Proof. intros id s ts' r M. repeat split; try apply M; intros; reflexivity. Qed.

Lemma finish_frozen : forall c id' id s, frozen id s (finish c id' s).
Proof.
  intros c id' id s. unfold finish. destruct (negb (mem id' (running s))); [apply frozen_refl|].
  destruct ((status_of (tasks s) id' =? 3) || (status_of (tasks s) id' =? 5)) eqn:E35.
  - destruct (mem id' (fail_do c)).
    + apply frozen_same_log. eapply mono_trans; [apply mono_abort|]. apply mono_set.
      change (rk 9) with 5. apply rk_le5.
    + apply frozen_same_log. apply mono_set. apply orb_true_iff in E35. destruct E35 as [E|E]; apply N.eqb_eq in E; rewrite E.
      * rewrite N.eqb_refl. vm_compute. discriminate.
      * simpl. vm_compute. discriminate.
  - destruct (status_of (tasks s) id' =? 7) eqn:E7.
    + apply frozen_same_log. apply mono_set. apply N.eqb_eq in E7. rewrite E7. vm_compute. discriminate.
    + apply frozen_same_log. apply mono_refl.
Qed.

Lemma restart_frozen : forall id s, frozen id s (restart s).
Proof. intros. apply frozen_same_log, mono_refl. Qed.

Lemma stop_frozen : forall c id s, frozen id s (stop c s).
Proof.
  intros c id s. apply frozen_same_log, mono_map. intros t. unfold stop_task.
  destruct (mem (t_id t) (running s) && (norm (t_status t) =? 5)) eqn:E; simpl; repeat split; try lia.
  apply andb_true_iff in E as [_ E]. apply N.eqb_eq in E. rewrite <- (rk_norm (t_status t)), E.
  destruct (mem (t_id t) (no_undo c)); vm_compute; discriminate.
Qed.

Lemma step_frozen : forall c id s e, frozen id s (step c s e).
Proof. intros c id s []; simpl; [apply ensure_frozen | apply finish_frozen | apply restart_frozen | apply stop_frozen]. Qed.

Lemma run_frozen : forall c id evs s, frozen id s (run_events c s evs).
Proof.
  intros c id evs. induction evs as [|e evs IH]; intros s; simpl; [apply frozen_refl|].
  eapply frozen_trans; [apply step_frozen | apply IH].
Qed.

(* two runner states are equivalent when they have the same tasks and the same SET of running handlers; the log (the
   observer's record of starts) is deliberately not compared: after a restart handlers are started again *)
Definition eqv (s s' : st) : Prop := tasks s = tasks s' /\ forall id, mem id (running s) = mem id (running s').

(* [consider] as a function of the task list and of whether the task is running *)
Definition ts1_of (c : cfg) (id : N) (ts : list task) (t0 : task) : list task :=
  if norm (t_status t0) =? 5 then set_status id (if mem id (no_undo c) then 1 else 6) ts else ts.
Definition ctasks (c : cfg) (id : N) (ts : list task) (isr : bool) : list task :=
  match fnd ts id with
  | None => ts
  | Some t0 =>
      if (norm (t_status t0) =? 5) && isr then ts else
      let ts1 := ts1_of c id ts t0 in
      if isr then ts1 else
      let st1 := status_of ts1 id in
      if ready st1 then ts1 else
      match fnd ts1 id with
      | None => ts
      | Some t1 =>
          if must_wait ts1 t1 then ts1
          else if (st1 =? 6) && mem id (no_undo c) then set_status id 4 ts1
          else if (st1 =? 2) || (st1 =? 3) then set_status id 3 ts1
          else if (st1 =? 6) || (st1 =? 7) then set_status id 7 ts1
          else ts1
      end
  end.
Definition cstart (c : cfg) (id : N) (ts : list task) (isr : bool) : bool :=
  match fnd ts id with
  | None => false
  | Some t0 =>
      if (norm (t_status t0) =? 5) && isr then false else
      let ts1 := ts1_of c id ts t0 in
      if isr then false else
      let st1 := status_of ts1 id in
      if ready st1 then false else
      match fnd ts1 id with
      | None => false
      | Some t1 =>
          if must_wait ts1 t1 then false
          else if (st1 =? 6) && mem id (no_undo c) then false
          else if (st1 =? 2) || (st1 =? 3) then true
          else if (st1 =? 6) || (st1 =? 7) then true
          else false
      end
  end.

Lemma consider_decomp : forall c id s,
  tasks (consider c id s) = ctasks c id (tasks s) (mem id (running s)) /\
  running (consider c id s) = if cstart c id (tasks s) (mem id (running s)) then running s ++ [id] else running s.
Proof.
  intros c id s. unfold consider, ctasks, cstart, ts1_of, fnd.
  destruct (find (fun t => t_id t =? id) (tasks s)) as [t0|]; [|split; reflexivity].
  destruct ((norm (t_status t0) =? 5) && mem id (running s)); [split; reflexivity|].
  destruct (mem id (running s)); [split; reflexivity|].
  match goal with |- context [ready ?x] => destruct (ready x) end; [split; reflexivity|].
  match goal with |- context [find ?f ?l] => destruct (find f l) as [t1|] end; [|split; reflexivity].
  match goal with |- context [must_wait ?a ?b] => destruct (must_wait a b) end; [split; reflexivity|].
  match goal with |- context [(?x =? 6) && ?y] => destruct ((x =? 6) && y) end; [split; reflexivity|].
  match goal with |- context [(?x =? 2) || (?x =? 3)] => destruct ((x =? 2) || (x =? 3)) end; [split; reflexivity|].
  match goal with |- context [(?x =? 6) || (?x =? 7)] => destruct ((x =? 6) || (x =? 7)) end; split; reflexivity.
Qed.

Lemma mem_in : forall x l, mem x l = true <-> In x l.
Proof. exact (existsb_eqb_In N.eqb N.eqb_eq). Qed.

Lemma mem_snoc : forall x l y, mem x (l ++ [y]) = mem x l || (x =? y).
Proof. intros. unfold mem. rewrite existsb_app. simpl. rewrite orb_false_r. reflexivity. Qed.

Lemma mem_filter_ne : forall x id l, mem x (filter (fun y => negb (y =? id)) l) = mem x l && negb (x =? id).
Proof.
  intros x id l. unfold mem. induction l as [|y l IH]; simpl; [reflexivity|].
  destruct (y =? id) eqn:E; simpl.
  - rewrite IH. apply N.eqb_eq in E. subst y. destruct (x =? id) eqn:E2; simpl; [rewrite andb_false_r; reflexivity | reflexivity].
  - rewrite IH. destruct (x =? y) eqn:E2; simpl; [|reflexivity]. apply N.eqb_eq in E2. subst y. rewrite E. reflexivity.
Qed.

Lemma consider_eqv : forall c id s s', eqv s s' -> eqv (consider c id s) (consider c id s').
Proof.
  intros c id s s' [E1 E2]. destruct (consider_decomp c id s) as [A1 A2]. destruct (consider_decomp c id s') as [B1 B2].
  split.
  - rewrite A1, B1, E1, E2. reflexivity.
  - intros x. rewrite A2, B2, E1, E2. destruct (cstart c id (tasks s') (mem id (running s'))); [rewrite !mem_snoc, E2; reflexivity | apply E2].
Qed.

Lemma fold_consider_eqv : forall c (l : list task) s s', eqv s s' ->
  eqv (fold_left (fun acc t => consider c (t_id t) acc) l s) (fold_left (fun acc t => consider c (t_id t) acc) l s').
Proof. intros c l. induction l as [|t l IH]; intros s s' E; simpl; [assumption | apply IH, consider_eqv, E]. Qed.

Lemma ensure_eqv : forall c s s', eqv s s' -> eqv (ensure c s) (ensure c s').
Proof. intros c s s' E. unfold ensure. destruct E as [E1 E2]. rewrite E1. apply fold_consider_eqv. split; assumption. Qed.

Lemma finish_eqv : forall c id s s', eqv s s' -> eqv (finish c id s) (finish c id s').
Proof.
  intros c id s s' [E1 E2]. unfold finish. rewrite E2, E1. destruct (negb (mem id (running s'))); [split; assumption|].
  assert (F : forall x, mem x (filter (fun y => negb (y =? id)) (running s)) = mem x (filter (fun y => negb (y =? id)) (running s')))
    by (intros x; rewrite !mem_filter_ne, E2; reflexivity).
  destruct ((status_of (tasks s') id =? 3) || (status_of (tasks s') id =? 5)).
  - destruct (mem id (fail_do c)); split; simpl; try reflexivity; assumption.
  - destruct (status_of (tasks s') id =? 7); split; simpl; try reflexivity; assumption.
Qed.

Lemma stop_eqv : forall c s s', eqv s s' -> eqv (stop c s) (stop c s').
Proof.
  intros c s s' [E1 E2]. unfold stop. split; simpl; [|reflexivity]. rewrite E1. apply map_ext. intros t.
  unfold stop_task. rewrite E2. reflexivity.
Qed.

Lemma eqv_restart : forall a b lg lg', tasks a = tasks b -> eqv (reload (tasks a) lg) (reload (tasks b) lg').
Proof. intros a b lg lg' H. unfold reload. split; simpl; [assumption | reflexivity]. Qed.

Lemma step_eqv : forall c e s s', eqv s s' -> eqv (step c s e) (step c s' e).
Proof.
  intros c [|id| |] s s' E; simpl; [apply ensure_eqv | apply finish_eqv | apply eqv_restart, E | apply stop_eqv]; assumption.
Qed.

Lemma run_eqv : forall c evs s s', eqv s s' -> eqv (run_events c s evs) (run_events c s' evs).
Proof. intros c evs. induction evs as [|e evs IH]; intros s s' E; simpl; [assumption | apply IH, step_eqv, E]. Qed.

Lemma fnd_in : forall ts t, NoDup (map t_id ts) -> In t ts -> fnd ts (t_id t) = Some t.
Proof.
  intros ts t Hn Ht. unfold fnd. destruct (find (fun a => t_id a =? t_id t) ts) as [a|] eqn:F.
  - apply find_some in F as [Ha E]. apply N.eqb_eq in E. f_equal. exact (NoDup_map_inj t_id ts a t Hn Ha Ht E).
  - apply (find_none _ _ F) in Ht. rewrite N.eqb_refl in Ht. discriminate.
Qed.

Lemma set_status_same : forall id v ts, NoDup (map t_id ts) -> (forall t, fnd ts id = Some t -> t_status t = v) -> set_status id v ts = ts.
Proof.
  intros id v ts Hn H. unfold set_status. rewrite <- (map_id ts) at 2. apply map_ext_in. intros t Ht.
  destruct (t_id t =? id) eqn:E; [|reflexivity]. apply N.eqb_eq in E. subst id.
  rewrite <- (H t (fnd_in ts t Hn Ht)). destruct t; reflexivity.
Qed.

Lemma norm_eq_37 : forall x, norm x = 3 \/ norm x = 7 -> norm x = x.
Proof. intros x H. unfold norm in *. destruct (x =? 0); [destruct H; discriminate | reflexivity]. Qed.

Lemma ctasks_running_37 : forall c id ts, (status_of ts id = 3 \/ status_of ts id = 7) ->
  ctasks c id ts true = ts /\ cstart c id ts true = false.
Proof.
  intros c id ts H. unfold ctasks, cstart, ts1_of. rewrite status_of_fnd in H.
  destruct (fnd ts id) as [t0|]; [|split; reflexivity].
  assert (N5 : (norm (t_status t0) =? 5) = false) by (destruct H as [H|H]; rewrite H; reflexivity).
  rewrite N5. simpl. split; reflexivity.
Qed.

Lemma ctasks_idle_37 : forall c id ts, NoDup (map t_id ts) -> (status_of ts id = 3 \/ status_of ts id = 7) ->
  ctasks c id ts false = ts /\ cstart c id ts false = true.
Proof.
  intros c id ts Hn H. unfold ctasks, cstart, ts1_of. pose proof H as H'. rewrite status_of_fnd in H'.
  destruct (fnd ts id) as [t0|] eqn:F; [|destruct H'; discriminate].
  assert (N5 : (norm (t_status t0) =? 5) = false) by (destruct H' as [X|X]; rewrite X; reflexivity).
  rewrite N5. simpl. rewrite F.
  assert (MW : must_wait ts t0 = false) by (unfold must_wait; destruct H' as [X|X]; rewrite X; reflexivity).
  assert (S : status_of ts id = norm (t_status t0)) by (rewrite status_of_fnd, F; reflexivity).
  rewrite MW. destruct H as [H|H]; rewrite H; simpl.
  all: split; [|reflexivity]; apply set_status_same; [assumption|]; intros t Ft; rewrite F in Ft; inversion Ft; subst.
  all: rewrite <- (norm_eq_37 (t_status t)); [rewrite <- S; assumption | assumption].
Qed.

Lemma status_of_task : forall ts x, status_of ts x <> 0 -> In x (map t_id ts).
Proof.
  intros ts x H. unfold status_of in H. destruct (find (fun t => t_id t =? x) ts) as [t0|] eqn:F; [|congruence].
  apply find_some in F as [Fin Fe]. apply N.eqb_eq in Fe. rewrite <- Fe. apply in_map, Fin.
Qed.

(* the invariant of the two Ensure passes run side by side: [a] continues the state with its running handlers R0, [a']
   the restarted one; [pre] are the ids already considered *)
Lemma ensure_after_restart : forall c R0 (l : list task) pre a a',
  NoDup (pre ++ map t_id l) ->
  tasks a = tasks a' -> map t_id (tasks a) = pre ++ map t_id l ->
  (forall x, mem x (running a) = mem x (running a') || (mem x R0 && negb (mem x pre))) ->
  (forall x, mem x (running a') = true -> mem x pre = true) ->
  (forall x, mem x R0 = true -> mem x pre = false -> status_of (tasks a) x = 3 \/ status_of (tasks a) x = 7) ->
  eqv (fold_left (fun acc t => consider c (t_id t) acc) l a) (fold_left (fun acc t => consider c (t_id t) acc) l a').
Proof.
  intros c R0 l. induction l as [|t l IH]; intros pre a a' Hn E1 Hids Hrun Hpre H37; simpl.
  - split; [assumption|]. intros x. rewrite Hrun. destruct (mem x R0) eqn:Z1, (mem x pre) eqn:Z2; simpl; rewrite ?orb_false_r; try reflexivity.
    (* a handler of R0 that was never considered would not be a task of the state *)
    exfalso. assert (H : In x (map t_id (tasks a))) by (apply status_of_task; destruct (H37 x Z1 Z2) as [H|H]; rewrite H; discriminate).
    rewrite Hids, app_nil_r in H. apply mem_in in H. congruence.
  - set (id := t_id t).
    assert (Hnot : mem id pre = false).
    { destruct (mem id pre) eqn:M; [|reflexivity]. exfalso. apply mem_in in M. simpl in Hn.
      apply NoDup_remove_2 in Hn. apply Hn. apply in_or_app. left. assumption. }
    destruct (consider_decomp c id a) as [A1 A2]. destruct (consider_decomp c id a') as [B1 B2].
    assert (Hn' : NoDup (map t_id (tasks a))) by (rewrite Hids; assumption).
    (* a handler of R0 runs in [a] and not in [a']; any other handler runs in both or in neither *)
    assert (In0 : mem id R0 = true -> mem id (running a) = true /\ mem id (running a') = false).
    { intros MR. split; [rewrite Hrun, MR, Hnot; apply orb_true_r|].
      destruct (mem id (running a')) eqn:M; [apply Hpre in M; congruence | reflexivity]. }
    assert (Out0 : mem id R0 = false -> mem id (running a) = mem id (running a')) by (intros MR; rewrite Hrun, MR; apply orb_false_r).
    apply (IH (pre ++ [id])).
    + rewrite <- app_assoc. simpl. assumption.
    + rewrite A1, B1, <- E1. destruct (mem id R0) eqn:MR; [|rewrite (Out0 eq_refl); reflexivity].
      destruct (In0 eq_refl) as [Ra Ra']. rewrite Ra, Ra'. destruct (ctasks_running_37 c id (tasks a) (H37 id MR Hnot)) as [X _].
      destruct (ctasks_idle_37 c id (tasks a) Hn' (H37 id MR Hnot)) as [Y _]. congruence.
    + rewrite (proj1 (proj2 (consider_mono c id a))), Hids, <- app_assoc. reflexivity.
    + intros x. rewrite A2, B2, <- E1, (mem_snoc x pre id). destruct (mem id R0) eqn:MR.
      * destruct (In0 eq_refl) as [Ra Ra']. rewrite Ra, Ra'. destruct (ctasks_running_37 c id (tasks a) (H37 id MR Hnot)) as [_ X].
        destruct (ctasks_idle_37 c id (tasks a) Hn' (H37 id MR Hnot)) as [_ Y]. rewrite X, Y, mem_snoc, Hrun.
        destruct (x =? id) eqn:Ex.
        -- apply N.eqb_eq in Ex. subst x. rewrite Ra', MR, Hnot. reflexivity.
        -- rewrite !orb_false_r. reflexivity.
      * rewrite (Out0 eq_refl). destruct (cstart c id (tasks a) (mem id (running a'))).
        -- rewrite !mem_snoc, Hrun. destruct (x =? id) eqn:Ex; [|rewrite !orb_false_r; reflexivity].
           apply N.eqb_eq in Ex. subst x. rewrite MR. simpl. rewrite !orb_true_r. reflexivity.
        -- rewrite Hrun. destruct (x =? id) eqn:Ex; [|rewrite orb_false_r; reflexivity].
           apply N.eqb_eq in Ex. subst x. rewrite MR. simpl. reflexivity.
    + (* only considered ids are running in the restarted state *)
      intros x. rewrite B2, (mem_snoc x pre id).
      destruct (cstart c id (tasks a') (mem id (running a'))).
      * rewrite mem_snoc. intros H. apply orb_true_iff in H. destruct H as [H|H]; [rewrite (Hpre x H); reflexivity | rewrite H; apply orb_true_r].
      * intros H. rewrite (Hpre x H). reflexivity.
    + (* the tasks of R0 still to be considered keep their status *)
      intros x Hx Hp. rewrite mem_snoc in Hp.
      apply orb_false_iff in Hp. destruct Hp as [Hp1 Hp2]. rewrite consider_other by (apply N.eqb_neq; assumption).
      apply H37; assumption.
Qed.

Theorem same_outcome : forall c s evs, NoDup (map t_id (tasks s)) ->
  (forall id, mem id (running s) = true -> status_of (tasks s) id = 3 \/ status_of (tasks s) id = 7) ->
  eqv (run_events c s (ERestart :: EEnsure :: evs)) (run_events c s (EEnsure :: evs)).
Proof.
  intros c s evs Hn Hr. simpl. apply run_eqv. unfold ensure. simpl.
  assert (Q : eqv (fold_left (fun acc t => consider c (t_id t) acc) (tasks s) s)
                  (fold_left (fun acc t => consider c (t_id t) acc) (tasks s) (restart s))).
  { apply (ensure_after_restart c (running s) (tasks s) [] s (restart s)); simpl; try reflexivity; try assumption.
    - intros x. rewrite andb_true_r. reflexivity.
    - intros x H. discriminate.
    - intros x Hx _. apply Hr. assumption. }
  destruct Q as [Q1 Q2]. split; [symmetry; assumption | intros x; symmetry; apply Q2].
Qed.

(* a graceful stop instead of (before) the crash makes no difference: with no running task in Abort the stop changes no
   status, it only empties the running set - which is what the crash does *)
Lemma stop_is_restart : forall c s,
  (forall id, mem id (running s) = true -> status_of (tasks s) id = 3 \/ status_of (tasks s) id = 7) ->
  NoDup (map t_id (tasks s)) -> eqv (stop c s) (restart s).
Proof.
  intros c s Hr Hn. unfold stop, restart, reload, persist. split; simpl; [|reflexivity].
  rewrite <- (map_id (tasks s)) at 2. apply map_ext_in. intros t Ht. unfold stop_task.
  destruct (mem (t_id t) (running s)) eqn:M; [|reflexivity]. simpl.
  destruct (Hr _ M) as [H|H]; rewrite status_of_fnd, (fnd_in _ t Hn Ht) in H; rewrite H; reflexivity.
Qed.

Theorem same_outcome_stop : forall c s evs, NoDup (map t_id (tasks s)) ->
  (forall id, mem id (running s) = true -> status_of (tasks s) id = 3 \/ status_of (tasks s) id = 7) ->
  eqv (run_events c s (EStop :: ERestart :: EEnsure :: evs)) (run_events c s (EEnsure :: evs)).
Proof.
  intros c s evs Hn Hr.
  assert (A : eqv (run_events c s (EStop :: ERestart :: EEnsure :: evs)) (run_events c s (ERestart :: EEnsure :: evs))).
  { simpl. apply run_eqv, ensure_eqv. apply (eqv_restart (stop c s) s). apply (stop_is_restart c s Hr Hn). }
  destruct A as [A1 A2]. destruct (same_outcome c s evs Hn Hr) as [B1 B2]. split; [congruence | intros x; rewrite A2; apply B2].
Qed.

(* the deterministic schedule in single steps: an Ensure pass when nothing runs, otherwise the first running handler returns *)
Definition micro (c : cfg) (s : st) : st :=
  match running s with [] => ensure c s | id :: _ => finish c id s end.
Fixpoint iter (k : nat) (c : cfg) (s : st) : st := match k with O => s | S k' => iter k' c (micro c s) end.

Fixpoint sublists (l : list N) : list (list N) :=
  match l with [] => [[]] | x :: r => let s := sublists r in s ++ map (cons x) s end.
(* all chains on tasks 1..3 (task j waits for task j-1) with any extra edges to earlier tasks: the graphs on which the
   runner's schedule does not depend on the order in which Ensure visits the tasks *)
Definition all_graphs : list (list (N * list N)) :=
  [[(1, [])]; [(1, []); (2, [1])]] ++ map (fun w3 => [(1, []); (2, [1]); (3, 2 :: w3)]) (sublists [1]).
Definition all_cfgs : list cfg :=
  flat_map (fun f => map (fun u => mkCfg f u) (sublists [1; 2; 3])) (sublists [1; 2; 3]).
Definition init (g : list (N * list N)) : st := mkSt (init_tasks g []) [] [].
Definition crash_points : list nat := seq 0 40.

Definition same_outcome_at (g : list (N * list N)) (c : cfg) (k : nat) : bool :=
  plist_eqb (statuses (settle 16 c (restart (iter k c (init g))))) (statuses (settle 16 c (init g))).

(* not a guard of any statement: the bounded table carries none, and [same_outcome] asks instead that every running task is
   in Doing or Undoing. What it describes: a task caught in Abort (aborted while its handler was running) by the restart is
   NOT run again after the restart but undone directly (tryUndo), or put on Hold when it has no undo handler, whereas without
   the restart its handler would have returned (and possibly failed): there the outcomes legitimately differ *)
Definition no_abort (s : st) : bool := forallb (fun t => negb (norm (t_status t) =? 5)) (tasks s).

Definition same_outcome_domain : list (list (N * list N) * cfg * nat) :=
  flat_map (fun g => flat_map (fun c => map (fun k => (g, c, k)) crash_points) all_cfgs) all_graphs.
Definition same_outcome_ok (x : list (N * list N) * cfg * nat) : bool :=
  let '(g, c, k) := x in same_outcome_at g c k.

(* Evaluated point by point, the table repeats nearly all of its work: the run without restart does not depend on the crash
   point, [iter k] starts from the initial state for every k, and every iteration is at rest long before its fuel runs
   out ([micro] after at most 10 steps, [round] after at most 5, on these graphs). So the table is evaluated by one walk
   along the micro-steps per graph and configuration, and every iteration stops at the first state its step leaves unchanged.
   The step is let-bound where it is both compared and passed on: the evaluators do not share two copies of [f x]. *)
Section Stop.
  Context {A : Type} (dec : forall a b : A, {a = b} + {a <> b}) (f : A -> A).
  Fixpoint iterate (n : nat) (x : A) : A := match n with O => x | S m => iterate m (f x) end.
  Fixpoint iterate_stop (n : nat) (x : A) : A :=
    match n with O => x | S m => let y := f x in if dec y x then x else iterate_stop m y end.

  Lemma iterate_fixed : forall n x, f x = x -> iterate n x = x.
  Proof. intros n x H. induction n; simpl; [reflexivity | rewrite H; assumption]. Qed.

  Lemma iterate_stop_eq : forall n x, iterate_stop n x = iterate n x.
  Proof.
    induction n as [|n IH]; intros x; simpl; [reflexivity|]. destruct (dec (f x) x) as [E|_]; [|apply IH].
    rewrite E. symmetry. apply iterate_fixed, E.
  Qed.

  Variable p : A -> bool.
  Fixpoint all_stop (n : nat) (x : A) : bool :=
    match n with O => true | S m => p x && let y := f x in if dec y x then true else all_stop m y end.

  Lemma all_stop_sound : forall n x, all_stop n x = true -> forall k, (k < n)%nat -> p (iterate k x) = true.
  Proof.
    induction n as [|n IH]; intros x H k Hk; [lia|]. simpl in H. apply andb_true_iff in H as [Hp H].
    destruct k as [|k]; [exact Hp|]. simpl. destruct (dec (f x) x) as [E|_].
    - rewrite E, iterate_fixed by exact E. exact Hp.
    - apply IH; [exact H | lia].
  Qed.
End Stop.

Definition st_eq_dec (a b : st) : {a = b} + {a <> b}.
Proof. repeat decide equality. Defined.

Lemma iter_ensure_iterate : forall n c s, iter_ensure n c s = iterate (ensure c) n s.
Proof. induction n as [|n IH]; intros c s; simpl; [reflexivity | apply IH]. Qed.
Lemma iter_iterate : forall k c s, iter k c s = iterate (micro c) k s.
Proof. induction k as [|k IH]; intros c s; simpl; [reflexivity | apply IH]. Qed.

Definition round_stop (c : cfg) (s : st) : st :=
  let s1 := iterate_stop st_eq_dec (ensure c) (2 * length (tasks s) + 2) s in
  fold_left (fun acc id => finish c id acc) (running s1) s1.
Lemma round_stop_eq : forall c s, round_stop c s = round c s.
Proof. intros c s. unfold round_stop, round, ensureF. rewrite iterate_stop_eq, iter_ensure_iterate. reflexivity. Qed.

Definition settle_stop (n : nat) (c : cfg) (s : st) : st := iterate_stop st_eq_dec (round_stop c) n s.
Lemma settle_stop_eq : forall n c s, settle_stop n c s = settle n c s.
Proof.
  intros n c s. unfold settle_stop. rewrite iterate_stop_eq. revert s.
  induction n as [|n IH]; intros s; simpl; [reflexivity | rewrite round_stop_eq; apply IH].
Qed.

Definition same_outcome_upto (n : nat) (g : list (N * list N)) (c : cfg) : bool :=
  let final := statuses (settle_stop 16 c (init g)) in
  all_stop st_eq_dec (micro c) (fun s => plist_eqb (statuses (settle_stop 16 c (restart s))) final) n (init g).

Lemma same_outcome_upto_sound : forall n g c, same_outcome_upto n g c = true ->
  forall k, (k < n)%nat -> same_outcome_at g c k = true.
Proof.
  intros n g c H k Hk. unfold same_outcome_at. rewrite iter_iterate, <- !settle_stop_eq.
  exact (all_stop_sound _ _ _ _ _ H k Hk).
Qed.

Lemma same_outcome_upto_all : forallb (fun g => forallb (same_outcome_upto 40 g) all_cfgs) all_graphs = true.
Proof. vm_compute. reflexivity. Qed.

Lemma same_outcome_all : forallb same_outcome_ok same_outcome_domain = true.
Proof.
  apply forallb_forall. intros [[g c] k] H.
  apply in_flat_map in H as (g' & Hg & H). apply in_flat_map in H as (c' & Hc & H). apply in_map_iff in H as (k' & E & Hk).
  injection E as -> -> ->. apply in_seq in Hk.
  pose proof same_outcome_upto_all as S. rewrite forallb_forall in S. specialize (S g Hg). rewrite forallb_forall in S.
  apply (same_outcome_upto_sound 40 g c (S c Hc)). lia.
Qed.

Lemma run_events_app : forall c a b s, run_events c s (a ++ b) = run_events c (run_events c s a) b.
Proof. intros. unfold run_events. apply fold_left_app. Qed.

Lemma wrun_cons : forall c w e evs, wrun c w (e :: evs) = wrun c (wstep c w e) evs.
Proof. reflexivity. Qed.

Theorem store_is_memory : forall c evs w, no_stale evs = true -> w_disk w = tasks (w_mem w) ->
  w_disk (wrun c w evs) = tasks (w_mem (wrun c w evs)) /\
  w_mem (wrun c w evs) = run_events c (w_mem w) (flat_map erase evs).
Proof.
  intros c evs. induction evs as [|e evs IH]; intros w Hs Hd; [split; [assumption | reflexivity]|].
  rewrite wrun_cons. simpl in Hs. destruct e as [ev|old|]; try discriminate.
  - (* a step writes its checkpoint; ERestart is not a step of the world *)
    destruct ev; [| | exact (IH w Hs Hd) |]; (apply IH; [exact Hs | reflexivity]).
  - destruct (IH (wstep c w WCrash) Hs) as [A B]; [reflexivity|]. split; [exact A|].
    rewrite B. simpl. unfold restart, persist. rewrite Hd. reflexivity.
Qed.

(* what the store holds is always the image of a state whose unlock completed: the current one, or - while an unlock is still
   retrying its checkpoint - the one before the step in progress; never anything older, never a mixture *)
Definition store_inv (c : cfg) (w : cworld) : Prop :=
  (c_dirty w = false /\ c_disk w = tasks (c_mem w)) \/
  (c_dirty w = true /\ exists m0 e, c_mem w = step c m0 e /\ c_disk w = tasks m0).

Lemma restart_or_step : forall e, e = ERestart \/ e <> ERestart.
Proof. intros []; [right | right | left | right]; congruence. Qed.

Lemma cstep_step : forall c w e written, e <> ERestart ->
  cstep c w (CStep e written) =
  if c_dirty w then w else
  let m := step c (c_mem w) e in if written then mkC m (tasks m) false else mkC m (c_disk w) true.
Proof. intros c w e written Ne. destruct e; [reflexivity | reflexivity | congruence | reflexivity]. Qed.

Lemma cflat_step : forall pending e written evs, e <> ERestart ->
  cflat pending (CStep e written :: evs) =
  match pending with
  | Some _ => cflat pending evs
  | None => if written then e :: cflat None evs else cflat (Some e) evs
  end.
Proof. intros pending e written evs Ne. destruct e; [reflexivity | reflexivity | congruence | reflexivity]. Qed.

Lemma cstep_inv : forall c w ce, store_inv c w -> store_inv c (cstep c w ce).
Proof.
  intros c w ce H. destruct ce as [e written| |].
  - destruct (restart_or_step e) as [->|Ne]; [exact H|]. rewrite (cstep_step c w e written Ne).
    destruct H as [[Hd Hk]|[Hd Hk]]; rewrite Hd; [|right; split; assumption].
    destruct written; [left; split; reflexivity|]. right. split; [reflexivity|]. exists (c_mem w), e. split; [reflexivity | exact Hk].
  - simpl. destruct H as [[Hd Hk]|[Hd Hk]]; rewrite Hd; [left; split; assumption | left; split; reflexivity].
  - left. split; reflexivity.
Qed.

Definition cerase (ce : cevent) : list event :=
  match ce with CStep ERestart _ => [] | CStep e _ => [e] | CRetry => [] | CCrash => [ERestart] end.
Definition all_written (evs : list cevent) : bool :=
  forallb (fun ce => match ce with CStep _ false => false | _ => true end) evs.

Theorem crun_is_run_events : forall c evs w, all_written evs = true -> c_dirty w = false -> c_disk w = tasks (c_mem w) ->
  c_dirty (crun c w evs) = false /\ c_disk (crun c w evs) = tasks (c_mem (crun c w evs)) /\
  c_mem (crun c w evs) = run_events c (c_mem w) (flat_map cerase evs).
Proof.
  intros c evs. induction evs as [|ce evs IH]; intros w Ha Hd Hk; [repeat split; assumption|].
  simpl in Ha. apply andb_true_iff in Ha. destruct Ha as [Ha1 Ha2]. unfold crun in *. simpl fold_left.
  destruct ce as [e written| |].
  - destruct written; [|destruct e; discriminate].
    destruct e; simpl; rewrite ?Hd; [| | exact (IH w Ha2 Hd Hk) |]; (apply IH; [exact Ha2 | reflexivity | reflexivity]).
  - simpl. rewrite Hd. apply (IH w Ha2 Hd Hk).
  - simpl. destruct (IH (mkC (reload (c_disk w) (log (c_mem w))) (c_disk w) false) Ha2 eq_refl eq_refl) as (A & B & C).
    repeat split; try assumption. rewrite C. simpl. unfold restart, persist. rewrite Hk. reflexivity.
Qed.

Definition crel (c : cfg) (w : cworld) (m : st) (pending : option event) : Prop :=
  match pending with
  | None => c_dirty w = false /\ c_disk w = tasks (c_mem w) /\ eqv (c_mem w) m
  | Some e => c_dirty w = true /\ e <> ERestart /\ c_disk w = tasks m /\ eqv (c_mem w) (step c m e)
  end.

Lemma cnormal_gen : forall c evs w m pending, crel c w m pending ->
  eqv (c_mem (crun c w evs)) (run_events c m (cflat pending evs)).
Proof.
  intros c evs. induction evs as [|ce evs IH]; intros w m pending R.
  - destruct pending as [e|]; simpl in *; [destruct R as (_ & _ & _ & E); exact E | destruct R as (_ & _ & E); exact E].
  - unfold crun. simpl fold_left. fold (crun c (cstep c w ce) evs). destruct ce as [e written| |].
    + destruct (restart_or_step e) as [->|Ne]; [exact (IH w m pending R)|].
      rewrite (cstep_step c w e written Ne), (cflat_step pending e written evs Ne). destruct pending as [pe|].
      * (* the lock is held: nothing happens *)
        pose proof R as (Hd & _). rewrite Hd. apply IH, R.
      * destruct R as (Hd & Hk & E). rewrite Hd. cbv zeta. destruct written; [simpl run_events|]; apply IH; simpl.
        -- split; [reflexivity|]. split; [reflexivity|]. apply step_eqv, E.
        -- split; [reflexivity|]. split; [exact Ne|]. split; [rewrite Hk; apply E | apply step_eqv, E].
    + destruct pending as [pe|].
      * destruct R as (Hd & Hne & Hk & E). simpl cstep. rewrite Hd. simpl cflat. simpl run_events.
        apply IH. simpl. split; [reflexivity|]. split; [reflexivity|]. exact E.
      * destruct R as (Hd & Hk & E). simpl cstep. rewrite Hd. simpl cflat. apply IH. exact (conj Hd (conj Hk E)).
    + (* a crash reloads the store: the tasks of [m] in both cases, so what was pending is lost *)
      change (cflat pending (CCrash :: evs)) with (ERestart :: cflat None evs). simpl cstep. simpl run_events.
      apply IH. simpl. split; [reflexivity|]. split; [reflexivity|].
      destruct pending as [pe|]; [destruct R as (_ & _ & Hk & _) | destruct R as (_ & Hk & E)]; rewrite Hk.
      * apply (eqv_restart m m). reflexivity.
      * apply eqv_restart, E.
Qed.
