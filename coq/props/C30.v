(* C30 — registry views enforce access and rejected writes change nothing.
   Property theorems only. Model: models/Registry.v (registry/registry.go + registry/transaction.go); the schema is an
   arbitrary predicate `valid`.
   The model as FUNCTIONS (tied to the real code step by step): View.Set incl. {placeholders} left in the unmatched
   suffix (filled from the keys of the value), View.Get incl. placeholders, View.Unset incl. unfilled placeholders
   (match-all sub-keys of JSONDataBag.Unset), JSONDataBag, Transaction (New / Set / Unset / Get / Commit), bare-databag Set.
   The model as a RELATION (rstep / rsteps / via_view; what the theorems about whole histories quantify over): the same,
   plus every outcome of the Sets whose outcome the real code leaves to Go map iteration order:
   (i) order-dependent suffixes (two non-empty unmatched suffixes, one a prefix of the other up to placeholders):
       BadRequest recording nothing, or ROk recording exactly the model's writes;
   (ii) the class the model does not determine (`determined` is false): a suffix placeholder that is already filled in
       the storage path (same placeholder name twice in one request pattern, so that all candidates go to one storage
       path) or a storage placeholder the request pattern never binds (registry.New rejects those views): any answer and
       any recorded writes, except that a rejected Set records nothing.
   `allowed_g acc rules req p`: p is an instance of the filled storage path of a rule of the view that matches the request
   req and grants access acc. Values are JSON trees of objects and opaque scalars: ARRAYS ARE NOT MODELLED (theorems and
   tie are about maps only). *)
From Coq Require Import List NArith ZArith Bool.
Import ListNotations.
Require Import V.lib.JsonTree V.models.Registry V.proofs.RegistryProofs.
Open Scope N_scope.

(* every databag path a view writes is (an instance of) the filled storage path of a matching WRITEABLE rule - read-only
   rules are never written. Sets: every outcome of every Set the model determines (classes (i) included; class (ii) is
   exactly what `determined` excludes). Unsets: all of them; an Unset path is the rendered storage path itself, an
   unfilled placeholder staying in it as a match-all sub-key. *)
Theorem C30_write_paths_allowed : forall rules req,
  (forall v ws p x, set_outcome rules req v (ROk, ws) -> determined rules req v -> In (p, x) ws ->
                    allowed_g writeable rules req p) /\
  (forall ps p, unset_paths_g rules req = (ROk, ps) -> In p ps ->
                exists r sp sf, In r rules /\ writeable r = true /\ match_rule req r = Some (sp, sf) /\ p = parts_key sp).
Proof. intros rules req. split; [exact (outcome_paths_allowed rules req)|exact (unset_paths_allowed_g rules req)]. Qed.
Print Assumptions C30_write_paths_allowed.

(* View.Get depends on the databag only through storage paths of matching READABLE rules (non-interference form:
   two databags that agree on those paths give the same answer) - write-only data never leaks. Both forms of View.Get
   (literal storage paths; storage paths with unfilled placeholders) are covered, i.e. every Get *)
Theorem C30_read_paths_allowed : forall rules req,
  (forall g1 g2 : path -> bres,
     (forall p, allowed readable rules req p -> g1 p = g2 p) -> view_get rules g1 req = view_get rules g2 req) /\
  (forall g1 g2 : list part -> bres,
     (forall sp, allowed_parts rules req sp -> g1 sp = g2 sp) -> view_get_ph rules g1 req = view_get_ph rules g2 req).
Proof. intros rules req. split; [exact (read_paths_allowed rules req)|exact (read_paths_allowed_ph rules req)]. Qed.
Print Assumptions C30_read_paths_allowed.

(* rejected writes change nothing - over the whole transaction model (relation):
   (1) the entry point (new transaction, Set or Unset through the view, commit only on success), with EVERY outcome the
       Set may have: rejected (no matching rule, bad value, unused branch, order-dependent rejection, failing delta,
       schema violation at commit) => the committed databag is unchanged; accepted => the new databag is valid;
   (2) every history (any sequence of New / Set / Unset / Get / Commit on any number of transactions, every outcome of
       the Sets): if no Commit reported success the committed databag is what it was, and a successful Commit publishes
       a valid databag;
   (3) the functions used for the tie are instances of the relation whenever the Set is not order-dependent.
   The one place where a rejected View.Set DOES leave data behind - a bare databag, no transaction - is
   C30_bare_bag_partial_refuted below; the relation has no such step because registry.Transaction only records deltas. *)
Theorem C30_rejected_leaves_committed_unchanged : forall valid rules,
  (forall committed req v b ok, via_view valid rules committed req v (b, ok) ->
     (ok = false -> b = committed) /\ (ok = true -> valid (Obj b) = true)) /\
  (forall st steps st', rsteps valid rules st steps st' ->
     (forall o b0, In (o, BBag true b0) steps -> forall i, o <> OCommit i) -> st_bag st' = st_bag st) /\
  (forall st o st' b, rstep valid rules st o st' b ->
     st_bag st' = st_bag st \/
     exists i t b0, o = OCommit i /\ nth_error (st_txs st) i = Some t /\ tx_commit valid t (st_bag st) = Some b0 /\
                    st_bag st' = b0 /\ valid (Obj b0) = true /\ b = BBag true b0) /\
  (forall st o, (forall i req v, o = OSet i req v -> is_either rules req v = None) ->
     rstep valid rules st o (fst (step valid rules st o)) (snd (step valid rules st o))) /\
  (forall committed req v, is_either rules req v = None ->
     via_view valid rules committed req v (set_via_view valid rules committed req v)).
Proof.
  intros valid rules. split; [exact (via_view_rejected valid rules)|].
  split; [exact (rejected_history_unchanged valid rules)|]. split; [exact (rstep_publishes valid rules)|].
  split; [exact (step_is_rstep valid rules)|exact (set_via_view_in_relation valid rules)].
Qed.
Print Assumptions C30_rejected_leaves_committed_unchanged.

(* two transactions with any mix of Set and Unset deltas (Unset paths may carry match-all sub-keys): after both committed
   (either order: swap the names) every value written by a Set whose path diverges (pdiverge: differs at a position where
   both keys are literal; = diverge on literal paths, pdiverge_lit) from all later deltas of its own transaction and (for
   the first one) from all deltas of the second reads back as written *)
Theorem C30_commit_order_no_lost_update : forall valid t1 t2 b b1 b2,
  Forall has_path (tx_deltas t1) -> Forall has_path (tx_deltas t2) ->
  tx_commit valid t1 b = Some b1 -> tx_commit valid t2 b1 = Some b2 ->
  (forall ds1 d ds2, tx_deltas t1 = ds1 ++ d :: ds2 -> snd d <> Null ->
     (forall d', In d' ds2 -> pdiverge (fst d) (fst d') = true) ->
     (forall d', In d' (tx_deltas t2) -> pdiverge (fst d) (fst d') = true) ->
     bag_get (fst d) b2 = BOk (strip (snd d))) /\
  (forall ds1 d ds2, tx_deltas t2 = ds1 ++ d :: ds2 -> snd d <> Null ->
     (forall d', In d' ds2 -> pdiverge (fst d) (fst d') = true) ->
     bag_get (fst d) b2 = BOk (strip (snd d))).
Proof.
  intros valid t1 t2 b b1 b2 F1 F2 C1 C2. destruct (two_commits valid t1 t2 b b1 b2 F1 F2 C1 C2) as [A B].
  split; intros; [eapply A|eapply B]; eauto using pdiverge_apart.
Qed.
Print Assumptions C30_commit_order_no_lost_update.

(* the sort-order lemma: the writes of one accepted Set are performed in storage-path order, so a write never comes
   after a write to a path strictly below it (outer path first) *)
Theorem C30_outer_written_before_inner : forall rules req v ws ws1 d ws2 d',
  set_writes rules req v = (ROk, ws) -> ws = ws1 ++ d :: ws2 -> In d' ws2 ->
  is_prefix (fst d') (fst d) = true -> fst d' = fst d.
Proof. exact outer_written_before_inner. Qed.
Print Assumptions C30_outer_written_before_inner.

(* read-after-write at the storage level, nested storage paths included: once the writes of an accepted Set (all
   non-null) are applied in order to ANY databag, every written storage path that no later write of the same Set
   touches (equal or below) holds exactly the value written to it, nulls stripped. With rules a.b -> p.q and
   a.c -> p this says p.q still holds the b-value after p was written. *)
Theorem C30_read_after_write_storage : forall rules req v ws b,
  set_writes rules req v = (ROk, ws) -> Forall is_set ws ->
  exists b', apply_deltas b ws = Some b' /\
    forall ws1 d ws2, ws = ws1 ++ d :: ws2 ->
      (forall d', In d' ws2 -> is_prefix (fst d) (fst d') = false) ->
      bag_get (fst d) b' = BOk (strip (snd d)).
Proof. exact storage_read_after_write. Qed.
Print Assumptions C30_read_after_write_storage.

(* read-after-write through the view - PARTIAL. Full statement (DESIGN.md): after a successful set of v through
   read-write rules, get of the same request returns v. Proved: for a request matched in full by exactly one literal
   read-write rule (no other rule matches it, not even as a prefix), inside a transaction whose pending deltas apply
   cleanly. Missing: several matching rules (needs: merging the namespaced values of all matches rebuilds v, which
   does not even hold for nested storage paths, where the outer rule also returns the inner rule's data). *)
Theorem C30_read_after_write_same_request_partial : forall rules req v sp p t b,
  matches writeable rules req = [(sp, [])] -> matches readable rules req = [(sp, [])] ->
  lits sp = Some p -> p <> [] -> v <> Null ->
  apply_deltas (tx_pristine t) (tx_deltas t) = Some b ->
  set_writes rules req v = (ROk, [(p, v)]) /\
  view_get rules (tx_get (add_deltas t [(p, v)])) req = VOk (strip v).
Proof. exact view_read_after_write. Qed.
Print Assumptions C30_read_after_write_same_request_partial.

(* read-after-write through the view, rule by rule - PARTIAL w.r.t. the DESIGN statement. Proved: after an accepted Set
   of v at req (any number of matched rules, nested storage paths included), the request g of any one written rule -
   g matched by exactly that readable rule, in full, its storage path p not touched by a later write of the same Set -
   reads back the part of v written through that rule. Together with C30_outer_returns_inner (what the OUTER rule of a
   nested pair returns: its own value with the inner rule's value set inside) this says precisely what is read back.
   Missing: Get of the prefix request req itself when several rules match it (the merge of the namespaced values). *)
Theorem C30_read_after_write_partial : forall rules req v ws ws1 p x ws2 g sp t b,
  set_writes rules req v = (ROk, ws) -> Forall is_set ws -> ws = ws1 ++ (p, x) :: ws2 ->
  (forall d', In d' ws2 -> is_prefix p (fst d') = false) ->
  matches readable rules g = [(sp, [])] -> lits sp = Some p ->
  apply_deltas (tx_pristine t) (tx_deltas t) = Some b ->
  view_get rules (tx_get (add_deltas t ws)) g = VOk (strip x).
Proof. exact view_read_after_write_rule. Qed.
Print Assumptions C30_read_after_write_partial.

(* Get of the SAME request after a Set through several rules - PARTIAL. Proved: for any number of literal rules matched by
   req, the same rules being readable and writeable for req, and no written storage path touched by a later write of the
   same Set (so: no nested and no duplicate storage paths - for nested ones see C30_outer_returns_inner), Get of req inside
   the transaction returns exactly merge_all of the written parts, each put back under its unmatched suffix, in namespace
   order. Missing for "returns v": the purely tree-level fact that merging the parts of v along suffixes that cover v
   (the unused-branch check) rebuilds v; rules with unfilled placeholders in the suffix; values with nulls or arrays. *)
Theorem C30_read_after_write_same_request_merge_partial : forall rules req v ws lms t b,
  set_writes rules req v = (ROk, ws) -> Forall is_set ws ->
  matches readable rules req = matches writeable rules req ->
  literal_matches (matches writeable rules req) = Some lms ->
  (forall ws1 d ws2, ws = ws1 ++ d :: ws2 -> forall d', In d' ws2 -> is_prefix (fst d) (fst d') = false) ->
  apply_deltas (tx_pristine t) (tx_deltas t) = Some b ->
  view_get rules (tx_get (add_deltas t ws)) req =
  match merge_all (map (fun m => nest (snd m) (strip (xval v m))) (sort_by snd lms)) with
  | None => VErr RError
  | Some None => VErr RNotFound
  | Some (Some r) => VOk r
  end.
Proof. exact view_read_after_write_merge. Qed.
Print Assumptions C30_read_after_write_same_request_merge_partial.

(* Get of the SAME request returns v: after an accepted Set of v at req through any number of literal rules - the same
   rules readable and writeable for req, no written storage path touched by a later write of the Set, the unmatched
   suffixes pairwise different and none a prefix of another, v well-formed (unique keys) and the written parts free of
   nulls - Get of req inside the transaction returns v itself. The tree-level core is prune_all_merge: if pruning pairwise
   diverging suffixes one after the other uses the value up (the unused-branch check), merging their parts, last pruned
   first, gives the value back (prune_merge: pruning a suffix and merging its part back are inverse).
   Excluded shapes, and why: a rule matched in full together with rules below it (suffix [] is a prefix of every suffix;
   the parts overlap) and nested/duplicate storage paths (the outer rule also returns the inner data:
   C30_outer_returns_inner); suffixes with unfilled placeholders; nulls inside v (Get returns v with nulls stripped, the
   null members having become Unsets - not proved); arrays. The model prunes in reverse namespace order; the Go code in
   map order - for these suffix sets the tie shows no difference, order-independence itself is not proved. *)
Theorem C30_read_after_write_same_request : forall rules req v ws lms t b,
  set_writes rules req v = (ROk, ws) -> Forall is_set ws ->
  matches readable rules req = matches writeable rules req ->
  literal_matches (matches writeable rules req) = Some lms ->
  (forall ws1 d ws2, ws = ws1 ++ d :: ws2 -> forall d', In d' ws2 -> is_prefix (fst d) (fst d') = false) ->
  apply_deltas (tx_pristine t) (tx_deltas t) = Some b ->
  wf_tree v = true ->
  NoDup (map snd (sort_by snd lms)) ->
  (forall s s', In s (map snd lms) -> In s' (map snd lms) -> s = s' \/ diverge s s' = true) ->
  (forall m, In m lms -> strip (xval v m) = xval v m) ->
  view_get rules (tx_get (add_deltas t ws)) req = VOk v.
Proof. exact view_read_after_write_same_request. Qed.
Print Assumptions C30_read_after_write_same_request.

(* ... with nulls INSIDE v - PARTIAL. Full statement: Get returns v with the null members stripped (they became Unsets or
   were removed by JSONDataBag.Set). Proved, with no extra hypothesis: when no written part is itself null (Forall is_set
   ws: the nulls lie strictly inside the parts, where JSONDataBag.Set strips them), Get of req returns strip v = v with all
   nulls purged. Core: prune_merge_strip / C30_merge_rebuilds_stripped_value - pruning commutes with stripping, so the
   unused-branch check on v suffices. The hypothesis `Forall is_set ws` cannot be dropped: with a part that is itself null
   the statement is false (C30_read_after_write_null_part_refuted), so this theorem is the full result for its shape and
   keeps `_partial` only w.r.t. the DESIGN wording. *)
Theorem C30_read_after_write_same_request_nulls_partial : forall rules req v ws lms t b,
  set_writes rules req v = (ROk, ws) -> Forall is_set ws ->
  matches readable rules req = matches writeable rules req ->
  literal_matches (matches writeable rules req) = Some lms ->
  (forall ws1 d ws2, ws = ws1 ++ d :: ws2 -> forall d', In d' ws2 -> is_prefix (fst d) (fst d') = false) ->
  apply_deltas (tx_pristine t) (tx_deltas t) = Some b ->
  wf_tree v = true ->
  NoDup (map snd (sort_by snd lms)) ->
  (forall s s', In s (map snd lms) -> In s' (map snd lms) -> s = s' \/ diverge s s' = true) ->
  view_get rules (tx_get (add_deltas t ws)) req = VOk (strip v).
Proof. exact view_read_after_write_same_request_strip. Qed.
Print Assumptions C30_read_after_write_same_request_nulls_partial.

(* storage-level read-after-write for Unset deltas (what a null part of a Set, or a View.Unset, becomes): an Unset of a
   literal path, followed by any Sets and Unsets on paths diverging from it, leaves the path reading as missing *)
Theorem C30_unset_stays_missing : forall ds1 d ds2 b b', Forall has_path (ds1 ++ d :: ds2) -> snd d = Null ->
  lit_path (fst d) = true -> apply_deltas b (ds1 ++ d :: ds2) = Some b' ->
  (forall d', In d' ds2 -> pdiverge (fst d) (fst d') = true) ->
  bag_get (fst d) b' = BPathErr.
Proof. exact unset_stays_missing. Qed.
Print Assumptions C30_unset_stays_missing.

(* the null-PART case: the statement "Get of the same request returns v with the nulls stripped" is FALSE when a written
   part is itself null. Rules a.b.x -> p, a.c -> q, Set a = {b:{x:null}, c:2}: the part under b.x is null and becomes an
   Unset of p; Get a returns {c:2}, whereas v with the nulls stripped is {b:{}, c:2} - the emptied parent of a null part
   is not materialised (and with ALL parts null Get answers NotFound). Replayed on the real code (./check --replay of this
   history): Get a = {"c":2}. Judged against the property text this is not a defect: a null inside a Set value is the
   documented way to unset, and what IS read back is exactly what was stored (C30_unset_stays_missing,
   C30_read_after_write_storage); only the shape of the emptied ancestors differs from `strip`. *)
Theorem C30_read_after_write_null_part_refuted : exists rules req v ws,
  set_writes rules req v = (ROk, ws) /\ matches readable rules req = matches writeable rules req /\
  view_get rules (tx_get (add_deltas (mkTx [] []) ws)) req = VOk (Obj [(99, Atom 2%Z)]) /\
  strip v = Obj [(98, Obj []); (99, Atom 2%Z)].
Proof.
  exists [mkRule [Lit 97; Lit 98; Lit 120] [Lit 112] RW; mkRule [Lit 97; Lit 99] [Lit 113] RW], [97],
         (Obj [(98, Obj [(120, Null)]); (99, Atom 2%Z)]), [([112], Null); ([113], Atom 2%Z)].
  repeat split; reflexivity.
Qed.
Print Assumptions C30_read_after_write_null_part_refuted.

Theorem C30_merge_rebuilds_stripped_value : forall L cur, wf_tree cur = true -> pw_div L ->
  (forall s, In s L -> exists x, value_at s cur = Some x /\ x <> Null) ->
  fold_left prune_step L (Some (Some cur)) = Some None ->
  merge_all (map (fun s => nest s (strip (xv cur s))) (rev L)) = Some (Some (strip cur)).
Proof. exact (merge_back strip (fun x => x <> Null) prune_merge_strip). Qed.
Print Assumptions C30_merge_rebuilds_stripped_value.

Theorem C30_merge_rebuilds_value : forall L cur, wf_tree cur = true -> pw_div L ->
  (forall s, In s L -> value_at s cur <> None) ->
  fold_left prune_step L (Some (Some cur)) = Some None ->
  merge_all (map (fun s => nest s (xv cur s)) (rev L)) = Some (Some cur).
Proof. exact prune_all_merge. Qed.
Print Assumptions C30_merge_rebuilds_value.

Theorem C30_outer_returns_inner : forall b p q x1 x2, p <> [] -> q <> [] -> x1 <> Null -> x2 <> Null ->
  exists b', apply_deltas b [(p, x1); (p ++ q, x2)] = Some b' /\
             bag_get p b' = BOk (tset q (strip x2) (Some (strip x1))) /\
             bag_get (p ++ q) b' = BOk (strip x2).
Proof. exact outer_returns_inner. Qed.
Print Assumptions C30_outer_returns_inner.

(* the full statement "a rejected View.Set leaves the databag unchanged" is FALSE on a bare databag (no transaction):
   rules a.b -> p, a.c -> q, schema rejecting 99, Set a = {b:1, c:99}: the write of p passes, the write of q fails the
   schema, the request is rejected and both writes stay behind; at the transactional entry point the same request
   changes nothing. Confirmed on the real code by the driver (fixed history 5, OBare). *)
Theorem C30_bare_bag_partial_refuted : exists valid rules b req v b',
  bare_set valid rules b req v = (RError, b') /\ b' <> b /\ set_via_view valid rules b req v = (b, false).
Proof.
  exists drv_valid, [mkRule [Lit 97; Lit 98] [Lit 112] RW; mkRule [Lit 97; Lit 99] [Lit 113] RW], [], [97],
         (Obj [(98, Atom 1%Z); (99, Atom 99%Z)]), [(112, Atom 1%Z); (113, Atom 99%Z)].
  split; [reflexivity|]. split; [discriminate|reflexivity].
Qed.
Print Assumptions C30_bare_bag_partial_refuted.

(* ---- non-vacuity *)
(* a {placeholder} left in the unmatched suffix is filled from the keys of the value *)
Example ex_placeholder_suffix :
  set_writes_g [mkRule [Lit 97; Ph 120; Lit 98] [Lit 112; Ph 120] RW] [97]
               (Obj [(99, Obj [(98, Atom 1%Z)]); (100, Obj [(98, Atom 2%Z)])]) =
  (ROk, [([112; 99], Atom 1%Z); ([112; 100], Atom 2%Z)]).
Proof. reflexivity. Qed.
(* order-dependent suffixes b and b.c: either the writes or BadRequest *)
Example ex_order_dependent :
  set_class [mkRule [Lit 97; Lit 98] [Lit 112] RW; mkRule [Lit 97; Lit 98; Lit 99] [Lit 113] RW; mkRule [Lit 97; Lit 100] [Lit 114] RW]
            [97] (Obj [(98, Obj [(99, Atom 1%Z)]); (100, Atom 2%Z)]) =
  SEither false [([112], Obj [(99, Atom 1%Z)]); ([113], Atom 1%Z); ([114], Atom 2%Z)].
Proof. reflexivity. Qed.
Definition ex_nested : list rule := [mkRule [Lit 97; Lit 98] [Lit 112; Lit 113] RW; mkRule [Lit 97; Lit 99] [Lit 112] RW].
(* a.b -> p.q (smaller request, inner path), a.c -> p: the outer path p is written first *)
Example ex_nested_order :
  set_writes ex_nested [97] (Obj [(98, Atom 1%Z); (99, Obj [(100, Atom 2%Z)])]) =
  (ROk, [([112], Obj [(100, Atom 2%Z)]); ([112; 113], Atom 1%Z)]).
Proof. reflexivity. Qed.
Example ex_nested_readback :
  view_get ex_nested (tx_get (mkTx [] [([112], Obj [(100, Atom 2%Z)]); ([112; 113], Atom 1%Z)])) [97; 98] = VOk (Atom 1%Z).
Proof. reflexivity. Qed.
Definition ex_rules : list rule :=
  [mkRule [Lit 97] [Lit 112] WO; mkRule [Lit 98] [Lit 112] RO; mkRule [Lit 99; Ph 120] [Lit 113; Ph 120] RW].
Example ex_write_only_not_readable : view_get ex_rules (fun _ => BOk (Atom 1%Z)) [97] = VErr RNotFound.
Proof. reflexivity. Qed.
Example ex_read_only_not_writeable : set_writes ex_rules [98] (Atom 1%Z) = (RNotFound, []).
Proof. reflexivity. Qed.
Example ex_placeholder_write : set_writes ex_rules [99; 100] (Atom 5%Z) = (ROk, [([113; 100], Atom 5%Z)]).
Proof. reflexivity. Qed.
Example ex_schema_reject : set_via_view drv_valid ex_rules [] [97] (Atom 99%Z) = ([], false).
Proof. reflexivity. Qed.
Example ex_accept : set_via_view drv_valid ex_rules [] [97] (Atom 1%Z) = ([(112, Atom 1%Z)], true).
Proof. reflexivity. Qed.

(* Unset through unfilled placeholders: match-all in the middle (emptied objects stay), at the end (the whole level goes),
   and the decoding error when a scalar is met on the way *)
Example ex_unset_match_all_middle :
  bag_unset [112; 1120; 113] [(112, Obj [(99, Obj [(113, Atom 1%Z)]); (100, Obj [(113, Atom 2%Z); (114, Atom 3%Z)])])] =
  Some [(112, Obj [(99, Obj []); (100, Obj [(114, Atom 3%Z)])])].
Proof. reflexivity. Qed.
Example ex_unset_match_all_last :
  bag_unset [114; 1121] [(112, Atom 0%Z); (114, Obj [(97, Atom 3%Z); (98, Atom 4%Z)])] = Some [(112, Atom 0%Z)].
Proof. reflexivity. Qed.
Example ex_unset_scalar_error : bag_unset [112; 1120; 113] [(112, Obj [(100, Atom 5%Z)])] = None.
Proof. reflexivity. Qed.
Example ex_unset_paths_placeholder :
  unset_paths_g [mkRule [Lit 97; Ph 120; Lit 98] [Lit 112; Ph 120; Lit 113] RW] [97] = (ROk, [[112; 1120; 113]]).
Proof. reflexivity. Qed.

(* the relation: an order-dependent Set has both outcomes; the functional model is an instance elsewhere *)
Definition ex_od_rules : list rule :=
  [mkRule [Lit 97; Lit 98] [Lit 112] RW; mkRule [Lit 97; Lit 98; Lit 99] [Lit 113] RW; mkRule [Lit 97; Lit 100] [Lit 114] RW].
Definition ex_od_value : tree := Obj [(98, Obj [(99, Atom 1%Z)]); (100, Atom 2%Z)].
Example ex_outcome_rejected : set_outcome ex_od_rules [97] ex_od_value (RBadRequest, []).
Proof. left. reflexivity. Qed.
Example ex_outcome_accepted :
  set_outcome ex_od_rules [97] ex_od_value (ROk, [([112], Obj [(99, Atom 1%Z)]); ([113], Atom 1%Z); ([114], Atom 2%Z)]).
Proof. right. split; reflexivity. Qed.
Example ex_od_determined : determined ex_od_rules [97] ex_od_value.
Proof. left. discriminate. Qed.
Example ex_rstep_either : forall valid,
  rstep valid ex_od_rules (mkState [] [mkTx [] []]) (OSet 0 [97] ex_od_value) (mkState [] [mkTx [] []]) (BRes RBadRequest).
Proof. intros valid. eapply rs_set_rejected; [reflexivity|exact ex_outcome_rejected|discriminate]. Qed.
(* class (ii) is not empty: the same placeholder name twice in one request pattern *)
Example ex_undetermined :
  ~ determined [mkRule [Ph 120; Lit 97; Ph 120] [Ph 120; Lit 114; Ph 120] RW] [100; 97]
               (Obj [(98, Atom 1%Z); (99, Atom 2%Z)]).
Proof. intros [H|H]; vm_compute in H; congruence. Qed.
(* entry point: a rejected and an accepted request *)
Example ex_via_view_rejected : via_view drv_valid ex_rules [] [97] (Atom 99%Z) ([], false).
Proof. exists ROk, [([112], Atom 99%Z)]. split; reflexivity. Qed.
Example ex_via_view_accepted : via_view drv_valid ex_rules [] [97] (Atom 1%Z) ([(112, Atom 1%Z)], true).
Proof. exists ROk, [([112], Atom 1%Z)]. split; reflexivity. Qed.

(* Get of the same request through two rules: the merge of the written parts is the value itself *)
Definition ex_two : list rule := [mkRule [Lit 97; Lit 98] [Lit 112] RW; mkRule [Lit 97; Lit 99] [Lit 113] RW].
Definition ex_two_v : tree := Obj [(98, Atom 1%Z); (99, Obj [(100, Atom 2%Z)])].
Example ex_two_merge :
  merge_all (map (fun m => nest (snd m) (strip (xval ex_two_v m))) (sort_by snd [([112], [98]); ([113], [99])])) = Some (Some ex_two_v).
Proof. reflexivity. Qed.
Example ex_two_get :
  view_get ex_two (tx_get (add_deltas (mkTx [] []) (snd (set_writes ex_two [97] ex_two_v)))) [97] = VOk ex_two_v.
Proof. reflexivity. Qed.

(* the hypotheses of C30_read_after_write_same_request are satisfiable: the two-rule view above, three-level value *)
Definition ex_three : list rule :=
  [mkRule [Lit 97; Lit 98; Lit 99] [Lit 112] RW; mkRule [Lit 97; Lit 98; Lit 100] [Lit 113] RW; mkRule [Lit 97; Lit 101] [Lit 114] RW].
Definition ex_three_v : tree := Obj [(98, Obj [(99, Atom 1%Z); (100, Obj [])]); (101, Atom 3%Z)].
Example ex_three_unused_check :
  fold_left prune_step (rev [[98; 99]; [98; 100]; [101]]) (Some (Some ex_three_v)) = Some None.
Proof. reflexivity. Qed.
Example ex_three_get :
  view_get ex_three (tx_get (add_deltas (mkTx [] []) (snd (set_writes ex_three [97] ex_three_v)))) [97] = VOk ex_three_v.
Proof. reflexivity. Qed.

(* nulls inside a part: stripped by the write, Get returns the stripped value; the extra hypothesis holds *)
Definition ex_nulls_v : tree := Obj [(98, Obj [(100, Null); (101, Atom 1%Z)]); (99, Atom 2%Z)].
Example ex_nulls_inside :
  view_get ex_two (tx_get (add_deltas (mkTx [] []) (snd (set_writes ex_two [97] ex_nulls_v)))) [97] =
  VOk (Obj [(98, Obj [(101, Atom 1%Z)]); (99, Atom 2%Z)]).
Proof. reflexivity. Qed.
Example ex_nulls_inside_check :
  fold_left prune_step (rev [[98]; [99]]) (Some (Some (Obj [(98, Obj [(101, Atom 1%Z)]); (99, Atom 2%Z)]))) = Some None.
Proof. reflexivity. Qed.
(* a part that is itself null becomes an Unset delta: the member is gone from what Get returns (= v stripped) *)
Example ex_null_part :
  set_writes ex_two [97] (Obj [(98, Null); (99, Atom 2%Z)]) = (ROk, [([112], Null); ([113], Atom 2%Z)]) /\
  view_get ex_two (tx_get (add_deltas (mkTx [(112, Atom 7%Z)] []) [([112], Null); ([113], Atom 2%Z)])) [97] =
  VOk (Obj [(99, Atom 2%Z)]).
Proof. split; reflexivity. Qed.
