(* C08 — notices are delivered exactly once to polling clients and only to their owner.
   This file holds the property theorems only: statement, a short proof from proofs/NoticesProofs.v, Print Assumptions.
   Model: models/Notices.v (overlord/state/notices.go AddNotice / NoticeFilter.matches / Notices function by function,
   the user / filter logic of daemon/api_notices.go getNotices, and the polling-client cursor protocol).

   Full statement of the property: a client that repeatedly asks for the notices after the last one it saw receives
   every new or repeated notice exactly once, in occurrence order, and nothing that neither occurred nor repeated
   since; a user-specific notice is returned only to that user (public ones to everyone); a waiting client is woken
   when a matching notice occurs.
   Proved below for every history (any number of additions by anybody, any clock readings including equal and
   decreasing ones, any repeat-after values, any filter, polls anywhere) whose additions use the server clock.
   The waiter clause is proved in its logical form over all histories (C08_waiters_never_miss, C08_waiter_enabled);
   that sync.Cond.Broadcast wakes the goroutines is Go runtime behaviour: modelled, not verified. Expiry (7 days, real wall clock) is not modelled. *)
From Coq Require Import List NArith ZArith Bool String Sorting.Sorted.
Import ListNotations.
Require Import V.lib.Bytes V.models.Notices V.proofs.NoticesProofs.
Require V.gen.NoticeTypes.
Open Scope Z_scope.

(* Histories (`list event`) contain additions, polls and RESTARTS (ERestart: the checkpoint payload written by
   State.MarshalJSON is read back by state.ReadState; the client keeps its cursor) anywhere; clock readings are arbitrary,
   in particular they need not advance across a restart. `persist_ok` (all notice fields written and restored, among them
   lastNoticeTimestamp) is evaluated on gen/NoticeTypes.v, regenerated from overlord/state/state.go on every run. *)

(* every new-or-repeated occurrence gets an occurrence time strictly greater than all earlier ones, whatever the
   clock reads (flag_stamps lists the last-repeated times handed out to the new-or-repeated additions, in order) *)
Theorem C08_timestamps_strict : forall l : list event,
  forallb ev_server_clock l = true -> StronglySorted Z.lt (flag_stamps empty_state l).
Proof. exact (timestamps_strict (eq_refl : persist_ok = true)). Qed.
Print Assumptions C08_timestamps_strict.

(* ... and strictly greater than the last-repeated time of every notice in the state *)
Theorem C08_new_stamp_after_all : forall (l : list event) a st' id,
  forallb ev_server_clock l = true -> a_time a = None ->
  add_notice (state_after empty_state l) a = Some (st', true, id) ->
  exists n', find (same_key (a_user a) (a_type a) (a_key a)) (s_notices st') = Some n' /\
             forall m, In m (s_notices (state_after empty_state l)) -> n_lr m < n_lr n'.
Proof.
  intros l a st' id SC. apply add_stamp_after_all, (state_after_good (eq_refl : persist_ok = true)); [apply good_empty | exact SC].
Qed.
Print Assumptions C08_new_stamp_after_all.

(* exactly once: in every history, every answer `out` to a poll of a client with filter f consists exactly of the
   notices that match f and had a new-or-repeated occurrence since the client's previous poll (`pend` is the list of
   the keys of those occurrences, rebuilt from empty at every poll): nothing else is returned (so a notice is never
   returned twice for one occurrence), nothing pending is missed, no notice appears twice in one answer, and the
   answer is ordered by last-repeated time *)
Theorem C08_exactly_once : forall (f : nfilter) (evs : list event) (out : list notice) (pend : list nkey),
  forallb ev_server_clock evs = true ->
  In (out, pend) (hrun f empty_state None [] evs) ->
  (forall n, In n out -> static_match f n = true /\ In (key_of n) pend) /\
  (forall k, In k pend -> key_static_match f k = true -> exists n, In n out /\ key_of n = k) /\
  NoDup (map key_of out) /\
  StronglySorted le_lr out.
Proof. intros f evs out pend SC H. apply (hrun_ok_init (eq_refl : persist_ok = true) f evs out pend SC H). Qed.
Print Assumptions C08_exactly_once.

(* occurrence order: the order inside an answer is strict (no two notices share a last-repeated time), and by
   C08_timestamps_strict last-repeated times increase with the order of the occurrences *)
Theorem C08_occurrence_order : forall (f : nfilter) (evs : list event) (out : list notice) (pend : list nkey),
  forallb ev_server_clock evs = true ->
  In (out, pend) (hrun f empty_state None [] evs) ->
  StronglySorted lt_lr out.
Proof. intros f evs out pend SC H. apply (hrun_ok_init (eq_refl : persist_ok = true) f evs out pend SC H). Qed.
Print Assumptions C08_occurrence_order.

(* repeat-after: a re-occurrence is new-or-repeated exactly when repeat-after is zero or the (bumped) occurrence time
   is later than last-repeated + repeat-after; otherwise last-repeated is unchanged (so by C08_exactly_once it is not
   delivered again) *)
Theorem C08_repeat_after_rule : forall st a n st' flag id,
  a_time a = None -> add_notice st a = Some (st', flag, id) ->
  find (same_key (a_user a) (a_type a) (a_key a)) (s_notices st) = Some n ->
  let T := bump (a_clock a) (s_last_ts st) in
  flag = ((a_ra a =? 0) || (T >? n_lr n + a_ra a)) /\
  exists n', find (same_key (a_user a) (a_type a) (a_key a)) (s_notices st') = Some n' /\
             n_lr n' = (if flag then T else n_lr n) /\ n_occ n' = (n_occ n + 1)%N /\ n_id n' = n_id n /\ id = n_id n.
Proof. exact repeat_after_rule. Qed.
Print Assumptions C08_repeat_after_rule.

Theorem C08_repeat_after_suppressed : forall st a n st' flag id,
  a_time a = None -> add_notice st a = Some (st', flag, id) ->
  find (same_key (a_user a) (a_type a) (a_key a)) (s_notices st) = Some n ->
  a_ra a <> 0 -> bump (a_clock a) (s_last_ts st) <= n_lr n + a_ra a ->
  flag = false /\
  exists n', find (same_key (a_user a) (a_type a) (a_key a)) (s_notices st') = Some n' /\
             n_lr n' = n_lr n /\ n_occ n' = (n_occ n + 1)%N.
Proof. exact repeat_after_suppressed. Qed.
Print Assumptions C08_repeat_after_suppressed.

(* owner only: State.Notices with a user filter returns only public notices and that user's *)
Theorem C08_owner_only_state : forall st f u n,
  f_user f = Some u -> In n (notices st f) -> n_user n = None \/ n_user n = Some u.
Proof. exact notices_owner_only. Qed.
Print Assumptions C08_owner_only_state.

(* ... and GET /v2/notices from a non-root uid: its effective user filter is its own uid (it cannot name another
   user or all users), so it only ever receives public notices and its own; without a uid it is refused *)
Theorem C08_owner_only_api : forall st q uid n,
  q_uid q = Some uid -> uid <> 0%N -> In n (snd (api_get st q)) -> n_user n = None \/ n_user n = Some uid.
Proof.
  intros st q uid n Hq Hnz Hn. unfold api_get in Hn.
  destruct (api_filter q) as [| | |f] eqn:E; cbn in Hn; try contradiction.
  destruct (api_filter_nonroot _ _ _ Hq Hnz E) as [Hu _]. eapply notices_owner_only; eassumption.
Qed.
Print Assumptions C08_owner_only_api.

Theorem C08_api_filter_nonroot : forall q uid f,
  q_uid q = Some uid -> uid <> 0%N -> api_filter q = ApiFilter f ->
  f_user f = Some uid /\ q_user_id q = [] /\ q_users q = [].
Proof. exact api_filter_nonroot. Qed.
Print Assumptions C08_api_filter_nonroot.

Theorem C08_api_no_uid_forbidden : forall q, q_uid q = None -> api_filter q = ApiForbidden.
Proof. intros q H. unfold api_filter. rewrite H. reflexivity. Qed.
Print Assumptions C08_api_no_uid_forbidden.

(* ---- waiting clients (State.WaitNotices). Histories (`list wevent`): additions with arbitrary clock readings,
   WaitNotices calls with arbitrary filters, contexts timing out / being cancelled, snapd restarts, in any order.
   The logical half of `a waiting client is woken when a matching notice occurs` is proved in full over all of them.
   Modelled, not verified (Go runtime): that noticeCond.Broadcast() really makes every blocked call re-evaluate its
   condition — that is what `recheck` in the model stands for. *)

(* in every reachable state no call is blocked while a notice matching its filter exists ... *)
Theorem C08_waiters_never_miss : forall (evs : list wevent) o s,
  forallb wev_server_clock evs = true -> wrun empty_wsys evs = (o, s) ->
  forall id f, In (id, f) (w_blocked s) -> wait_enabled (w_state s) f = false.
Proof. intros evs o s SC H id f. apply winv_blocked, (wrun_reach (eq_refl : persist_ok = true) evs o s SC H). Qed.
Print Assumptions C08_waiters_never_miss.

(* ... whenever an addition makes a notice match the filter of a blocked call (last-repeated after its After time,
   right user / type / key), the call returns during that addition with what Notices(filter) gives then ... *)
Theorem C08_waiter_enabled : forall (evs : list wevent) o s a o1 s1 id f,
  forallb wev_server_clock evs = true -> wrun empty_wsys evs = (o, s) -> a_time a = None ->
  wstep s (WAdd a) = (o1, s1) -> In (id, f) (w_blocked s) -> wait_enabled (w_state s1) f = true ->
  In (WReturned id f (notices (w_state s1) f)) o1 /\ ~ In (id, f) (w_blocked s1).
Proof. intros evs o s a o1 s1 id f SC H. apply wstep_add_returns, (wrun_reach (eq_refl : persist_ok = true) evs o s SC H). Qed.
Print Assumptions C08_waiter_enabled.

(* ... what a call returns is never empty and consists of notices matching its filter; a call with a matching notice
   already there does not block *)
Theorem C08_wait_returns_sound : forall evs s o s' id f l,
  wrun s evs = (o, s') -> In (WReturned id f l) o -> l <> [] /\ forall n, In n l -> matches f n = true.
Proof. exact wait_returns_sound. Qed.
Print Assumptions C08_wait_returns_sound.

Theorem C08_wait_returns_at_once : forall s id f,
  wait_enabled (w_state s) f = true -> wstep s (WWait id f) = ([WReturned id f (notices (w_state s) f)], s).
Proof. intros s id f E. cbn. rewrite E. reflexivity. Qed.
Print Assumptions C08_wait_returns_at_once.

(* the two single-step facts behind it: a new-or-repeated addition (exactly when AddNotice calls Broadcast) whose notice
   matches makes the condition true; an addition that is not new-or-repeated (no Broadcast) never does *)
Theorem C08_waiter_enabled_step : forall st a st' id f n',
  good st -> a_time a = None -> add_notice st a = Some (st', true, id) ->
  find (same_key (a_user a) (a_type a) (a_key a)) (s_notices st') = Some n' -> matches f n' = true ->
  wait_enabled st' f = true.
Proof. intros st a st' id f n' _ _ _ Hf Hm. apply wait_enabled_iff. exists n'. split; [apply (find_some _ _ Hf) | exact Hm]. Qed.
Print Assumptions C08_waiter_enabled_step.

Theorem C08_no_missed_wakeup : forall st a st' id f,
  good st -> a_time a = None -> add_notice st a = Some (st', false, id) ->
  wait_enabled st f = false -> wait_enabled st' f = false.
Proof. exact no_missed_wakeup. Qed.
Print Assumptions C08_no_missed_wakeup.

(* why the server-clock hypothesis is there: with an explicit AddNoticeOptions.Time (no production call site sets it;
   checked by the translator noticetime on every run) a pending matching notice can be stamped before the client's
   cursor and is then never delivered *)
Theorem C08_explicit_time_refuted :
  exists f evs out pend k,
    In (out, pend) (hrun f empty_state None [] evs) /\ In k pend /\ key_static_match f k = true /\
    ~ exists n, In n out /\ key_of n = k.
Proof.
  exists no_filter, [EAdd (mkA 10 None (ty 1) (ky 0) 0 None); EPoll; EAdd (mkA 20 None (ty 1) (ky 1) 0 (Some 5)); EPoll],
    [], [(None, ty 1, ky 1)], (None, ty 1, ky 1).
  split; [vm_compute; right; left; reflexivity|]. split; [left; reflexivity|]. split; [reflexivity|].
  intros [n [[] _]].
Qed.
Print Assumptions C08_explicit_time_refuted.

(* ... and the guard on the real code, re-checked on every run: gen/NoticeTypes.v (translator noticetypes) lists every
   place outside tests that sets AddNoticeOptions.Time; there is none *)
Theorem C08_no_explicit_time_call_site : NoticeTypes.explicit_time_sites = [].
Proof. reflexivity. Qed.
Print Assumptions C08_no_explicit_time_call_site.

(* the restart case is not vacuous and the restored floor is what makes it work: with a reload that forgets
   lastNoticeTimestamp, the notice added after the restart at the same clock tick is stamped at or before the client's
   cursor and never delivered; with the real reload it is delivered *)
Theorem C08_forgetful_restart_loses_notice :
  map (fun r => (map n_id (fst r), List.length (snd r))) (hrun_forgetful no_filter empty_state None [] lost_after_restart_evs)
    = [([1%N], 2%nat); ([], 1%nat)] /\
  map (fun r => (map n_id (fst r), List.length (snd r))) (hrun no_filter empty_state None [] lost_after_restart_evs)
    = [([1%N], 2%nat); ([2%N], 1%nat)].
Proof. split; vm_compute; reflexivity. Qed.
Print Assumptions C08_forgetful_restart_loses_notice.

Theorem C08_restart_keeps_state : forall st, restart st = st.
Proof. exact (restart_id (eq_refl : persist_ok = true)). Qed.
Print Assumptions C08_restart_keeps_state.

(* ---- non-vacuity: a history with same-tick and backwards clocks, a suppressed repeat and two polls *)
Example C08_history : list event :=
  [EAdd (mkA 10 None (ty 1) (ky 0) 0 None); EAdd (mkA 10 (Some 1000%N) (ty 0) (ky 1) 0 None); EPoll;
   ERestart; EAdd (mkA 3 None (ty 1) (ky 0) 100 None); EAdd (mkA 3 (Some 1000%N) (ty 0) (ky 1) 0 None); EPoll].
Example C08_history_server_clock : forallb ev_server_clock C08_history = true.
Proof. reflexivity. Qed.
Example C08_history_answers :
  map (fun r => (map n_id (fst r), map n_lr (fst r), List.length (snd r))) (hrun no_filter empty_state None [] C08_history)
  = [([1%N; 2%N], [10; 11], 2%nat); ([2%N], [13], 1%nat)].
Proof. vm_compute. reflexivity. Qed.
Example C08_stamps_example :
  flag_stamps empty_state [EAdd (mkA 10 None (ty 1) (ky 0) 0 None); EAdd (mkA 10 None (ty 1) (ky 1) 0 None); ERestart;
                           EAdd (mkA 3 None (ty 1) (ky 0) 0 None)]
  = [10; 11; 12].
Proof. vm_compute. reflexivity. Qed.
Example C08_api_nonroot_example :
  api_filter (mkQ (Some 1000%N) [] [] [bs "warning,bogus"] [] None) = ApiFilter (mkF (Some 1000%N) [ty 1] [] None).
Proof. vm_compute. reflexivity. Qed.
Example C08_api_nonroot_forbidden_example :
  api_filter (mkQ (Some 1000%N) [bs "1000"] [] [] [] None) = ApiForbidden.
Proof. vm_compute. reflexivity. Qed.
Example C08_waiter_history :
  (* a call blocks (nothing matches), an unrelated notice does not wake it, a suppressed repeat does not, a matching
     notice makes it return; a second call blocks and times out; a restart drops blocked calls *)
  let f := mkF (Some 1000%N) [ty 1] [] (Some 10) in
  let evs := [WAdd (mkA 10 (Some 1000%N) (ty 1) (ky 0) 0 None);            (* stamped 10: not after 10 *)
              WWait 1%N f;
              WAdd (mkA 10 (Some 1001%N) (ty 1) (ky 0) 0 None);            (* other user *)
              WAdd (mkA 10 (Some 1000%N) (ty 1) (ky 0) 100 None);          (* repeat suppressed *)
              WAdd (mkA 5 (Some 1000%N) (ty 1) (ky 0) 0 None);             (* repeated, stamped 13 *)
              WWait 2%N (mkF None [ty 0] [] None); WTimeout 2%N;
              WWait 3%N (mkF None [ty 0] [] None); WRestart] in
  map (fun x => match x with WReturned id _ l => (id, map n_lr l) | WCancelled id => (id, []) end) (fst (wrun empty_wsys evs))
    = [(1%N, [13]); (2%N, [])] /\
  w_blocked (snd (wrun empty_wsys evs)) = [].
Proof. vm_compute. auto. Qed.
