(* C14 — no two in-progress changes ever operate on the same snap.
   This file holds the property theorems only: statement, `exact <lemma>` or a few lines from the lemmas of
   proofs/ConflictProofs.v, Print Assumptions.
   Model: models/Conflict.v (overlord/snapstate/conflict.go function by function); kinds: gen/ConflictKinds.v (the case
   literals and clause shapes of checkChangeConflictExclusiveKinds and isIrrelevantChange, regenerated on every run).
   A history is any list of Request / Progress operations from the empty state. `counts c`: the change is in progress
   and its kind is not exempt (pre-download, become-operational). `req_wf`: the tasks of a request only affect snaps
   that the request had checked. *)
From Coq Require Import List NArith Bool String.
Import ListNotations.
Require Import V.lib.Bytes V.gen.ConflictKinds V.models.Conflict V.proofs.ConflictProofs.
Open Scope list_scope.
Open Scope N_scope.

(* the kinds named by the property are the ones in the code *)
Theorem C14_kinds :
  irrelevant_kinds = [bs "pre-download"; bs "become-operational"] /\
  excl_always = [bs "transition-ubuntu-core"; bs "transition-to-snapd-snap"] /\
  excl_ignorable = [bs "remodel"; bs "create-recovery-system"; bs "remove-recovery-system"] /\
  excl_downgrade = [bs "revert-snap"; bs "refresh-snap"].
Proof. repeat split; reflexivity. Qed.
Print Assumptions C14_kinds.

(* over every history: any two in-progress, non-exempt changes having a task that affects the same snap are the same
   change (and change ids are unique) *)
Theorem C14_one_change_per_snap : forall ops : list op, forallb req_wf ops = true ->
  let st := run [] ops in
  forall c1 c2 x, In c1 st -> In c2 st -> counts c1 = true -> counts c2 = true ->
    touches c1 [x] = true -> touches c2 [x] = true -> c_id c1 = c_id c2.
Proof. intros ops Hwf. exact (proj2 (run_inv ops [] Hwf inv_nil)). Qed.
Print Assumptions C14_one_change_per_snap.

Theorem C14_change_ids_unique : forall ops : list op, forallb req_wf ops = true -> NoDup (map c_id (run [] ops)).
Proof. intros ops Hwf. exact (proj1 (run_inv ops [] Hwf inv_nil)). Qed.
Print Assumptions C14_change_ids_unique.

(* requesting an operation on a snap that another unfinished, non-exempt change is operating on is rejected ... *)
Theorem C14_busy_snap_rejected : forall (st : state) (c : change) (x : N) kind dg re ignore same snaps tasks,
  In c st -> counts c = true -> is_ignored c ignore = false -> touches c [x] = true -> In x snaps ->
  rejected st (Request kind dg re ignore same snaps tasks) = true.
Proof.
  intros st c x kind dg re ignore same snaps tasks Hin Hcnt Hig Ht Hx.
  apply rejected_iff. right; left. exists c, x. rewrite relevant_counts, Hcnt, Hig. auto.
Qed.
Print Assumptions C14_busy_snap_rejected.

(* ... and a rejected request creates nothing *)
Theorem C14_rejected_creates_nothing : forall (st : state) (o : op), rejected st o = true -> step st o = st.
Proof. intros st o H. destruct o; try discriminate H. unfold step. rewrite H. reflexivity. Qed.
Print Assumptions C14_rejected_creates_nothing.

(* while an exclusive change (remodel, core transitions, recovery-system creation/removal, snapd downgrade) is in
   progress no other change can be started; the only exemption is a request coming from that very change, and not
   even that for the two core transitions *)
Theorem C14_exclusive_blocks_everything : forall (st : state) (c : change) kind dg re ignore same snaps tasks,
  In c st -> c_ready c = false -> is_exclusive c = true ->
  (is_ignored c ignore = false \/ kind_in (c_kind c) excl_always = true) ->
  rejected st (Request kind dg re ignore same snaps tasks) = true.
Proof.
  intros st c kind dg re ignore same snaps tasks Hin Hr Hex Hig.
  apply rejected_iff. left. exists c. split; [exact Hin | exact (excl_hit_exclusive false ignore c Hr Hex Hig)].
Qed.
Print Assumptions C14_exclusive_blocks_everything.

(* vice versa: a request that must run exclusively (remodel, recovery-system creation/removal, snapd downgrade) is
   rejected while ANY other change is in progress. The proof uses nondowngrade_blocks_new_exclusive = true, which the
   translator reads off the refresh-snap / revert-snap clause on every run. *)
Theorem C14_new_exclusive_refused : forall (st : state) (c : change) kind dg ignore same snaps tasks,
  In c st -> c_ready c = false -> is_ignored c ignore = false ->
  rejected st (Request kind dg true ignore same snaps tasks) = true.
Proof.
  intros st c kind dg ignore same snaps tasks Hin Hr Hig. apply rejected_iff. right; right; right.
  split; [reflexivity|]. exists c. split; [exact Hin | exact (excl_hit_new_exclusive ignore c Hr Hig)].
Qed.
Print Assumptions C14_new_exclusive_refused.

(* regression witness of the repaired defect (fixed: line in KNOWN_FINDINGS, /repo commit ed8df80): with an ordinary
   refresh-snap change in progress a remodel request on another snap was accepted before that commit; a request that
   need not run exclusively is accepted *)
Example C14_remodel_during_refresh_rejected :
  rejected refresh_in_progress (Request (bs "remodel") false true None true [2] [mkTask [2] false]) = true /\
  rejected refresh_in_progress (Request (bs "remodel") false false None true [2] [mkTask [2] false]) = false.
Proof. split; reflexivity. Qed.

(* the conflict matrix as an equivalence. First the two tables of in-progress changes that stop a request whatever
   snaps it names (new_excl = false: every request; new_excl = true: a request that must itself run exclusively) ... *)
Theorem C14_exclusive_table : forall (new_excl : bool) (ignore : option N) (c : change),
  excl_hit new_excl ignore c =
  negb (c_ready c) &&
  (kind_in (c_kind c) excl_always
   || (kind_in (c_kind c) excl_ignorable && negb (is_ignored c ignore))
   || (kind_in (c_kind c) excl_downgrade && negb (is_ignored c ignore) && (c_dg c || new_excl))
   || (negb (kind_in (c_kind c) excl_always) && negb (kind_in (c_kind c) excl_ignorable)
       && negb (kind_in (c_kind c) excl_downgrade) && new_excl)).
Proof. exact excl_hit_table. Qed.
Print Assumptions C14_exclusive_table.

(* ... then: for every state and every request, the request is refused IF AND ONLY IF an exclusive change is in
   progress, or an in-progress non-exempt change other than the requesting one has a task affecting one of the snaps
   the request names, or the snap record is stale, or the request must run exclusively and some other change is in
   progress. (After a refusal the state is unchanged: C14_rejected_creates_nothing.) *)
Theorem C14_refused_iff : forall (st : state) kind dg re ignore same snaps tasks,
  rejected st (Request kind dg re ignore same snaps tasks) = true <->
  (exists c, In c st /\ excl_hit false ignore c = true) \/
  (exists c x, In c st /\ relevant ignore c = true /\ In x snaps /\ touches c [x] = true) \/
  same = false \/
  (re = true /\ exists c, In c st /\ excl_hit true ignore c = true).
Proof. exact rejected_iff. Qed.
Print Assumptions C14_refused_iff.

Theorem C14_accepted_creates : forall (st : state) kind dg re same snaps tasks,
  rejected st (Request kind dg re None same snaps tasks) = false ->
  step st (Request kind dg re None same snaps tasks) = st ++ [mkChange (next_id st) kind dg tasks].
Proof. intros st kind dg re same snaps tasks H. unfold step. rewrite H. reflexivity. Qed.
Print Assumptions C14_accepted_creates.

Example C14_matrix_example :
  rejected matrix_state (Request (bs "remove-snap") false false None true [1; 2] [mkTask [1] false]) = true /\
  rejected matrix_state (Request (bs "remove-snap") false false None true [2] [mkTask [2] false]) = false /\
  rejected matrix_state (Request (bs "remodel") false true None true [2] [mkTask [2] false]) = true /\
  rejected (step matrix_state (Progress 1 0 true)) (Request (bs "remove-snap") false false None true [1] [mkTask [1] false]) = false.
Proof. repeat apply conj; reflexivity. Qed.

(* an operation whose snap record changed while the request was being prepared is rejected *)
Theorem C14_stale_snapstate_rejected : forall (st : state) kind dg re ignore snaps tasks,
  rejected st (Request kind dg re ignore false snaps tasks) = true.
Proof. intros. apply rejected_iff. right; right; left. reflexivity. Qed.
Print Assumptions C14_stale_snapstate_rejected.

(* non-vacuity: a history with a rejected request, two accepted ones, a finished change and a request accepted after it *)
Example C14_history_example : forallb req_wf demo_ops = true /\ map c_id (run [] demo_ops) = [1; 2; 3] /\
  map counts (run [] demo_ops) = [false; true; true].
Proof. exact demo. Qed.
