(* C17 -- kernel and base updates can always fall back to the last known-good revision.
   Property theorems only: statement, `exact <lemma>` or a few lines from the lemmas of proofs/BootProofs.v,
   Print Assumptions.
   Model: models/Boot.v (boot/bootstate16.go, bootstate20.go, bootstate20_bloader_kernel_state.go, boot.go,
   initramfs.go function by function; firmware step from gen/GrubKernelStatus.v = grub.cfg).

   Reading the statements. `run20 cf fx g (init20 k0 b0) evs` is the UC20 machine (cf: grub or a not-scriptable
   bootloader, see below) after an ARBITRARY event list evs (operation starts, single writes, resets = power loss /
   failed boot / reboot, snapd restarts, firmware and initramfs steps), started from a fresh installation of kernel k0
   and base b0. A reset is possible between any two writes.
   fx = false is the code as it is, fx = true the repair proposed in notes/C17-fix.diff; g = true means that no power
   loss falls into the window of the recorded finding (between the modeenv write and EnableKernel of a kernel-switching
   undo). Every theorem holds for (fx, g) = (false, true): the code as it is, outside that window, and for
   (true, false): the repaired code with a power loss anywhere. For (false, false) the dead end is reachable
   (C17_dead_end_refuted, confirmed on the real code by the driver on every run; KNOWN_FINDINGS key
   undo-kernel-switch-crash-after-modeenv).
   Ghost state: gk/gb = revisions that booted and that snapd then began to mark successful (initially k0 / b0);
   ak/ab = the revisions under trial: replaced (not extended) by each completed setNext -- emptied by a completed
   request for the current revision, a completed undo or a completed mark-successful; while the writes of a request
   are in flight (or were cut by a power loss) the old and the new candidate are both in the set. *)
From Coq Require Import List NArith Bool.
Import ListNotations.
Require Import V.models.Boot V.proofs.BootProofs.
Open Scope N_scope.

(* UC20 (cf = Grub: kernel.efi / try-kernel.efi links + grub.cfg; cf = EnvNS: snap_kernel / snap_try_kernel in the
   bootloader environment, firmware that cannot run scripts, status advanced by the initramfs -- piboot).
   Whatever kernel and base the initramfs mounts, at the moment it mounts them, is known-good or THE revision under
   trial; and the kernel snap it mounts is the image the firmware started. *)
Theorem C17_boots_good_or_try : forall cf fx g k0 b0 evs i k b, fx || g = true ->
  let m := run20 cf fx g (init20 k0 b0) evs in
  ph m = PhFw i -> ph (step20 cf fx g m EInitramfs) = PhRun k b ->
  k = i /\ (In k (gk m) \/ In k (ak m)) /\ (In b (gb m) \/ In b (ab m)).
Proof. intros * Hg m Hp. apply (proj2 (initramfs_ok cf fx g m i (run_MI _ _ _ _ _ _ Hg) Hp)). Qed.
Print Assumptions C17_boots_good_or_try.

(* UC20: in every reachable state, also between two writes, kernel.efi and the modeenv base name known-good revisions *)
Theorem C17_fallback_known_good : forall cf fx g k0 b0 evs, fx || g = true ->
  let m := run20 cf fx g (init20 k0 b0) evs in In (kl (st m)) (gk m) /\ In (m_base (me (st m))) (gb m).
Proof. intros * Hg m. destruct (MI_safe g m (run_MI _ _ _ _ _ _ Hg)) as [(? & ? & _) _]. auto. Qed.
Print Assumptions C17_fallback_known_good.

(* UC20: the good revision is never removed from the boot environment while it is the fall-back: the fall-back kernel
   is known-good AND still listed in current_kernels (so the initramfs accepts it), the fall-back base is known-good *)
Theorem C17_fallback_never_removed : forall cf fx g k0 b0 evs, fx || g = true ->
  let m := run20 cf fx g (init20 k0 b0) evs in
  g && in_window m = false ->
  In (kl (st m)) (gk m) /\ In (kl (st m)) (m_ck (me (st m))) /\ In (m_base (me (st m))) (gb m).
Proof.
  intros * Hg m Hw. destruct (MI_safe g m (run_MI cf fx g k0 b0 evs Hg)) as [(? & ? & _) HT].
  pose proof (HT Hw). auto.
Qed.
Print Assumptions C17_fallback_never_removed.

(* UC20: a revision becomes known-good only when snapd, running on it, starts MarkBootSuccessful *)
Theorem C17_good_only_after_mark : forall cf fx g m e,
  (gk (step20 cf fx g m e) = gk m /\ gb (step20 cf fx g m e) = gb m) \/
  (exists k b, ph m = PhRun k b /\ e = EOp Mark /\
               gk (step20 cf fx g m e) = k :: gk m /\ gb (step20 cf fx g m e) = b :: gb m).
Proof. exact known_good_only_by_mark. Qed.
Print Assumptions C17_good_only_after_mark.

(* UC20: the boot never stops (no untrusted kernel without fallback, grub never stuck on a missing try kernel) *)
Theorem C17_never_dead_end : forall cf fx g k0 b0 evs, fx || g = true ->
  ph (run20 cf fx g (init20 k0 b0) evs) <> PhDead.
Proof. intros * Hg Hp. pose proof (run_MI cf fx g k0 b0 evs Hg) as HM. unfold MI in HM. rewrite Hp in HM. exact HM. Qed.
Print Assumptions C17_never_dead_end.

(* ... and without the guard the full statement is false of the code as it is (finding) *)
Theorem C17_dead_end_refuted : exists evs, ph (run20 Grub false false (init20 1 1) evs) = PhDead.
Proof. exists dead_end_witness. vm_compute. reflexivity. Qed.
Print Assumptions C17_dead_end_refuted.

(* UC20: a failed or interrupted kernel trial (kernel_status still trying at the reset) is followed by a boot of the
   fall-back kernel, and that kernel is known-good (whatever the tryboot flag) *)
Theorem C17_failed_kernel_trial_returns : forall cf fx g k0 b0 evs, fx || g = true ->
  let m := run20 cf fx g (init20 k0 b0) evs in
  g && in_window m = false -> ks (st m) = STrying ->
  forall tb, exists b, ph (run20 cf fx g m [EReset; EFirmware tb; EInitramfs]) = PhRun (kl (st m)) b /\ In (kl (st m)) (gk m).
Proof.
  intros * Hg m Hw Hk tb. destruct (MI_safe g m (run_MI cf fx g k0 b0 evs Hg)) as [HI HT].
  destruct (reset_boots_fallback cf fx g m tb (HT Hw) Hw) as [b Hb]; [rewrite Hk; discriminate |].
  exists b. split; [exact Hb | apply HI].
Qed.
Print Assumptions C17_failed_kernel_trial_returns.

(* UC20: bounded fallback -- from every reachable state, a reset is followed by a mount within two firmware rounds
   (a missing or untrusted try kernel costs one extra round; no try loop, no dead end). The tryboot flag is one-shot:
   only the first firmware run can have it. *)
Theorem C17_boot_terminates : forall cf fx g k0 b0 evs, fx || g = true ->
  let m := run20 cf fx g (init20 k0 b0) evs in
  g && in_window m = false ->
  forall tb, exists k b,
    ph (run20 cf fx g m [EReset; EFirmware tb; EInitramfs; EFirmware false; EInitramfs]) = PhRun k b.
Proof. intros * Hg m. eapply boot_terminates; eauto. exists evs; reflexivity. Qed.
Print Assumptions C17_boot_terminates.

(* UC20: a failed base trial (base_status still trying when the initramfs runs) mounts the modeenv base, which is
   known-good, and clears the status *)
Theorem C17_failed_base_trial_returns : forall cf fx g k0 b0 evs, fx || g = true ->
  let m := run20 cf fx g (init20 k0 b0) evs in
  m_bst (me (st m)) = STrying ->
  snd (initramfs_base (me (st m))) = m_base (me (st m)) /\ m_bst (fst (initramfs_base (me (st m)))) = SDef /\
  In (m_base (me (st m))) (gb m).
Proof.
  intros * Hg m Hb. unfold initramfs_base. rewrite Hb. repeat split. apply (MI_safe g m (run_MI _ _ _ _ _ _ Hg)).
Qed.
Print Assumptions C17_failed_base_trial_returns.

(* UC16/18, kernel AND core. The boot script lives in the gadget snap, outside this repository: it is a parameter fw,
   and the theorems hold for EVERY script that satisfies the contract fw16_ok (BootProofs.v) read off the protocol
   comment above boot.MarkBootSuccessful: it only rewrites snap_mode; try -> trying and boots snap_try_* where set;
   trying -> "" and boots snap_*; otherwise boots snap_*. firmware16 (used for the correspondence) satisfies it.
   Every operation is one SetBootVars call, so a power loss falls before or after it (E16Reset at any point). *)
Theorem C17_uc16_boots_good_or_try : forall fw k0 c0 evs k c, fw16_ok fw ->
  let m := run16 fw (init16 k0 c0) evs in
  ph16 m = P16Off -> ph16 (step16 fw m E16Firmware) = P16Run k c ->
  (In k (gk16 m) \/ In k (ak16 m)) /\ (In c (gc16 m) \/ In c (ac16 m)).
Proof. intros * Hfw m Hp. apply (proj2 (firmware16_ok fw Hfw m (run_I16 _ _ _ _ Hfw) Hp)). Qed.
Print Assumptions C17_uc16_boots_good_or_try.

(* UC16/18: snap_kernel / snap_core (the fall-back; never empty) always name known-good revisions: the good one is
   never removed from the boot environment while it is the fall-back *)
Theorem C17_uc16_fallback_known_good : forall fw k0 c0 evs, fw16_ok fw ->
  let m := run16 fw (init16 k0 c0) evs in In (sk (s16 m)) (gk16 m) /\ In (sc (s16 m)) (gc16 m).
Proof. intros * Hfw m. split; apply (run_I16 fw k0 c0 evs Hfw). Qed.
Print Assumptions C17_uc16_fallback_known_good.

Theorem C17_uc16_failed_trial_returns : forall fw k0 c0 evs, fw16_ok fw ->
  let m := run16 fw (init16 k0 c0) evs in mode (s16 m) = STrying ->
  ph16 (run16 fw m [E16Reset; E16Firmware]) = P16Run (sk (s16 m)) (sc (s16 m)) /\
  In (sk (s16 m)) (gk16 m) /\ In (sc (s16 m)) (gc16 m).
Proof.
  intros * Hfw m Hm. split; [exact (failed_trial16_boots_fallback fw m Hfw Hm) | split; apply (run_I16 fw k0 c0 evs Hfw)].
Qed.
Print Assumptions C17_uc16_failed_trial_returns.

Theorem C17_uc16_good_only_after_mark : forall fw m e,
  (gk16 (step16 fw m e) = gk16 m /\ gc16 (step16 fw m e) = gc16 m) \/
  (exists k c, ph16 m = P16Run k c /\ e = E16Op Mark16 /\
               gk16 (step16 fw m e) = k :: gk16 m /\ gc16 (step16 fw m e) = c :: gc16 m).
Proof. exact known_good16_only_by_mark. Qed.
Print Assumptions C17_uc16_good_only_after_mark.

(* the contract is satisfiable: the script used for the correspondence meets it *)
Theorem C17_uc16_script_contract_met : fw16_ok firmware16.
Proof. intros s; unfold firmware16; destruct (mode s) eqn:E; simpl; rewrite ?E; auto 10. Qed.
Print Assumptions C17_uc16_script_contract_met.

(* not scriptable bootloaders: boot/initramfs.go updateNotScriptableBootloaderStatus on its complete domain. The status
   advances try -> trying only when the firmware really used the try configuration (kernel_status=trying on the command
   line); anything else ends the trial. The whole configuration (cf = EnvNS) is covered by the UC20 theorems above; the
   Raspberry Pi firmware itself is not in the repository and is modelled (firmware_ns in models/Boot.v). *)
Theorem C17_not_scriptable_status : forall conf cl,
  not_scriptable_update conf cl =
    match conf with
    | SDef => None
    | STry => Some (match cl with STrying => STrying | _ => SDef end)
    | _ => Some SDef
    end.
Proof. destruct conf, cl; reflexivity. Qed.
Print Assumptions C17_not_scriptable_status.

(* non-vacuity: both guard instances exist; trial boots are reachable in every configuration; a failed trial state
   is reachable; the repaired code survives the window; cancelled trials leave the set under trial *)
Example guard_code_as_is : false || true = true. Proof. reflexivity. Qed.
Example guard_repaired : true || false = true. Proof. reflexivity. Qed.
Definition try_kernel_2 : list ev20 :=
  [EFirmware false; EInitramfs; EOp (SetK 2 false); EWrite; EWrite; EWrite; EReset; EFirmware true; EInitramfs].
Example trial_boot_reachable_grub : ph (run20 Grub false true (init20 1 1) try_kernel_2) = PhRun 2 1.
Proof. vm_compute. reflexivity. Qed.
Example trial_boot_reachable_ns : ph (run20 EnvNS false true (init20 1 1) try_kernel_2) = PhRun 2 1.
Proof. vm_compute. reflexivity. Qed.
Example failed_trial_state_reachable_grub : ks (st (run20 Grub false true (init20 1 1) try_kernel_2)) = STrying.
Proof. vm_compute. reflexivity. Qed.
Example failed_trial_state_reachable_ns : ks (st (run20 EnvNS false true (init20 1 1) try_kernel_2)) = STrying.
Proof. vm_compute. reflexivity. Qed.
Example ns_power_loss_instead_of_tryboot_ends_the_trial :   (* no tryboot flag: the try kernel is not started *)
  let m := run20 EnvNS false true (init20 1 1)
             [EFirmware false; EInitramfs; EOp (SetK 2 false); EWrite; EWrite; EReset; EFirmware false; EInitramfs] in
  ph m = PhRun 1 1 /\ ks (st m) = SDef.
Proof. vm_compute. auto. Qed.
Example base_trial_reachable :
  ph (run20 Grub false true (init20 1 1)
        [EFirmware false; EInitramfs; EOp (SetB 2 false); EWrite; EReset; EFirmware false; EInitramfs]) = PhRun 1 2.
Proof. vm_compute. reflexivity. Qed.
Example ns_dead_end_also_reachable_without_guard : ph (run20 EnvNS false false (init20 1 1) dead_end_witness) = PhDead.
Proof. vm_compute. reflexivity. Qed.
Example repaired_undo_survives_the_window_grub : ph (run20 Grub true false (init20 1 1) dead_end_witness) = PhRun 2 1.
Proof. vm_compute. reflexivity. Qed.
Example repaired_undo_survives_the_window_ns : ph (run20 EnvNS true false (init20 1 1) dead_end_witness) = PhRun 2 1.
Proof. vm_compute. reflexivity. Qed.
Example cancelled_trial_is_not_under_trial :
  let m := run20 Grub false true (init20 1 1)
             [EFirmware false; EInitramfs; EOp (SetB 2 false); EWrite; EOp (SetB 1 false); EWrite] in
  ab m = [] /\ m_bst (me (st m)) = SDef.
Proof. vm_compute. auto. Qed.
Example single_revision_under_trial :
  ak (run20 Grub false true (init20 1 1)
        [EFirmware false; EInitramfs; EOp (SetK 2 false); EWrite; EWrite; EWrite; EOp (SetK 3 false); EWrite; EWrite; EWrite]) = [3].
Proof. vm_compute. reflexivity. Qed.
(* UC16: a trial boot and a failed trial are reachable with the correspondence script *)
Example uc16_trial_boot :
  ph16 (run16 firmware16 (init16 1 1) [E16Firmware; E16Op (Set16 true 2 false); E16Reset; E16Firmware]) = P16Run 2 1.
Proof. vm_compute. reflexivity. Qed.
Example uc16_failed_trial_state :
  mode (s16 (run16 firmware16 (init16 1 1) [E16Firmware; E16Op (Set16 false 2 false); E16Reset; E16Firmware])) = STrying.
Proof. vm_compute. reflexivity. Qed.
(* snapd restarted WITHOUT reboot between two writes (event ERestart: the rest of the write list is dropped, the
   operations are re-entered on the partial state): every theorem above quantifies over ALL event lists, so it covers
   histories containing ERestart. Excluded sub-class (the event is then ignored, see Boot.restart_ok): a restart inside
   a kernel setNext that was itself started while kernel_status was still trying, which snapd's ordering
   (MarkBootSuccessful first after every start) rules out; and, for the code as it is, a restart in the finding window. *)
Example restart_then_rerun_completes :
  let m := run20 Grub false true (init20 1 1)
             [EFirmware false; EInitramfs; EOp (SetK 2 false); EWrite; EWrite; ERestart;
              EOp Mark; EWrite; EWrite; EOp (SetK 2 false); EWrite; EWrite; EWrite; EReset; EFirmware true; EInitramfs] in
  ph m = PhRun 2 1.
Proof. vm_compute. reflexivity. Qed.
Example restart_drops_the_pending_writes :
  let m := run20 EnvNS false true (init20 1 1) [EFirmware false; EInitramfs; EOp (SetK 2 false); EWrite; ERestart] in
  pend m = [] /\ ph m = PhRun 1 1 /\ m_ck (me (st m)) = [1; 2] /\ tkl (st m) = None.
Proof. vm_compute. auto. Qed.
