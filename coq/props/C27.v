(* C27 — generated desktop files cannot launch anything but the snap's own apps.
   This file holds the property theorems only. Model: models/Desktop.v (wrappers/desktop.go function by function; the
   alternatives of isValidDesktopFileLine come from gen/DesktopRegexes.v, regenerated on every run). All statements are
   for EVERY input: any snap description i, any installed file name df, any list of input lines. *)
From Coq Require Import List NArith Bool.
Import ListNotations.
Require Import V.lib.Bytes V.gen.DesktopRegexes V.models.Desktop V.proofs.DesktopProofs.
Open Scope N_scope.

(* every line of the sanitized file is the inserted X-SnapInstanceName line, or the ${SNAP}-substitution of a line b that
   the loop body produced from an ALLOWLISTED input line (isValidDesktopFileLine accepted it): either that input line
   itself (not an Exec= line), or an Exec= line of the fixed form below, or a rewritten Icon= line *)
Theorem C27_output_lines : forall (i : dinfo) (df : bytes) (lines : list bytes) (l : bytes),
  In l (sanitize_lines i df lines) ->
  l = xsnap_line i \/
  exists line b, In line lines /\ process_line i df line = Some b /\ l = subst_snap (d_mount i) b /\
    valid_line line = true /\
    ((b = line /\ has_prefix lit_exec line = false) \/
     (has_prefix lit_exec line = true /\ exec_form i df b) \/
     (has_prefix lit_exec line = false /\ has_prefix lit_icon line = true /\ has_prefix lit_icon b = true)).
Proof.
  intros i df lines l H. apply in_sanitize_lines in H as [-> | (line & b & Hin & Hp & ->)]; [left; reflexivity | right].
  exists line, b. destruct (process_line_class i df line b Hp). auto.
Qed.
Print Assumptions C27_output_lines.

(* and it is allowlisted AS WRITTEN: every line of the sanitized file — after the Exec/Icon rewriting and after the ${SNAP}
   substitution — is accepted by the allowlist expression of isValidDesktopFileLine (blank, comment, one of the three
   group headers, one of the allowlisted keys incl. the localized forms), or is the inserted X-SnapInstanceName line.
   Hypotheses: only that the strings are byte strings (every element <= 255), which holds for anything read from a file. *)
Theorem C27_output_lines_allowlisted : forall (i : dinfo) (df : bytes) (lines : list bytes) (l : bytes),
  info_ok i = true -> bytes_ok df = true -> Forall (fun x => bytes_ok x = true) lines ->
  In l (sanitize_lines i df lines) -> valid_line l = true \/ l = xsnap_line i.
Proof. exact output_lines_allowlisted. Qed.
Print Assumptions C27_output_lines_allowlisted.

(* every Exec= line the loop body lets through is  Exec=env BAMF_DESKTOP_FILE_HINT=<df> <wrapper of one of the snap's apps>
   followed by nothing or by a space and arguments *)
Theorem C27_exec_form : forall (i : dinfo) (df line b : bytes),
  process_line i df line = Some b -> has_prefix lit_exec b = true ->
  exists app rest, In app (d_apps i) /\ b = lit_exec ++ exec_env df ++ wrapper i app ++ rest /\
                   (rest = [] \/ exists r', rest = 32 :: r').
Proof. exact process_line_exec. Qed.
Print Assumptions C27_exec_form.

(* as written to the installed file (after the ${SNAP} substitution) the line still starts with Exec=env and, as launched
   per the Desktop Entry specification (arguments split at spaces; a double-quoted argument is one word in which a
   backslash makes the next byte literal; %% is a literal percent; env skips NAME=VALUE words), the program that runs is
   the wrapper of one of the snap's apps — FOR EVERY installed desktop file name df (any bytes: spaces, quotes,
   backslashes, $, %, ${SNAP}, ...). This is the statement that was refuted before the repair 0f3f7c0 (quoteExecArg).
   Remaining guards, all on paths snapd itself builds from validated names: the wrapper paths contain no space, =, $,
   double quote or % (dirs.SnapBinariesDir + validated snap/instance/app names), and the mount directory is non-empty
   and contains no double quote, backslash or $ (it is substituted for ${SNAP}, possibly inside the quoted argument). *)
Theorem C27_exec_launches_wrapper : forall (i : dinfo) (df b : bytes),
  exec_form i df b ->
  mount_ok (d_mount i) = true ->
  (forall app, In app (d_apps i) -> forallb plain (wrapper i app) = true) ->
  exists app, In app (d_apps i) /\
    has_prefix (lit_exec ++ lit_env) (subst_snap (d_mount i) b) = true /\
    launched (subst_snap (d_mount i) b) = Some (wrapper i app).
Proof. exact exec_output_launches. Qed.
Print Assumptions C27_exec_launches_wrapper.

(* desktop files whose name contains a control character (a line break would add lines to the generated file) are
   skipped by deriveDesktopFilesContent and never reach the sanitizer *)
Theorem C27_control_names_skipped : forall (i : dinfo) (dir file content : bytes),
  has_control file = true -> derive_one i dir file content = None.
Proof. intros i dir file content H. unfold derive_one. rewrite H. destruct (has_suffix lit_dot_desktop file); reflexivity. Qed.
Print Assumptions C27_control_names_skipped.

(* regression examples for the repaired finding: the name `a sh -c id x.desktop` is one quoted word after env and the
   wrapper is launched; so is a name made of quotes, backslash, $, %, backquotes and ${SNAP} *)
Example C27_exec_filename_quoted :
  launched (hd [] (sanitize_lines bad_info bad_df [bad_content])) = Some (wrapper bad_info (hd [] (d_apps bad_info))).
Proof. vm_compute. reflexivity. Qed.

(* an Icon= line naming a path is kept only, unchanged, when the path starts with ${SNAP}/ and has no empty, . or ..
   segment (so after the substitution it lies inside the snap's mount directory) *)
Theorem C27_icon_inside_snap : forall (i : dinfo) (df line b : bytes),
  process_line i df line = Some b -> has_prefix lit_icon line = true ->
  existsb (N.eqb 47) (after_eq line) = true ->
  b = line /\ has_prefix lit_snapdir (after_eq line) = true /\ clean_same (after_eq line) = true.
Proof. exact process_line_icon. Qed.
Print Assumptions C27_icon_inside_snap.

(* every [Desktop Entry] line of the output is immediately followed by X-SnapInstanceName=<instance name> *)
Theorem C27_tagged : forall (i : dinfo) (df : bytes) (lines : list bytes),
  tagged_ok i (sanitize_lines i df lines) = true.
Proof. exact tagged. Qed.
Print Assumptions C27_tagged.

(* the allowlist of isValidDesktopFileLine in the source (regenerated) is the specification copy spec_line_alts: blank lines,
   comments, [Desktop Entry] / [Desktop Action x] / [x Shortcut Group] headers and the 22 keys Type Version Name GenericName
   NoDisplay Comment Icon Hidden OnlyShowIn NotShowIn Exec Terminal Actions MimeType Categories Keywords StartupNotify
   StartupWMClass PrefersNonDefaultGPU SingleMainWindow X-Ayatana-Desktop-Shortcuts TargetEnvironment (Name, GenericName,
   Comment, Keywords with an optional [locale]) *)
Theorem C27_allowlist_pinned : DesktopRegexes.valid_line_alts = spec_line_alts.
Proof. reflexivity. Qed.
Print Assumptions C27_allowlist_pinned.

(* non-vacuity: the guards of C27_exec_launches_wrapper hold for an ordinary snap, and an ordinary file is tagged *)
Example C27_example :
  info_ok bad_info = true /\ mount_ok (d_mount bad_info) = true /\ forallb plain (wrapper bad_info (hd [] (d_apps bad_info))) = true /\
  sanitize_lines bad_info [47; 120; 46; 100] [lit_desktop_entry] = [lit_desktop_entry; xsnap_line bad_info].
Proof. vm_compute. repeat split; reflexivity. Qed.
