(* C12 — refresh keeps at most refresh.retain revisions and never discards ones in use.
   Theorems only. Model: models/SnapSeq.v (refreshRetain, doInstall's garbage-collection loops as gc_revs, with the boot
   in-use answer as a function parameter); tied to /repo by the differential run of
   harness/overlay/overlord/snapstate/zz_verif_c10_test.go (the task chain of every refresh, i.e. exactly which revisions get
   clear-snap/discard-snap, is compared with the model's); monitor SnapSeq.monitor12_fail on the observed kept revisions.

   FULL STATEMENT: after any completed refresh |kept'| <= max(retain, |kept|); <= retain for a refresh to a not-yet-kept
   revision unless in-use revisions are kept; revisions after the current one are discarded; neither the new current
   revision nor a revision in use is discarded; retain in 2..20 also as legacy strings, changing between refreshes.
   PROVED: retain resolution; the exact set of garbage-collected revisions for every state, retain value and in-use answer,
   for a refresh to a not-yet-kept revision (C12_gc_new_revision) and to an already kept one, before or after the current
   revision (C12_gc_kept_before / C12_gc_kept_after: the loop that drops the target from the candidates); never the
   target, never the current revision (C12_never_discards_target_or_current), never one in use (they are filtered out of
   the candidates); everything kept after the current revision goes (C12_after_current_discarded); after the whole change
   a refresh to a kept revision keeps at most as many revisions as before and a refresh to a new revision at most retain,
   when none of the candidates is in use (C12_retain_bound).  The bound with in-use revisions among the candidates is not
   stated as a count (the characterisation says exactly which ones stay).  In the driver's runs no revision is in use
   for booting (app snap): the in-use branch is proved, not tied. *)
From Coq Require Import List NArith ZArith Bool.
Import ListNotations.
Require Import V.models.SnapSeq V.proofs.SnapSeqProofs V.proofs.SnapSeqGc V.proofs.SnapSeqDone V.proofs.SnapSeqProofs7.
Open Scope N_scope.

Theorem C12_retain_resolution : forall (r : rsetting) (on_classic : bool),
  retain_of r on_classic = match r with
                           | RUnset => if on_classic then 2%Z else 3%Z
                           | RNum n | RStr n => if (n =? 0)%Z then (if on_classic then 2%Z else 3%Z) else n
                           end.
Proof. intros [|n|n] c; reflexivity. Qed.
Print Assumptions C12_retain_resolution.

Theorem C12_retain_accepted_values : forall (r : rsetting) (c : bool) (n : Z),
  (r = RNum n \/ r = RStr n) -> (2 <= n <= 20)%Z -> retain_of r c = n.
Proof.
  intros r c n [-> | ->] [H _]; unfold retain_of; destruct (n =? 0)%Z eqn:E; auto;
    apply Z.eqb_eq in E; subst; exfalso; apply H; reflexivity.
Qed.
Print Assumptions C12_retain_accepted_values.

Theorem C12_gc_new_revision : forall (s : st) (target : N) (retain : Z) (inuse : N -> bool) (ci : nat),
  ~ In target (seq s) -> last_index (cur s) (seq s) = Some ci ->
  gc_revs s target retain inuse
  = skipn (S ci) (seq s) ++ filter (fun r => negb (inuse r)) (firstn (Z.to_nat (Z.of_nat ci + 2 - retain)) (seq s)).
Proof. exact gc_new_revision. Qed.
Print Assumptions C12_gc_new_revision.

(* refresh to a kept revision t that sits before the current one (index of current = ci): t leaves the candidates *)
Theorem C12_gc_kept_before : forall (s : st) (t : N) (retain : Z) (inuse : N -> bool) (a b : list N) (ci : nat),
  NoDup (seq s) -> seq s = a ++ t :: b -> last_index (cur s) (seq s) = Some ci -> (length a < ci)%nat ->
  gc_revs s t retain inuse
  = skipn (S ci) (seq s) ++ filter (fun r => negb (inuse r)) (firstn (Z.to_nat (Z.of_nat ci - retain)) (a ++ b)).
Proof. exact gc_kept_target_before. Qed.
Print Assumptions C12_gc_kept_before.

(* ... and to one of the revisions after the current one (left over from a revert) *)
Theorem C12_gc_kept_after : forall (s : st) (t : N) (retain : Z) (inuse : N -> bool) (a b : list N) (ci : nat),
  NoDup (seq s) -> seq s = a ++ t :: b -> last_index (cur s) (seq s) = Some ci -> (ci < length a)%nat ->
  gc_revs s t retain inuse
  = filter (fun r => negb (r =? t)) (skipn (S ci) (seq s))
    ++ filter (fun r => negb (inuse r)) (firstn (Z.to_nat (Z.of_nat ci - retain + 1)) (seq s)).
Proof. exact gc_kept_target_after. Qed.
Print Assumptions C12_gc_kept_after.

Theorem C12_never_discards_target_or_current : forall (s : st) (o : op) (retain : Z) (inuse : N -> bool),
  wf s -> okind o = ORefresh -> accepts o s = true -> (2 <= retain)%Z ->
  ~ In (orev o) (gc_revs s (orev o) retain inuse) /\ ~ In (cur s) (gc_revs s (orev o) retain inuse).
Proof. exact gc_keeps. Qed.
Print Assumptions C12_never_discards_target_or_current.

Theorem C12_after_current_discarded : forall (s : st) (t : N) (retain : Z) (inuse : N -> bool) (ci : nat) (x : N),
  NoDup (seq s) -> last_index (cur s) (seq s) = Some ci -> t <> cur s ->
  In x (skipn (S ci) (seq s)) -> x <> t -> In x (gc_revs s t retain inuse).
Proof. intros s t retain inuse ci x ND LI _. exact (after_current_discarded s t retain inuse ci x ND LI). Qed.
Print Assumptions C12_after_current_discarded.

(* the garbage collection does not depend on where the snap file comes from (store download or local file: InstallPath,
   snap try): the discard-snap tasks of the change are the same for both sources, and for a refresh they are exactly
   gc_revs, which has no source input — in particular one slot is reserved for ANY target that is not kept yet *)
Theorem C12_gc_independent_of_source : forall (o : op) (s : st) (retain : Z) (inuse : N -> bool) (b : bool),
  filter is_discard (tasks_for (with_source b o) s retain inuse) = filter is_discard (tasks_for o s retain inuse).
Proof. exact gc_independent_of_source. Qed.
Print Assumptions C12_gc_independent_of_source.

Theorem C12_refresh_discards_are_gc : forall (o : op) (s : st) (retain : Z) (inuse : N -> bool),
  okind o = ORefresh -> installed s = true ->
  map snd (filter is_discard (tasks_for o s retain inuse)) = gc_revs s (orev o) retain inuse.
Proof.
  intros o s retain inuse K INST. rewrite (tasks_for_c10 o s retain inuse) by (right; left; exact K).
  rewrite install_discards. apply gc_of_refresh; [exact K|apply installed_iff, INST].
Qed.
Print Assumptions C12_refresh_discards_are_gc.

(* the kept revisions after a completed refresh are the linked sequence minus the garbage-collected ones; hence the count *)
Theorem C12_retain_bound : forall (s : st) (o : op) (retain : Z) (inuse : N -> bool),
  wf s -> okind o = ORefresh -> accepts o s = true -> (2 <= retain)%Z ->
  let r := run_change o 0 (tasks_for o s retain inuse) s in
  cur r = orev o /\ In (orev o) (seq r) /\
  (In (orev o) (seq s) -> (length (seq r) <= length (seq s))%nat) /\
  (forall ci, ~ In (orev o) (seq s) -> last_index (cur s) (seq s) = Some ci ->
     (forall x, In x (firstn (Z.to_nat (Z.of_nat ci + 2 - retain)) (seq s)) -> inuse x = false) ->
     (Z.of_nat (length (seq r)) <= retain)%Z).
Proof.
  intros s o retain inuse W K A R. cbv zeta.
  destruct (c10_completed s o retain inuse W (or_intror (or_introl K)) A R) as (_ & _ & C & I).
  refine (conj C (conj I (conj _ _))).
  - intros H. apply refresh_kept_bound; auto.
  - intros ci NI LI NU. eapply refresh_new_bound; eauto.
Qed.
Print Assumptions C12_retain_bound.

(* non-vacuity: kept [1,2,3,4], current 4, retain 3, revision 2 in use: a refresh to 5 discards revision 1 only *)
Example C12_example :
  let s := mkSt [1;2;3;4] 4 true 1 false false false false false 0 3 0 [] 0 [] [1;2;3;4] 4 in
  gc_revs s 5 3 (fun r => r =? 2) = [1] /\ gc_revs s 5 3 no_inuse = [1;2] /\ gc_revs s 5 2 no_inuse = [1;2;3].
Proof. vm_compute. repeat split; reflexivity. Qed.
