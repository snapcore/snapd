(* C31 -- a downloaded snap is only kept if its digest matches.
   This file holds the property theorems only: statement, a short derivation from proofs/DownloadProofs.v, Print Assumptions.
   Model: models/Download.v (store/store_download.go: Store.Download and downloadImpl, function by function, as they are
   since commit adc145b; SHA3-384 is ideal, i.e. `digest matches` is equality of contents; the server is an arbitrary
   script of per-request behaviours).
   Every theorem is for EVERY server script, EVERY retry budget, EVERY pre-existing partial file (empty, correct prefix,
   wrong prefix, over-long) and EVERY declared size -- including size 0 (undeclared) and a size that is inconsistent with
   the content: no hypothesis on the size is needed any more. *)
From Coq Require Import List NArith Bool.
Import ListNotations.
Require Import V.lib.Bytes V.models.Download V.proofs.DownloadProofs.
Open Scope N_scope.

(* THE PROPERTY, first half: if Download reports success, the file at the target path is exactly the content whose
   digest was declared -- whatever the server did (dropped connections, ignored or honoured Range, 206 whatever was
   asked, corrupted / truncated / over-long bodies, redirects, 5xx, garbage) and whatever partial file was there *)
Theorem C31_target_only_if_match : forall size expected partial leave attempts script,
  o_err (download size expected partial leave attempts script) = ENone ->
  o_target (download size expected partial leave attempts script) = Some expected.
Proof. exact target_only_if_match. Qed.
Print Assumptions C31_target_only_if_match.

(* THE PROPERTY, second half: on any failure no target exists (it is only ever produced by the final rename), and a
   target implies a nil error *)
Theorem C31_failure_leaves_no_target : forall size expected partial leave attempts script,
  o_target (download size expected partial leave attempts script) = None <->
  o_err (download size expected partial leave attempts script) <> ENone.
Proof. exact (failure_leaves_no_target true). Qed.
Print Assumptions C31_failure_leaves_no_target.

(* loop invariant of downloadImpl (with or without the truncation): whatever the server did, the error is nil only if the
   bytes of the file below the write position are the expected content (the running hash is the hash of file[0..pos));
   pos never passes the end. Preconditions = what Store.Download establishes: the position is inside the file and is 0
   when resume is 0. *)
Theorem C31_hash_tracks_file : forall trunc r script expected f pos resume e f' p' rest,
  (pos <= length f)%nat -> (resume = 0%nat -> pos = 0%nat) ->
  dl_loop trunc r script expected f pos resume = (e, f', p', rest) ->
  (p' <= length f')%nat /\ (e = ENone -> firstn p' f' = expected).
Proof. exact hash_tracks_file. Qed.
Print Assumptions C31_hash_tracks_file.

(* second invariant, specific to the code as it is now: since the file is truncated whenever the write position is
   reset, every write is an append and the write position is always the end of the file *)
Theorem C31_position_is_end_of_file : forall r script expected f resume e f' p' rest,
  dl_loop true r script expected f (length f) resume = (e, f', p', rest) -> p' = length f'.
Proof. exact fixed_appends_only. Qed.
Print Assumptions C31_position_is_end_of_file.

(* an accepted file is the expected content, so it has its size (the declared size whenever that is consistent with the
   digest), and no byte of a pre-existing partial file from another revision / URL survives in it *)
Theorem C31_accepted_size_matches : forall size expected partial leave attempts script t,
  o_err (download size expected partial leave attempts script) = ENone ->
  o_target (download size expected partial leave attempts script) = Some t ->
  t = expected /\ length t = length expected /\ (N.of_nat (length expected) = size -> N.of_nat (length t) = size).
Proof.
  intros size expected partial leave attempts script t He Ht.
  rewrite (target_only_if_match _ _ _ _ _ _ He) in Ht. injection Ht as <-. auto.
Qed.
Print Assumptions C31_accepted_size_matches.

(* DELTAS (downloadAndApplyDelta / applyDeltaImpl + fallback to the full download), for every server script (shared by
   the delta and the full download), every partial file, and EVERY behaviour of xdelta3 (fails, writes any bytes into
   targetPath.partial, exits 0 without output), wrong format, missing base snap: success => the target is exactly the
   expected content; failure => no target *)
Theorem C31_delta_target_only_if_match : forall size expected partial leave attempts d script,
  outcome_ok expected (download_delta size expected partial leave attempts d script).
Proof. exact delta_target_only_if_match. Qed.
Print Assumptions C31_delta_target_only_if_match.

(* DOWNLOAD CACHE, any number of calls on one Store for the same digest, each to its own FREE target path, starting
   from a cache that is empty or holds the right content: every successful call (real download or cache hit) leaves
   exactly the expected content, every failing call leaves no target, and the cache never holds anything else.
   Guards: the target paths are free and nobody modifies the cache file -- a hit verifies nothing (next theorem). *)
Theorem C31_cache_sequence_only_if_match : forall ks cache size expected attempts,
  cache_ok expected cache -> Forall (fun k => k_pre k = None) ks ->
  Forall (outcome_ok expected) (fst (download_seq cache size expected attempts ks)) /\
  cache_ok expected (snd (download_seq cache size expected attempts ks)).
Proof. exact cache_sequence_only_if_match. Qed.
Print Assumptions C31_cache_sequence_only_if_match.

(* why the guards are there (both confirmed on the real code, both outside the property's quantifier): CacheManager.Get
   treats EEXIST from os.Link as a hit, so a file already at the target path is kept and reported as success; and the
   cached file is not hashed again, so a modified cache file is handed out *)
Theorem C31_cache_hit_verifies_nothing_refuted : exists expected garbage size attempts,
  garbage <> expected /\
  (let o := fst (download_c (Some expected) size expected attempts
                   {| k_pre := Some garbage; k_partial := None; k_leave := false; k_script := [] |}) in
   o_err o = ENone /\ o_target o = Some garbage) /\
  (let o := fst (download_c (Some garbage) size expected attempts
                   {| k_pre := None; k_partial := None; k_leave := false; k_script := [] |}) in
   o_err o = ENone /\ o_target o = Some garbage).
Proof.
  exists [97;98;99;100], [88], 4, 3%nat. split; [discriminate|]. split; vm_compute; split; reflexivity.
Qed.
Print Assumptions C31_cache_hit_verifies_nothing_refuted.

(* HISTORICAL, about the code BEFORE commit adc145b (download_before_fix: seek to 0 without truncation when the server
   ignored Range). The full statement was false of it, with a declared and consistent size: finding `stale-tail`,
   repaired in /repo, recorded `fixed:` in KNOWN_FINDINGS. The two inputs stay in the driver as regression cases 7 and 8
   (size 4: 8 wrong bytes then lost connection, then 200 with the right 4 bytes; size 0: over-long partial, 200). *)
Theorem C31_before_fix_refuted : exists size expected partial leave attempts script,
  0 < size /\ N.of_nat (length expected) = size /\
  o_err (download_before_fix size expected partial leave attempts script) = ENone /\
  o_target (download_before_fix size expected partial leave attempts script) <> Some expected.
Proof.
  exists 4, [97;98;99;100], [], false, 3%nat, refute_script. vm_compute. repeat split; discriminate.
Qed.
Print Assumptions C31_before_fix_refuted.

(* ---- non-vacuity: the hypotheses are met by runs that do succeed / fail in interesting ways *)
Definition abcd : bytes := [97;98;99;100].
Definition xs8 : bytes := [88;88;88;88;88;88;88;88].
Definition honest : beh := Resp 200 true abcd Full.

(* resume of a correct prefix after a lost connection and a dropped one: success, target = content *)
Example C31_ex_resume :
  download 4 abcd [97] false 3 [Resp 200 true abcd (EarlyClose 1); Drop; honest]
  = {| o_err := ENone; o_target := Some abcd; o_partial := None |}.
Proof. vm_compute. reflexivity. Qed.

(* wrong partial prefix: the hash error is met once, the file is truncated and the second download succeeds *)
Example C31_ex_hash_retry :
  download 4 abcd [97;88] false 3 [honest; honest] = {| o_err := ENone; o_target := Some abcd; o_partial := None |}.
Proof. vm_compute. reflexivity. Qed.

(* corrupted body twice: hash error, no target; the partial file is kept only if asked for *)
Example C31_ex_hash_fail :
  let bad := Resp 200 true [97;98;99;88] Full in
  download 4 abcd [] true 3 [bad; bad] = {| o_err := EHash; o_target := None; o_partial := Some [97;98;99;88] |} /\
  download 4 abcd [] false 3 [bad; bad] = {| o_err := EHash; o_target := None; o_partial := None |}.
Proof. vm_compute. split; reflexivity. Qed.

(* the two former counterexamples (driver cases 7 and 8): stale tail before the fix, exact content now; the size-0
   corner (undeclared size, over-long partial, server ignoring Range) needs no guard any more *)
Example C31_ex_regression :
  o_target (download_before_fix 4 abcd [] false 3 refute_script) = Some (abcd ++ [88;88;88;88]) /\
  o_target (download 4 abcd [] false 3 refute_script) = Some abcd /\
  o_target (download_before_fix 0 abcd xs8 false 3 [Resp 200 false abcd Full]) = Some (abcd ++ [88;88;88;88]) /\
  o_target (download 0 abcd xs8 false 3 [Resp 200 false abcd Full]) = Some abcd.
Proof. vm_compute. repeat split; reflexivity. Qed.

(* deltas: xdelta3 writes the right content -> accepted without a full download; writes wrong bytes -> removed, full
   download from the rest of the script; delta download fails -> the pre-existing partial file is resumed *)
Example C31_ex_delta :
  let d x := {| d_format_ok := true; d_from_present := true; d_content := [1;2]; d_x := x |} in
  let dsrv := Resp 200 true [1;2] Full in
  download_delta 4 abcd None false 3 (d (XWrite abcd)) [dsrv] = {| o_err := ENone; o_target := Some abcd; o_partial := None |} /\
  download_delta 4 abcd None false 3 (d (XWrite [88;88])) [dsrv; honest] = {| o_err := ENone; o_target := Some abcd; o_partial := None |} /\
  download_delta 4 abcd None false 3 (d (XWrite [88;88])) [dsrv] = {| o_err := EOther; o_target := None; o_partial := None |} /\
  download_delta 4 abcd (Some [97;98]) false 1 (d XFail) [Resp 200 true [9;9] Full; honest]
    = {| o_err := ENone; o_target := Some abcd; o_partial := None |}.
Proof. vm_compute. repeat split; reflexivity. Qed.

(* cache: failure, then success (fills the cache), then a hit that needs no server at all *)
Example C31_ex_cache_sequence :
  let k s := {| k_pre := None; k_partial := None; k_leave := false; k_script := s |} in
  download_seq None 4 abcd 1 [k [Drop]; k [honest]; k []]
  = ([{| o_err := EOther; o_target := None; o_partial := None |};
      {| o_err := ENone; o_target := Some abcd; o_partial := None |};
      {| o_err := ENone; o_target := Some abcd; o_partial := None |}], Some abcd).
Proof. vm_compute. reflexivity. Qed.
