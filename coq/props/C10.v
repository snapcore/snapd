(* C10 — a failed install, refresh or revert leaves the snap exactly as it was.
   This file holds the property theorems; what they rest on is proofs/SnapSeqProofs3.v (failed_c10_undone) and SnapSeqProofs11.v.
   Model: models/SnapSeq.v (doLinkSnap/undoLinkSnap, do/undoUnlinkCurrentSnap, do/undoMountSnap, doDiscardSnap, doInstall's
   task list and garbage collection, snapstate.Set, config.Save/RestoreRevisionConfig), tied to /repo by the differential
   run of harness/overlay/overlord/snapstate/zz_verif_c10_test.go.

   FULL STATEMENT (properties.jsonl): for every history, every install / refresh (to a new or a kept revision) / revert
   and every task of the change as the failure point, the recorded state (installed?, current, ordered kept revisions,
   active, channel, confinement flags, validation flag, cohort, refresh times, Block(), configuration) and the world
   (linked revision, mounted revisions) afterwards equal what they were before.

   The full statement is FALSE of the faithful model and of the real code in two recorded classes (KNOWN_FINDINGS
   keys fail-after-discard, config-from-nothing; witnesses below, each replayed on the real code by the driver on every
   run).  What is proved is the statement guarded by exactly these classes:
     - the failure point comes before the first COMPLETED discard-snap of the change (garbage collection has no undo);
     - cfg_guard: the snap has some configuration, or nothing writes configuration during the change.
   A third class (finding 6, RevertStatus lost by an undone non-revert refresh onto a kept revision) was repaired in /repo
   by commit 5dcb85f; the model follows the repaired code, the theorem has no guard for it, and its history is the
   regression Example C10_revert_status_restored (the same history is swept by the driver on every run).
   `wf` is the invariant of settled states: props/C11.v proves that it holds of the empty state and is preserved by every
   operation of every kind, completed, refused, or failed at any task and undone, for refresh.retain >= 2
   (C11_consistent_invariant).
   Aliases, services, security profiles and data directories are not modelled (tasks of other managers are opaque). *)
From Coq Require Import List NArith ZArith Bool.
Import ListNotations.
Require Import V.models.SnapSeq V.proofs.SnapSeqProofs V.proofs.SnapSeqProofs3 V.proofs.SnapSeqProofs11.
Open Scope N_scope.

(* run_change o (S j) ts s: the first j tasks of ts complete, the next one fails, the j tasks are undone in reverse.
   forget: all fields of the state and the world except the revision-config bookkeeping. *)
Theorem C10_failed_op_restores : forall (s : st) (o : op) (j : nat) (retain : Z) (inuse : N -> bool),
  wf s ->
  (okind o = OInstall \/ okind o = ORefresh \/ okind o = ORevert) ->
  accepts o s = true ->
  forallb (fun t => negb (is_discard t)) (firstn j (tasks_for o s retain inuse)) = true ->
  cfg_guard o s ->
  forget (run_change o (S j) (tasks_for o s retain inuse) s) = forget s.
Proof.
  intros s o j retain inuse W OP AC ND CG.
  pose proof (failed_c10_undone s o j retain inuse W OP AC) as F. cbv zeta in F. rewrite (no_discard_filter _ ND) in F.
  destruct F as (cf & rc & E & G); [intros []..|]. rewrite E, (G CG), minus_nil. reflexivity.
Qed.
Print Assumptions C10_failed_op_restores.

(* what IS restored when discards already ran.  DESIGN's statement: for every refresh and every failure position,
   everything is restored except that the revisions whose discard-snap completed are gone, the order of the remaining ones
   preserved.  Proved for EVERY refresh (to a not-yet-kept or to an already kept revision — the latter is undoLinkSnap's
   countMissingRevs arithmetic with a non-zero count), every retain >= 2, any in-use answer, any failure position j (also
   after the last task): the result is the state before `minus` exactly the revisions of the discard-snap tasks among the
   first j tasks (their kept entries, mounts and RevertStatus marks go; current, active, channel, flags, times,
   configuration, link and the ORDER of the others are as before).  Install and revert changes have no discards.
   EXACTLY what the statement excludes (cfg_guard_at is refined to the failure position j), and why the label stays:
     (1) retain < 2 — outside the values configcore accepts (2..20);
     (2) the snap has NO configuration (cfg s = 0), the configure hook of the operation writes some (ohookcfg o <> 0) AND the
         hook is among the first j tasks, i.e. it COMPLETED before the failure: this is exactly the class `classify` keys as
         config-from-nothing (recorded finding 13, witness C10_config_refuted);
     (3) the snap has no configuration but a revision-config snapshot exists for its current revision.  Believed
         unreachable (every path that empties the configuration also discards the snapshots; monitor11 checks on the real
         code after every settled change that a removed snap leaves no snapshot), but the invariant `no configuration ->
         no snapshots` over histories is NOT proved: this hypothesis is the only reason for `_partial`.
   The other recorded finding, fail-after-discard, is not excluded: it IS the conclusion (D non-empty). *)
Theorem C10_failed_after_gc_partial : forall (s : st) (o : op) (j : nat) (retain : Z) (inuse : N -> bool),
  wf s -> okind o = ORefresh -> accepts o s = true -> (2 <= retain)%Z ->
  (cfg s <> 0 \/
   (rc_get (cur s) (revcfg s) = None /\
    (ohookcfg o = 0 \/
     forallb (fun t => negb (kind_eqb (fst t) KConfigure)) (firstn j (tasks_for o s retain inuse)) = true))) ->
  forget (run_change o (S j) (tasks_for o s retain inuse) s)
  = forget (minus (map snd (filter is_discard (firstn j (tasks_for o s retain inuse)))) s).
Proof. exact failed_after_gc_at. Qed.
Print Assumptions C10_failed_after_gc_partial.

(* the shape that exercises it: kept [1,2,3,4,5], current 5, retain lowered to 2, refresh to the kept revision 4 failing
   after the discards of 1 and 2: kept [3,4,5], the order of the survivors as before *)
Example C10_after_gc_kept_example :
  let s := mkSt [1;2;3;4;5] 5 true 1 false false false false false 0 5 0 [] 7 [] [1;2;3;4;5] 5 in
  let o := mk_refresh 4 0 9 in let ts := tasks_for o s 2 no_inuse in
  accepts o s = true /\ gc_revs s 4 2 no_inuse = [1; 2] /\
  seq (run_change o (S (length ts)) ts s) = [3; 4; 5] /\ cur (run_change o (S (length ts)) ts s) = 5.
Proof. vm_compute. repeat split; reflexivity. Qed.

(* finding 7 (key fail-after-discard): kept [1,2], retain 2, refresh to the new revision 3 failing after the
   discard-snap of revision 1 completed: the refresh is undone but kept = [2], mounted = [2] *)
Theorem C10_discard_refuted : exists (s : st) (o : op) (j : nat) (retain : Z),
  wf s /\ okind o = ORefresh /\ accepts o s = true /\ cfg_guard o s /\
  seq s = [1; 2] /\ seq (run_change o (S j) (tasks_for o s retain no_inuse) s) = [2].
Proof.
  exists s_two, (mk_refresh 3 0 9), 18%nat, 2%Z.
  destruct discard_not_undone as (A & _ & C & _).
  refine (conj wf_s_two (conj eq_refl (conj A (conj _ (conj eq_refl C))))).
  right; right; simpl; repeat split; auto; discriminate.
Qed.
Print Assumptions C10_discard_refuted.

(* finding 13 (key config-from-nothing): a snap with no configuration; the configure hook of a refresh writes some; the
   refresh fails after the hook and is undone: the configuration written by the failed change stays *)
Theorem C10_config_refuted : exists (s : st) (o : op) (retain : Z),
  let ts := tasks_for o s retain no_inuse in
  wf s /\ okind o = ORefresh /\ accepts o s = true /\
  forallb (fun t => negb (is_discard t)) ts = true /\
  cfg s = 0 /\ cfg (run_change o (S (length ts)) ts s) = 7.
Proof.
  exists s_two, (mk_refresh 3 7 9), 3%Z.
  destruct config_from_nothing as (A & B & C & D).
  exact (conj wf_s_two (conj eq_refl (conj A (conj B (conj C D))))).
Qed.
Print Assumptions C10_config_refuted.

(* non-vacuity: the hypotheses of C10_failed_op_restores are satisfiable, also past link-snap *)
Example C10_hypotheses_satisfiable :
  let o := mk_revert 2 true 9 in
  wf s_reverted /\ accepts o s_reverted = true /\ cfg_guard o s_reverted /\
  forallb (fun t => negb (is_discard t)) (firstn 13 (tasks_for o s_reverted 3 no_inuse)) = true /\
  length (tasks_for o s_reverted 3 no_inuse) = 13%nat.
Proof.
  refine (conj wf_s_reverted (conj eq_refl (conj _ (conj eq_refl eq_refl)))).
  left; discriminate.
Qed.

(* regression for finding 6 (repaired by /repo commit 5dcb85f): kept [1,2,3], current 1 after a not-blocking revert from 3
   (Block() = [2]); a refresh to the kept revision 3 that fails right after link-snap is undone with the RevertStatus
   entry of 3 back in place: Block() = [2] again.  (An instance of C10_failed_op_restores.) *)
Example C10_revert_status_restored :
  let o := mk_refresh 3 0 9 in let ts := tasks_for o s_reverted 3 no_inuse in
  accepts o s_reverted = true /\
  forallb (fun t => negb (is_discard t)) (firstn 9 ts) = true /\
  nb (run_change o 10 ts s_reverted) = [3] /\ block s_reverted = [2] /\ block (run_change o 10 ts s_reverted) = [2].
Proof. vm_compute. repeat split; reflexivity. Qed.
