(* C06 — the state file on disk is always a complete old or new checkpoint.
   Property theorems only.
   Model: models/AtomicWrite.v — a file-system model with crash semantics (ASSUMED persistence rules, see the head of
   that file: this is what makes the claim partial) and osutil/io.go's helpers as operation lists whose order comes
   from gen/CommitOrder.v, regenerated from the Go source on every run. *)
From Coq Require Import List NArith Bool.
Import ListNotations.
Require Import V.lib.Bytes V.gen.CommitOrder V.models.AtomicWrite V.proofs.AtomicWriteProofs.
Open Scope N_scope.

(* Atomicity, for EVERY trace of file-system operations and EVERY crash point and crash scenario: if the trace respects
   the discipline `safe_from` (the target name is only ever the destination of renames; every inode renamed onto it has
   been fsynced after its last write; an inode the target may show is never written again), then after a crash at any
   point the target shows its complete old content (or absence) or the complete content of a file that was renamed
   onto it so far. `keep` says which unsynced directory updates reached the disk, `cut` how many unsynced bytes of
   each inode did. *)
Theorem C06_shape_safe : forall (t : name) (s0 : st) (old : option bytes) (tr : list op),
  init_ok t s0 old -> safe_from t s0 tr = true ->
  forall p q, tr = p ++ q ->
  forall (keep : list bool) (cut : ino -> nat), In (crash_read (run s0 p) keep cut t) (old :: versions t s0 p).
Proof. exact shape_safe. Qed.
Print Assumptions C06_shape_safe.

(* Durability: once the target's directory has been fsynced after the last rename onto the target, every crash
   scenario shows exactly the content that rename published. *)
Theorem C06_success_is_durable : forall (t : name) (s0 : st) (old : option bytes) (p q : list op) (a : name) (i : ino),
  init_ok t s0 old ->
  safe_from t s0 (p ++ Rename a t :: q) = true ->
  dlookup (vdir (run s0 p)) a = Some i ->
  existsb (is_rename_onto t) q = false ->
  existsb (is_fsyncdir (fst t)) q = true ->
  forall keep cut, crash_read (run s0 (p ++ Rename a t :: q)) keep cut t = vread (run s0 p) i.
Proof. exact success_is_durable. Qed.
Print Assumptions C06_success_is_durable.

(* The call order the source has NOW (gen/CommitOrder.v: write_calls and commit_calls), with snapdUnsafeIO false, for
   any data chunks, any chown / mtime request, any temp name other than the target, any initial state with the target
   absent or durable: the operations of AtomicWriteChown (= AtomicWriteFile = AtomicWrite = what the overlord state
   backend's Checkpoint calls) respect the discipline; at every crash point the target holds the complete old or the
   complete new content; and once the call has returned, the new content in every crash scenario. *)
Theorem C06_commit_has_safe_shape : forall (t tmp : name) (s0 : st) (old : option bytes) (chunks : list bytes) (ch mt : bool),
  init_ok t s0 old -> name_eqb tmp t = false ->
  let tr := write_ops (mkCfg false ch mt) (next s0) tmp t chunks in
  safe_from t s0 tr = true /\
  versions t s0 tr = [Some (concat chunks)] /\
  (forall p q, tr = p ++ q -> forall keep cut, In (crash_read (run s0 p) keep cut t) [old; Some (concat chunks)]) /\
  (forall keep cut, crash_read (run s0 tr) keep cut t = Some (concat chunks)).
Proof. exact atomic_write_safe. Qed.
Print Assumptions C06_commit_has_safe_shape.

(* AtomicFile.Commit alone, whatever was written to the temp file before *)
Theorem C06_commit_any_content : forall (t tmp : name) (s : st) (i : ino) (nd : inode) (ch mt : bool),
  name_eqb tmp t = false -> dlookup (vdir s) tmp = Some i -> ilookup (inodes s) i = Some nd ->
  let tr := commit_ops (mkCfg false ch mt) i tmp t in
  safe_from t s tr = true /\
  versions t s tr = [Some (synced nd ++ unsynced nd)] /\
  exists p, tr = p ++ [Rename tmp t; FsyncDir (fst t)] /\ dlookup (vdir (run s p)) tmp = Some i /\
            vread (run s p) i = Some (synced nd ++ unsynced nd).
Proof. exact commit_safe_shape. Qed.
Print Assumptions C06_commit_any_content.

(* Every error exit of commit, in the order the source has now: every call of commit may fail (k = number of active
   calls that succeed before one fails; a failed call has no effect, commit returns, the caller's Cancel removes the temp
   file unless the rename already happened). Whichever call fails, the discipline is respected, and nothing is
   published unless the rename itself succeeded — e.g. when the directory cannot be opened for the later dir-sync, the
   temp file is never renamed over the target. *)
Theorem C06_commit_error_exits : forall (t tmp : name) (s : st) (i : ino) (nd : inode) (ch mt : bool) (k : nat),
  name_eqb tmp t = false -> dlookup (vdir s) tmp = Some i -> ilookup (inodes s) i = Some nd ->
  let tr := commit_ops_f (mkCfg false ch mt) i tmp t k in
  safe_from t s tr = true /\
  (versions t s tr = [] \/ versions t s tr = [Some (synced nd ++ unsynced nd)]) /\
  (existsb (is_rename_onto t) tr = false -> versions t s tr = []).
Proof. exact commit_error_exits. Qed.
Print Assumptions C06_commit_error_exits.

(* AtomicWriteChown with a failure oracle on commit: at every crash point the target holds the complete old or the
   complete new content; if the rename was not reached, the target is untouched in every crash outcome. *)
Theorem C06_write_error_exits : forall (t tmp : name) (s0 : st) (old : option bytes) (chunks : list bytes) (ch mt : bool) (k : nat),
  init_ok t s0 old -> name_eqb tmp t = false ->
  let tr := write_ops_f (mkCfg false ch mt) (next s0) tmp t chunks k in
  safe_from t s0 tr = true /\
  (forall p q, tr = p ++ q -> forall keep cut, In (crash_read (run s0 p) keep cut t) [old; Some (concat chunks)]) /\
  (existsb (is_rename_onto t) tr = false ->
   forall p q, tr = p ++ q -> forall keep cut, crash_read (run s0 p) keep cut t = old).
Proof. exact atomic_write_error_exits. Qed.
Print Assumptions C06_write_error_exits.

(* AtomicRename in the generated order: rename of a synced file onto the target, then the fsync of its directory *)
Theorem C06_rename_has_safe_shape : forall (t a : name) (s : st) (i : ino),
  name_eqb a t = false -> dlookup (vdir s) a = Some i -> clean s i = true ->
  let tr := rename_ops (mkCfg false false false) a t in
  safe_from t s tr = true /\
  exists q, tr = Rename a t :: q /\ existsb (is_fsyncdir (fst t)) q = true /\ existsb (is_rename_onto t) q = false.
Proof. exact atomic_rename_safe. Qed.
Print Assumptions C06_rename_has_safe_shape.

(* The fsync matters: the same generated order with snapdUnsafeIO = true (possible only in a test binary) has a crash
   point and scenario in which the target holds a torn file (`n` out of `new!`, neither `old` nor `new!`). *)
Theorem C06_no_fsync_refuted : exists p q keep cut,
  write_ops (mkCfg true false false) (next ex_s0) ex_tmp ex_t ex_chunks = p ++ q /\
  crash_read (run ex_s0 p) keep cut ex_t = Some [110].
Proof.
  exists [Creat ex_tmp; Write 1 [110; 101]; Write 1 [119; 33]; Meta; Rename ex_tmp ex_t], [].
  exists [false; false; true], (fun _ => 1%nat). split; vm_compute; reflexivity.
Qed.
Print Assumptions C06_no_fsync_refuted.

(* The monitor's exhaustive enumeration of crash outcomes on an observed trace covers every crash scenario of the
   theorems above: when `crash_ok` evaluates to true, every (keep, cut) reads one of the allowed contents. *)
Theorem C06_monitor_enumeration_complete : forall (s : st) (t : name) (allowed : list (option bytes)),
  crash_ok s t allowed = true -> forall keep cut, In (crash_read s keep cut t) allowed.
Proof.
  intros s t allowed H keep cut. unfold crash_ok in H. rewrite forallb_forall in H.
  specialize (H _ (crash_reads_complete s keep cut t)). apply existsb_exists in H as (x & Hin & He).
  apply obytes_eqb_eq in He; subst; assumption.
Qed.
Print Assumptions C06_monitor_enumeration_complete.

(* What the translator found in the source on this run: overlordStateBackend.Checkpoint is a single
   osutil.AtomicWriteFile(osb.path, data, 0600, 0); AtomicWriteFile/AtomicWrite are AtomicWriteChown; Commit is commit;
   the temp name is target + "." + 12 random characters + "~" opened O_CREATE|O_EXCL (so it differs from the target);
   snapdUnsafeIO is `IsTestBinary() && ...` and assigned nowhere else in io.go. (The statement is a conjunction of
   generated booleans: its content is that the translator, which exits non-zero otherwise, produced them.) *)
Theorem C06_source_shape :
  checkpoint_is_atomic_write_file = true /\ write_file_is_write_chown = true /\ commit_is_commit = true /\
  tmp_is_target_plus_suffix_excl = true /\ unsafe_io_needs_test_binary = true.
Proof. repeat split. Qed.
Print Assumptions C06_source_shape.

(* non-vacuity: a concrete initial state satisfying init_ok, and the generated order on it *)
Example C06_init_ok_example : init_ok ex_t ex_s0 (Some [111; 108; 100]).
Proof.
  split; [reflexivity | split].
  - cbn. exists [111; 108; 100]. split; [reflexivity | left; reflexivity].
  - intros i nd H. destruct i as [|p]; [cbv; reflexivity | cbn in H; discriminate].
Qed.
Example C06_generated_order_example :
  write_ops (mkCfg false false false) 1 ex_tmp ex_t ex_chunks =
  [Creat ex_tmp; Write 1 [110; 101]; Write 1 [119; 33]; Fsync 1; Meta; Rename ex_tmp ex_t; FsyncDir 0].
Proof. vm_compute. reflexivity. Qed.
(* the directory cannot be opened (COpenDir fails, k = 0 without chown): create, write, clean up; no rename *)
Example C06_open_dir_fails_example :
  write_ops_f (mkCfg false false false) 1 ex_tmp ex_t ex_chunks 0 =
  [Creat ex_tmp; Write 1 [110; 101]; Write 1 [119; 33]; Unlink ex_tmp; Meta].
Proof. vm_compute. reflexivity. Qed.
