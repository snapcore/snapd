(* C18 — only correctly signed, currently valid assertions are accepted.
   Model: models/AssertCheck.v (asserts/database.go Check + DefaultCheckers, asserts/account_key.go).
   PARTIAL by construction: RSA / SHA / OpenPGP packet parsing are the parameter `verify`; every theorem holds for an
   arbitrary `verify`, and the mutation theorem under the explicit hypothesis that only genuinely produced
   (key, content, signature) triples verify. Assertion types without authority and CheckCrossConsistency are outside. *)
From Coq Require Import List ZArith Bool String Lia.
Import ListNotations.
Require Import V.lib.Bytes V.proofs.BytesFacts V.models.AssertCheck V.proofs.AssertCheckProofs.
Open Scope Z_scope.

(* Full statement of the first sentence of C18, for any clock bounds: an accepted assertion has a supported format and
   there is a key - the one in the FIRST layer (trusted, predefined, own backstore, stacked-on backstores, in this order)
   that holds its sign-key id - that belongs to the declared authority,
   passes the expiry check, is valid at the assertion's timestamp (if any), admits the assertion by its constraints, and
   `verify` holds for that key on exactly the assertion's content and signature core (the fields of the OpenPGP
   signature packet that verification reads: version, type, algorithms, hashed subpackets, hash tag, MPI bytes). *)
Theorem C18_accept_implies_partial : forall verify layers e l a, check verify layers e l a = true ->
  a_supported a = true /\
  exists k, find_key layers (a_sign_key a) = Some k /\
    (exists before ly after, layers = before ++ ly :: after /\ In k ly /\
       forall l', In l' before -> find (has_id (a_sign_key a)) l' = None) /\
    k_id k = a_sign_key a /\ k_account k = a_authority a /\
    valid_assuming k e l = true /\
    (forall t, a_timestamp a = Some t -> valid_at k t = true) /\
    can_sign k a = true /\
    verify (k_id k) (a_content a) (a_sig_core a) = true.
Proof.
  intros verify layers e l a H. apply check_iff in H as (Hs & k & Ek & Hacc & Hv & Hcs & Hver & Hts).
  destruct (find_key_spec _ _ _ Ek) as [Hid Hin]. split; [exact Hs|]. exists k. repeat split; assumption.
Qed.
Print Assumptions C18_accept_implies_partial.

(* with the system clock (no earliest-time override): the key is valid now, since <= now < until *)
Theorem C18_accept_now_partial : forall verify layers now a, check_now verify layers now a = true ->
  exists k, find_key layers (a_sign_key a) = Some k /\ k_account k = a_authority a /\
    k_since k <= now /\ (forall u, k_until k = Some u -> now < u) /\
    (forall t, a_timestamp a = Some t -> k_since k <= t /\ forall u, k_until k = Some u -> t < u) /\
    can_sign k a = true /\ verify (a_sign_key a) (a_content a) (a_sig_core a) = true.
Proof.
  intros verify layers now a H. apply check_now_iff in H as (_ & k & Ek & Hacc & Hsince & Huntil & Hcs & Hver & Hts).
  destruct (find_key_spec _ _ _ Ek) as [Hid _]. rewrite Hid in Hver. exists k. repeat split; try assumption; apply Hts; assumption.
Qed.
Print Assumptions C18_accept_now_partial.

(* What the three `_partial` theorems exclude, exactly:
   - C18_accept_implies_partial / C18_accept_now_partial: only the forward direction, and `verify` is a parameter (RSA,
     SHA-512 and OpenPGP packet parsing are not modelled). Everything else of Database.Check for assertion types with an
     authority is in the statement. The FULL characterisations of the model's `check` follow (C18_check_iff,
     C18_check_now_iff): iff, every layer list, every assertion, every clock, every verify.
   - C18_any_mutation_rejected_partial: needs the idealised-signature hypothesis and speaks about the signature CORE only; its
     sharpened form with the decoded signature's fields is C18_accepted_only_framing_differs /
     C18_mutation_outside_framing_rejected / C18_framing_is_free below.
   Outside ALL of them: assertion types without authority (account-key-request, serial-request, device-session-request),
   CheckCrossConsistency, regexps in account-key constraints beyond literals, the bytes -> packet-fields parse of the
   decoded signature (driver projection c18Parse/c18Core). *)

(* Database.Check accepts EXACTLY when: format supported; the first layer holding the sign-key id yields a key; its account
   is the assertion's authority-id; it passes the expiry check for the clock bounds; its constraints allow the assertion;
   verify holds for that key on exactly the assertion's content and signature core; it is valid at the assertion's
   timestamp when there is one. *)
Theorem C18_check_iff : forall verify layers e l a, check verify layers e l a = true <->
  a_supported a = true /\
  exists k, find_key layers (a_sign_key a) = Some k /\
    k_account k = a_authority a /\
    valid_assuming k e l = true /\
    can_sign k a = true /\
    verify (k_id k) (a_content a) (a_sig_core a) = true /\
    (forall t, a_timestamp a = Some t -> valid_at k t = true).
Proof. exact check_iff. Qed.
Print Assumptions C18_check_iff.

(* with the system clock, the window boundaries spelled out: since <= now < until and since <= timestamp < until *)
Theorem C18_check_now_iff : forall verify layers now a, check_now verify layers now a = true <->
  a_supported a = true /\
  exists k, find_key layers (a_sign_key a) = Some k /\
    k_account k = a_authority a /\
    k_since k <= now /\ (forall u, k_until k = Some u -> now < u) /\
    can_sign k a = true /\
    verify (k_id k) (a_content a) (a_sig_core a) = true /\
    (forall t, a_timestamp a = Some t -> k_since k <= t /\ forall u, k_until k = Some u -> t < u).
Proof. exact check_now_iff. Qed.
Print Assumptions C18_check_now_iff.

(* what `constraints admit` means: no constraints header at all, or one LISTED constraint all of whose header = value
   pairs hold *)
Theorem C18_can_sign_spec : forall k a, can_sign k a = true ->
  k_constraints k = None \/
  exists cs c, k_constraints k = Some cs /\ In c cs /\ forall h v, In (h, v) c -> assoc h (a_headers a) = Some v.
Proof. exact can_sign_spec. Qed.
Print Assumptions C18_can_sign_spec.

(* A key WITH a constraints header can only sign what one of its listed constraints matches: that constraint's type is
   the assertion's own type and its header matchers hold. For EVERY constraints list - entries naming assertion types this
   snapd does not know are compiled like any other (they match nothing it can hold) and are never dropped; a header whose
   entries all name other types, or that has no usable entry, lets the key sign nothing: that is not the unconstrained case
   (only a key WITHOUT the header is unconstrained). *)
Theorem C18_constrained_key_needs_listed_type : forall k a cs, k_constraints k = Some cs -> can_sign k a = true ->
  exists c, In c cs /\ (forall h v, In (h, v) c -> assoc h (a_headers a) = Some v) /\
            (forall t, assoc (bs "type") c = Some t -> assoc (bs "type") (a_headers a) = Some t).
Proof. exact constrained_key_needs_listed_type. Qed.
Print Assumptions C18_constrained_key_needs_listed_type.

Theorem C18_foreign_type_constraints_sign_nothing : forall k a cs t,
  k_constraints k = Some cs -> assoc (bs "type") (a_headers a) = Some t ->
  (forall c, In c cs -> exists t', assoc (bs "type") c = Some t' /\ t' <> t) -> can_sign k a = false.
Proof.
  intros k a cs t Hk Ht Hall. apply not_true_iff_false. intro E.
  destruct (constrained_key_needs_listed_type k a cs Hk E) as (c & Hin & _ & Hty).
  destruct (Hall c Hin) as (t' & Hc & Hne). specialize (Hty t' Hc). congruence.
Qed.
Print Assumptions C18_foreign_type_constraints_sign_nothing.

Theorem C18_empty_constraints_sign_nothing : forall k a, k_constraints k = Some [] -> can_sign k a = false.
Proof. intros k a H. unfold can_sign, compile_constraints. rewrite H. reflexivity. Qed.
Print Assumptions C18_empty_constraints_sign_nothing.

(* the validity window: since inclusive, until exclusive; no until = never expires *)
Theorem C18_validity_window : forall k t,
  valid_at k t = true <-> k_since k <= t /\ match k_until k with Some u => t < u | None => True end.
Proof. exact valid_at_iff. Qed.
Print Assumptions C18_validity_window.

Theorem C18_window_boundaries : forall k u, k_until k = Some u -> k_since k < u ->
  valid_at k (k_since k) = true /\ valid_at k (k_since k - 1) = false /\
  valid_at k (u - 1) = true /\ valid_at k u = false.
Proof. intros k u Hu Hlt. rewrite <- !not_true_iff_false, !valid_at_iff, Hu. lia. Qed.
Print Assumptions C18_window_boundaries.

(* the expiry check with the real clock is validity at now; with only a lower bound on the clock (SetEarliestTime) a key
   is refused exactly when its until is not after that bound (a not-yet-valid key cannot be told) *)
Theorem C18_expiry_check_now : forall k now, valid_assuming k now (Some now) = valid_at k now.
Proof. exact valid_assuming_now. Qed.
Print Assumptions C18_expiry_check_now.

Theorem C18_expiry_check_earliest : forall k e,
  valid_assuming k e None = true <-> match k_until k with Some u => e < u | None => True end.
Proof.
  intros k e. unfold valid_assuming. cbn [andb]. destruct (k_until k) as [u|]; [|tauto].
  rewrite negb_true_iff, Z.leb_gt. tauto.
Qed.
Print Assumptions C18_expiry_check_earliest.

Theorem C18_unknown_key_rejected : forall verify layers e l a,
  find_key layers (a_sign_key a) = None -> check verify layers e l a = false.
Proof.
  intros verify layers e l a Hk. apply not_true_iff_false. intro H. apply check_iff in H as (_ & k & Ek & _). congruence.
Qed.
Print Assumptions C18_unknown_key_rejected.

Theorem C18_other_authority_rejected : forall verify layers e l a k, find_key layers (a_sign_key a) = Some k ->
  k_account k <> a_authority a -> check verify layers e l a = false.
Proof.
  intros verify layers e l a k Hk Hne. apply not_true_iff_false. intro H.
  apply check_iff in H as (_ & k' & Ek & Hacc & _). congruence.
Qed.
Print Assumptions C18_other_authority_rejected.

Theorem C18_expired_rejected : forall verify layers now a k u, find_key layers (a_sign_key a) = Some k ->
  k_until k = Some u -> u <= now -> check_now verify layers now a = false.
Proof.
  intros verify layers now a k u Hk Hu Hle. apply not_true_iff_false. intro H.
  apply check_now_iff in H as (_ & k' & Ek & _ & _ & Huntil & _). rewrite Hk in Ek. injection Ek as <-.
  specialize (Huntil u Hu). lia.
Qed.
Print Assumptions C18_expired_rejected.

Theorem C18_not_yet_valid_rejected : forall verify layers now a k, find_key layers (a_sign_key a) = Some k ->
  now < k_since k -> check_now verify layers now a = false.
Proof.
  intros verify layers now a k Hk Hlt. apply not_true_iff_false. intro H.
  apply check_now_iff in H as (_ & k' & Ek & _ & Hsince & _). rewrite Hk in Ek. injection Ek as <-. lia.
Qed.
Print Assumptions C18_not_yet_valid_rejected.

(* The FIRST layer that holds the key id decides - layer order: trusted, predefined, the database's own backstore, then
   the backstores it is stacked on (WithStackedBackstore). Whatever later layers hold (an older, still valid revision of
   the same account-key; nothing) the same key is used, and the verdict of Check is the same. So a newer revision that
   expires, re-scopes or constrains a key cannot be bypassed through an older revision left in a later layer. *)
Theorem C18_first_layer_decides : forall before l after after' kid k,
  (forall l', In l' before -> find (has_id kid) l' = None) -> find (has_id kid) l = Some k ->
  find_key (before ++ l :: after) kid = Some k /\ find_key (before ++ l :: after') kid = Some k.
Proof. exact first_layer_decides. Qed.
Print Assumptions C18_first_layer_decides.

Theorem C18_later_layers_ignored : forall verify before ly after after' e l a k,
  (forall l', In l' before -> find (has_id (a_sign_key a)) l' = None) -> find (has_id (a_sign_key a)) ly = Some k ->
  check verify (before ++ ly :: after) e l a = check verify (before ++ ly :: after') e l a.
Proof.
  intros verify before ly after after' e l a k Hnone Hl. unfold check.
  destruct (first_layer_decides before ly after after' _ k Hnone Hl) as [-> ->]. reflexivity.
Qed.
Print Assumptions C18_later_layers_ignored.

(* special case: a trusted key shadows every other layer *)
Theorem C18_trusted_first : forall tr rest rest' kid k, find (has_id kid) tr = Some k ->
  find_key (tr :: rest) kid = Some k /\ find_key (tr :: rest') kid = Some k.
Proof. intros tr rest rest' kid k H. apply (first_layer_decides [] tr rest rest' kid k); [intros l' [] | exact H]. Qed.
Print Assumptions C18_trusted_first.

(* Second sentence of C18 - PARTIAL (idealised signature). If only the triples in G (everything the private keys ever
   produced) verify, then every assertion whose (sign key, content, decoded signature) is not in G is rejected, whatever
   the keys and the clock: any change of a byte of the content or of the decoded signature of a genuine assertion is
   rejected unless the result is another genuine assertion (content and signature CORE; see the refutation below for
   the rest of the decoded signature). What is missing for the full statement: that RSA/SHA-512
   signatures in OpenPGP packets satisfy the hypothesis (they are an oracle here; the driver checks the conclusion on
   the real code for byte and structural mutations). *)
Theorem C18_any_mutation_rejected_partial : forall verify (G : list (bytes * bytes * bytes)),
  (forall kid c s, verify kid c s = true -> In (kid, c, s) G) ->
  forall layers e l a, ~ In (a_sign_key a, a_content a, a_sig_core a) G -> check verify layers e l a = false.
Proof.
  intros verify G HG layers e l a Hnot. apply not_true_iff_false. intro H.
  apply check_iff in H as (_ & k & Ek & _ & _ & _ & Hver & _).
  destruct (find_key_spec _ _ _ Ek) as [Hid _]. rewrite Hid in Hver. apply HG in Hver. contradiction.
Qed.
Print Assumptions C18_any_mutation_rejected_partial.

(* The full second sentence (`changing the decoded signature makes the assertion be rejected`) is FALSE of the faithful
   model and of the real code: bytes of the decoded signature outside the signature core can be changed freely - the
   unhashed subpacket area (KNOWN_FINDINGS key sig-unhashed-subpacket), the MPI bit-length field (sig-mpi-bitlength, reached
   by flipping ONE bit of one base64 character), a packet length that overstates the body (sig-packet-length) and the
   packet header form (sig-packet-header-form). The driver produces one of each from a genuine signature on every run
   and the real Database.Check / Add accept them. *)
Theorem C18_decoded_signature_mutation_refuted : exists verify layers now a a',
  a_sig a' <> a_sig a /\ a_content a' = a_content a /\
  check_now verify layers now a = true /\ check_now verify layers now a' = true.
Proof.
  exists (ideal_verify (bs "KEYID", bs "content", bs "core")), [[]; [mkKey (bs "KEYID") (bs "brand") 100 (Some 200) None]], 150,
    (mkA true (bs "brand") (bs "KEYID") None [] (bs "content") (bs "sig") (bs "core")),
    (mkA true (bs "brand") (bs "KEYID") None [] (bs "content") (bs "sig+unhashed") (bs "core")).
  repeat split. discriminate.
Qed.
Print Assumptions C18_decoded_signature_mutation_refuted.

Theorem C18_sig_outside_core_ignored : forall verify layers e l a s',
  check verify layers e l (mkA (a_supported a) (a_authority a) (a_sign_key a) (a_timestamp a) (a_headers a) (a_content a) s' (a_sig_core a))
  = check verify layers e l a.
Proof. intros. reflexivity. Qed.
Print Assumptions C18_sig_outside_core_ignored.

(* The mutation statement with the decoded signature's fields. A decoded signature is an OpenPGP v4 signature packet
   p : sigpkt (sig_bytes p = the decoded bytes): packet header (form and declared length), hashed part (version, type,
   algorithms, hashed subpackets), unhashed subpacket area, hash tag, MPI bit-length field, MPI bytes. Its VALUE
   (sig_value) is (hashed part, hash tag, MPI bytes); the core the driver computes is an injective encoding of the value.
   Hypothesis: verify is a function of (key, content, signature value) and only genuinely signed triples verify.
   Then whatever Check accepts has the content and the signature VALUE of something genuinely signed with the named key: of
   the decoded signature only the four framing fields can differ - header form (sig-packet-header-form) and declared length
   (sig-packet-length), both in sp_header; the unhashed area (sig-unhashed-subpacket); the MPI bit-length field
   (sig-mpi-bitlength). *)
Theorem C18_accepted_only_framing_differs : forall verify (enc : bytes * bytes * bytes -> bytes),
  (forall x y, enc x = enc y -> x = y) ->
  forall G : list (bytes * bytes * sigpkt),
  (forall kid c s, verify kid c s = true -> exists p0, In (kid, c, p0) G /\ s = enc (sig_value p0)) ->
  forall layers e l a p, a_sig a = sig_bytes p -> a_sig_core a = enc (sig_value p) ->
  check verify layers e l a = true ->
  exists p0, In (a_sign_key a, a_content a, p0) G /\ same_value p p0.
Proof. intros verify enc Hinj G Hid layers e l a p _. exact (accepted_value_genuine verify enc Hinj G Hid layers e l a p). Qed.
Print Assumptions C18_accepted_only_framing_differs.

(* as a rejection statement: changing any byte of the content, or any byte of the decoded signature outside the framing
   fields (in the hashed part, the hash tag or the MPI bytes), is rejected - unless the result has the content and value of
   something else genuinely signed with that key *)
Theorem C18_mutation_outside_framing_rejected : forall verify (enc : bytes * bytes * bytes -> bytes),
  (forall x y, enc x = enc y -> x = y) ->
  forall G : list (bytes * bytes * sigpkt),
  (forall kid c s, verify kid c s = true -> exists p0, In (kid, c, p0) G /\ s = enc (sig_value p0)) ->
  forall layers e l a p, a_sig a = sig_bytes p -> a_sig_core a = enc (sig_value p) ->
  (forall p0, In (a_sign_key a, a_content a, p0) G -> ~ same_value p p0) ->
  check verify layers e l a = false.
Proof.
  intros verify enc Hinj G Hid layers e l a p Hsig Hcore Hno. apply not_true_iff_false. intro E.
  destruct (accepted_value_genuine verify enc Hinj G Hid _ _ _ _ _ Hcore E) as (p0 & Hin & Hsame).
  exact (Hno p0 Hin Hsame).
Qed.
Print Assumptions C18_mutation_outside_framing_rejected.

(* and the framing fields ARE free (the four known finding classes are exactly this freedom): assertions that differ only
   in packet header, unhashed area and MPI bit-length field of the decoded signature get the same verdict, for any verify *)
Theorem C18_framing_is_free : forall verify (enc : bytes * bytes * bytes -> bytes) layers e l a a' p p',
  a_sig_core a = enc (sig_value p) -> a_sig_core a' = enc (sig_value p') -> same_value p p' ->
  a_supported a' = a_supported a -> a_authority a' = a_authority a -> a_sign_key a' = a_sign_key a ->
  a_timestamp a' = a_timestamp a -> a_headers a' = a_headers a -> a_content a' = a_content a ->
  check verify layers e l a' = check verify layers e l a.
Proof. exact framing_is_free. Qed.
Print Assumptions C18_framing_is_free.

(* non-vacuity of the framing statements: two packets with the same value and different framing have different bytes *)
Example C18_ex_framing :
  let p0 := mkSig [194; 112]%N [4; 0; 1; 10; 0; 0]%N [] [7; 9]%N [2; 240]%N [5; 6]%N in
  let p1 := mkSig [137; 0; 112]%N [4; 0; 1; 10; 0; 0]%N [3; 100; 170; 187]%N [7; 9]%N [2; 236]%N [5; 6]%N in
  same_value p1 p0 /\ sig_bytes p1 <> sig_bytes p0.
Proof. cbv zeta. split; [repeat split | discriminate]. Qed.

(* the verify instance used by the correspondence satisfies that hypothesis for G = [the genuine triple] *)
Theorem C18_ideal_instance : forall signed kid c s, ideal_verify signed kid c s = true -> In (kid, c, s) [signed].
Proof.
  intros [[k0 c0] s0] kid c s H. unfold ideal_verify in H. apply andb_prop in H as [H H3]. apply andb_prop in H as [H1 H2].
  apply beq_eq in H1, H2, H3. subst. left. reflexivity.
Qed.
Print Assumptions C18_ideal_instance.

(* non-vacuity *)
Definition ex_key := mkKey (bs "KEYID") (bs "brand") 100 (Some 200) (Some [[(bs "type", bs "model"); (bs "model", bs "m1")]]).
Definition ex_a := mkA true (bs "brand") (bs "KEYID") (Some 150) [(bs "type", bs "model"); (bs "model", bs "m1")]
                       (bs "content") (bs "sig") (bs "sig").
Definition ex_signed := (bs "KEYID", bs "content", bs "sig").
Example C18_ex_accepted : check_now (ideal_verify ex_signed) [[]; [ex_key]] 199 ex_a = true.
Proof. reflexivity. Qed.
Example C18_ex_expired : check_now (ideal_verify ex_signed) [[]; [ex_key]] 200 ex_a = false.
Proof. reflexivity. Qed.
Example C18_ex_mutated : check_now (ideal_verify ex_signed) [[]; [ex_key]] 199
  (mkA true (bs "brand") (bs "KEYID") (Some 150) [(bs "type", bs "model"); (bs "model", bs "m1")] (bs "contenT") (bs "sig") (bs "sig")) = false.
Proof. reflexivity. Qed.
(* a newer, expired revision of the key in the trusted layer wins over the older valid revision still stored *)
Definition ex_key_expired := mkKey (bs "KEYID") (bs "brand") 100 (Some 120) None.
Example C18_ex_layers : check_now (ideal_verify ex_signed) [[ex_key_expired]; []; [ex_key]] 199 ex_a = false /\
                        check_now (ideal_verify ex_signed) [[]; []; [ex_key]] 199 ex_a = true.
Proof. split; reflexivity. Qed.
(* a key whose only constraint names a type unknown to this snapd signs nothing; without the header it signs *)
Definition ex_key_future := mkKey (bs "KEYID") (bs "brand") 100 (Some 200) (Some [[(bs "type", bs "future-assertion-type")]]).
Definition ex_key_free := mkKey (bs "KEYID") (bs "brand") 100 (Some 200) None.
Example C18_ex_unknown_type : check_now (ideal_verify ex_signed) [[]; [ex_key_future]] 199 ex_a = false /\
                              check_now (ideal_verify ex_signed) [[]; [ex_key_free]] 199 ex_a = true.
Proof. split; reflexivity. Qed.
Example C18_ex_constraint : check_now (ideal_verify ex_signed) [[]; [ex_key]] 199
  (mkA true (bs "brand") (bs "KEYID") (Some 150) [(bs "type", bs "model"); (bs "model", bs "m2")] (bs "content") (bs "sig") (bs "sig")) = false.
Proof. reflexivity. Qed.
