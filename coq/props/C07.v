(* C07 — serialized task kinds never run concurrently.
   This file holds the property theorems only: statement, a short proof from proofs/BlockedProofs.v, Print Assumptions.
   Model: models/Blocked.v — the four predicates registered with TaskRunner.AddBlocked (hookstate, snapstate,
   ifacestate, devicestate) with their task kinds taken from gen/BlockedKinds.v (regenerated from the sources on every
   run), and TaskRunner.Ensure's accumulation of `running` / the tomb map.

   Full statement: at no time do two hooks of the same snap run at once, two interface-manipulating tasks run at once,
   two prerequisite-installing tasks run at once, or a gadget-asset update run alongside any other task, whatever mix
   of changes is in flight.
   Proved below for every sequence of Ensure passes (each over an arbitrary list of candidate tasks in an arbitrary
   iteration order, arbitrary kinds and hook snaps) and goroutine completions in any order, for the set of tasks whose
   do/undo handler goroutine exists (r.tombs minus cleanups).
   PARTIAL w.r.t. the Go runtime: that r.tombs is exactly the set of executing handlers relies on the runner's
   locking (Ensure holds r.mu and the state lock for the whole pass; a finishing goroutine deletes its tomb under both);
   this is modelled by the atomic events EEnsure / EDone, not verified. Cleanup handlers (TaskRunner.clean) are not
   subject to the predicates: the gadget-alone clause is refuted for them (C07_gadget_alone_refuted_by_cleanup, known
   finding) and proved in guarded form. *)
From Coq Require Import List NArith Bool Sorting.Permutation.
Import ListNotations.
Require Import V.lib.Bytes V.models.Blocked V.proofs.BlockedProofs.
Open Scope N_scope.

(* the four registered predicates together are exactly the conflict relation: a candidate is blocked iff it conflicts
   with some running task *)
Theorem C07_blocked_is_conflict : forall (t : task) (running : list task),
  blocked t running = existsb (conflict t) running.
Proof. exact blocked_is_conflict. Qed.
Print Assumptions C07_blocked_is_conflict.

(* main invariant: after any sequence of Ensure passes and completions no two executing handlers conflict *)
Theorem C07_excl_invariant : forall evs : list event, excl (handlers (run evs)) = true.
Proof. exact excl_invariant. Qed.
Print Assumptions C07_excl_invariant.

(* `running` has to be the whole tomb set: a pass that hides some executing task from the predicates (e.g. one whose
   status became Abort while its handler is still executing) starts a conflicting task next to it *)
Theorem C07_status_filtered_running_refuted :
  exists (tb : tombs) (vis : task -> bool) (cs : list cand),
    excl (handlers tb) = true /\
    excl (handlers (ensure_loop tb (List.filter vis (map fst tb)) cs)) = false.
Proof.
  exists [(mkT 1 (kd 0) (Some (sn 0)), false)], (fun _ => false), [CRun (mkT 2 (kd 0) (Some (sn 0)))].
  split; vm_compute; reflexivity.
Qed.
Print Assumptions C07_status_filtered_running_refuted.

(* the same for the property's own notion of the serialized kinds (spec_conflict names the kinds literally): the kinds
   extracted from the code cover them. gen_covers_spec is evaluated on the regenerated gen/BlockedKinds.v on every run,
   so dropping a kind from ifacestate's taskKinds (or renaming a literal in a predicate) breaks this theorem *)
Theorem C07_spec_excl_invariant : forall evs : list event, spec_excl (handlers (run evs)) = true.
Proof. intro evs. apply (spec_excl_covered (eq_refl : gen_covers_spec = true)), excl_invariant. Qed.
Print Assumptions C07_spec_excl_invariant.

(* ... spelled out *)
Theorem C07_no_two_hooks_same_snap : forall evs a b s,
  In a (handlers (run evs)) -> In b (handlers (run evs)) -> a <> b ->
  is_hook a = true -> is_hook b = true -> t_hook_snap a = Some s -> t_hook_snap b = Some s -> False.
Proof. intros evs a b s Ha Hb Hne H1 H2 S1 S2. exact (Hne (run_conflict_free evs a b Ha Hb (conflict_hook a b s H1 H2 S1 S2))). Qed.
Print Assumptions C07_no_two_hooks_same_snap.

Theorem C07_no_two_iface : forall evs a b,
  In a (handlers (run evs)) -> In b (handlers (run evs)) -> a <> b ->
  is_iface a = true -> is_iface b = true -> False.
Proof. intros evs a b Ha Hb Hne H1 H2. exact (Hne (run_conflict_free evs a b Ha Hb (conflict_iface a b H1 H2))). Qed.
Print Assumptions C07_no_two_iface.

Theorem C07_no_two_prereq : forall evs a b,
  In a (handlers (run evs)) -> In b (handlers (run evs)) -> a <> b ->
  is_prereq a = true -> is_prereq b = true -> False.
Proof. intros evs a b Ha Hb Hne H1 H2. exact (Hne (run_conflict_free evs a b Ha Hb (conflict_prereq a b H1 H2))). Qed.
Print Assumptions C07_no_two_prereq.

(* ---- gadget-asset update. Histories (`list event`) are arbitrary sequences of Ensure passes (any candidates, any
   order), goroutine completions in any order, aborts (statuses change, tombs stay until the goroutine returns) and snapd
   restarts (new runner, no goroutines).
   Full statement over handlers: while update-gadget-assets executes, no other do/undo handler of any task executes ... *)
Theorem C07_gadget_exclusive : forall evs a,
  In a (handlers (run evs)) -> is_gadget a = true -> handlers (run evs) = [a].
Proof. exact gadget_alone. Qed.
Print Assumptions C07_gadget_exclusive.

(* ... no pass that begins with any goroutine at all (handler or cleanup) starts it ... *)
Theorem C07_gadget_never_starts_next_to_running : forall tb cs t,
  is_gadget t = true -> In (t, false) (ensure_pass tb cs) -> ~ In (t, false) tb -> tb = [].
Proof.
  intros tb cs t Hg H Hn. destruct (started_conflicts_with_no_tomb _ _ _ H) as [Hin|C]; [contradiction|].
  destruct tb as [|x tb]; [reflexivity|]. specialize (C x (or_introl eq_refl)).
  rewrite conflict_gadget_l in C by exact Hg. discriminate.
Qed.
Print Assumptions C07_gadget_never_starts_next_to_running.

(* ... and no pass starts another handler while it has its goroutine, from any tomb set whatever *)
Theorem C07_nothing_starts_next_to_gadget : forall tb cs a x,
  In (a, false) tb -> is_gadget a = true -> In (x, false) (ensure_pass tb cs) -> In (x, false) tb.
Proof.
  intros tb cs a x Ha Hg H. destruct (started_conflicts_with_no_tomb _ _ _ H) as [Hin|C]; [exact Hin|].
  specialize (C _ Ha). rewrite conflict_gadget_r in C by exact Hg. discriminate.
Qed.
Print Assumptions C07_nothing_starts_next_to_gadget.

(* the exact carve-out of the known finding cleanup-starts-next-to-gadget-update: whatever has a goroutine next to an
   executing update-gadget-assets handler is a cleanup goroutine (TaskRunner.clean) ... *)
Theorem C07_gadget_coexists_only_with_cleanups : forall evs a x,
  In (a, false) (run evs) -> is_gadget a = true -> In x (run evs) -> x = (a, false) \/ snd x = true.
Proof.
  intros evs a [u c] Ha Hg Hx. destruct c; [right; reflexivity | left].
  apply in_handlers in Ha, Hx. rewrite (gadget_alone evs a Ha Hg) in Hx. destruct Hx as [<-|[]]. reflexivity.
Qed.
Print Assumptions C07_gadget_coexists_only_with_cleanups.

(* ... it is literally alone in every history in which no cleanup goroutine is started (no ready change has an
   uncleaned task of a kind with a cleanup handler: copy-snap-data, prepare-remodeling, set-model,
   create-recovery-system, finalize-recovery-system) ... *)
Theorem C07_gadget_alone : forall evs a,
  no_clean evs = true -> In (a, false) (run evs) -> is_gadget a = true -> run evs = [(a, false)].
Proof.
  intros evs a NC Ha Hg. apply in_handlers in Ha.
  rewrite (all_handlers (run evs) (run_no_clean evs NC)), (gadget_alone evs a Ha Hg). reflexivity.
Qed.
Print Assumptions C07_gadget_alone.

(* ... and it is never STARTED while anything has a tomb, a cleanup from an earlier pass included *)
Theorem C07_gadget_waits_for_running : forall t running,
  is_gadget t = true -> running <> [] -> blocked t running = true.
Proof.
  intros t running Hg Hr. destruct running as [|u r]; [contradiction|].
  rewrite blocked_cons, conflict_gadget_l by exact Hg. reflexivity.
Qed.
Print Assumptions C07_gadget_waits_for_running.

(* the unguarded statement refuted: TaskRunner.clean neither consults the blocked predicates nor adds the task to
   `running`, so a cleanup goroutine can be started in the same pass as update-gadget-assets, or in a later pass while it
   executes. Both witnesses are replayed on the real TaskRunner on every run (driver `cleanup`, KNOWN_FINDINGS key
   cleanup-starts-next-to-gadget-update). *)
Theorem C07_gadget_alone_refuted_by_cleanup :
  (exists evs a, In (a, false) (run evs) /\ is_gadget a = true /\ run evs <> [(a, false)]) /\
  run cleanup_witness_same_pass = [(mkT 1 (kd 14) None, true); (mkT 2 (kd 2) None, false)] /\
  run cleanup_witness_later_pass = [(mkT 2 (kd 2) None, false); (mkT 1 (kd 14) None, true)].
Proof.
  split; [|split; vm_compute; reflexivity].
  exists cleanup_witness_later_pass, (mkT 2 (kd 2) None).
  split; [vm_compute; left; reflexivity|]. split; [vm_compute; reflexivity | vm_compute; discriminate].
Qed.
Print Assumptions C07_gadget_alone_refuted_by_cleanup.

(* ---- predicate composition (TaskRunner.AddBlocked / SetBlocked / the loop over r.blocked in Ensure) *)

(* `blocked` is the disjunction of the registered predicates asked in registration order ... *)
Theorem C07_blocked_registered : forall t running, blocked t running = blocked_by registered t running.
Proof. reflexivity. Qed.
Print Assumptions C07_blocked_registered.

(* ... the order in which the managers call AddBlocked is irrelevant: in every order the runner implements `conflict` ... *)
Theorem C07_blocked_any_registration_order : forall ps t running,
  Permutation registered ps -> blocked_by ps t running = existsb (conflict t) running.
Proof.
  intros ps t running P. unfold blocked_by. rewrite <- (existsb_perm _ _ _ P). exact (blocked_is_conflict t running).
Qed.
Print Assumptions C07_blocked_any_registration_order.

(* ... and a further AddBlocked can only block more *)
Theorem C07_add_blocked_monotone : forall ps p t running,
  blocked_by ps t running = true -> blocked_by (add_blocked ps p) t running = true.
Proof. intros ps p t running H. unfold blocked_by, add_blocked. rewrite existsb_app. apply orb_true_iff. left. exact H. Qed.
Print Assumptions C07_add_blocked_monotone.

(* SetBlocked replaces the whole list: only the new predicate is asked afterwards (production code never calls it) *)
Theorem C07_set_blocked_only : forall p t running, blocked_by (set_blocked p) t running = p t running.
Proof. intros. apply orb_false_r. Qed.
Print Assumptions C07_set_blocked_only.

(* a snapd restart (fresh TaskRunner) leaves no goroutine after any history; C07_excl_invariant covers what follows *)
Theorem C07_restart_no_goroutines : forall evs, run (evs ++ [ERestart]) = [].
Proof. intro evs. apply run_snoc. Qed.
Print Assumptions C07_restart_no_goroutines.

(* r.someBlocked: a candidate that reached the blocked check and has no goroutine after the pass was blocked, and the
   flag is then set, so that the next finishing goroutine schedules another Ensure (no blocked task is forgotten) *)
Theorem C07_some_blocked_complete : forall t cs tb,
  In (CRun t) cs -> has_tomb (t_id t) (ensure_pass tb cs) = false -> some_blocked tb cs = true.
Proof. intros t cs tb. apply some_blocked_loop_complete. Qed.
Print Assumptions C07_some_blocked_complete.

(* ---- non-vacuity *)
Example C07_abort_restart_example :
  (* hook of snap-a executing; its change aborted; the second hook of snap-a stays blocked until the first returns;
     after a restart nothing has a goroutine and a hook of snap-a can start again *)
  let h1 := mkT 1 (kd 0) (Some (sn 0)) in let h2 := mkT 2 (kd 0) (Some (sn 0)) in
  map (fun x => t_id (fst x)) (run [EEnsure [CRun h1]; EAbort [1]; EEnsure [CRun h2]]) = [1] /\
  map (fun x => t_id (fst x)) (run [EEnsure [CRun h1]; EAbort [1]; EEnsure [CRun h2]; EDone 1; EEnsure [CRun h2]]) = [2] /\
  map (fun x => t_id (fst x)) (run [EEnsure [CRun h1]; ERestart; EEnsure [CRun h2; CRun h1]]) = [2] /\
  some_blocked [(h1, false)] [CRun h2] = true /\ some_blocked [] [CRun h2] = false.
Proof. vm_compute. auto. Qed.
Example C07_gadget_start_example :
  let g := mkT 8 (kd 2) None in let c := mkT 1 (kd 14) None in
  ensure_pass [] [CRun g] = [(g, false)] /\ ensure_pass [(c, true)] [CRun g] = [(c, true)] /\
  ensure_pass [(g, false)] [CRun (mkT 3 (kd 8) None); CClean c] = [(g, false); (c, true)].
Proof. vm_compute. auto. Qed.
Example C07_registration_order_example :
  let t := mkT 2 (kd 4) None in let r := [mkT 1 (kd 3) None] in
  blocked_by [gadget_blocked; iface_blocked; prereq_blocked; hook_blocked] t r = true /\ blocked t r = true /\
  blocked_by [hook_blocked; prereq_blocked; gadget_blocked] t r = false.
Proof. vm_compute. auto. Qed.
Example C07_run_example :
  map (fun x => t_id (fst x))
      (run [EEnsure [CRun (mkT 1 (kd 0) (Some (sn 0))); CRun (mkT 2 (kd 0) (Some (sn 0))); CRun (mkT 3 (kd 0) (Some (sn 1)));
                     CRun (mkT 4 (kd 3) None); CRun (mkT 5 (kd 4) None); CRun (mkT 6 (kd 1) None); CRun (mkT 7 (kd 1) None);
                     CRun (mkT 8 (kd 2) None); CRun (mkT 9 (kd 7) None)];
            EDone 1; EEnsure [CRun (mkT 2 (kd 0) (Some (sn 0))); CRun (mkT 5 (kd 4) None)]])
  = [3; 4; 6; 9; 2].
Proof. vm_compute. reflexivity. Qed.
Example C07_gadget_example :
  map (fun x => t_id (fst x)) (run [EEnsure [CRun (mkT 8 (kd 2) None); CRun (mkT 1 (kd 8) None)]]) = [8].
Proof. vm_compute. reflexivity. Qed.
Example C07_kinds_example :
  is_iface (mkT 1 (kd 3) None) = true /\ is_iface (mkT 1 (kd 7) None) = false /\ is_hook (mkT 1 (kd 0) None) = true /\
  is_prereq (mkT 1 (kd 1) None) = true /\ is_gadget (mkT 1 (kd 2) None) = true.
Proof. vm_compute. auto. Qed.
