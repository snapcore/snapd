(* C03 — every change settles and its reported status is consistent and monotone.
   This file holds the property theorems only: statement, a proof of a line or two from the lemmas of proofs/ (or the evaluation of an example), Print Assumptions.
   Model: models/TaskEngine.v. change_status mirrors Change.Status (statusOrder, isChangeWaiting with its memo);
   the field cready is the closed `ready` channel of the change (markReady closes it and sets the ready time in the
   same call); panicked records the panic `change ... unexpectedly became unready` of detectChangeReady.

   FULL STATEMENT (for reference): with handlers that eventually return, every change reaches Done / Error / Undone /
   Hold; its status is the documented aggregate of the task statuses; once reported ready it is never reported in
   progress again; Err names every failed task.
   PROVED BELOW: the aggregate is ready exactly when every task is ready; it equals the independently written aggregate,
   Wait branch included (C03_status_is_documented_aggregate); the ready flag is never reset, over every event list; over every history in
   which user aborts are issued on unready changes only (the property's quantifier): the engine never panics, the
   ready flag equals `every task is ready`, only unready tasks have a running handler, a user abort of an unready
   change never panics and never flags the change ready while a task is unready, and a ready change is final.
   These are theorems about the code AFTER commit d3068df (finding 11 repaired: Abort / AbortLanes /
   AbortUnreadyLanes evaluate readiness once, after all statuses have been rewritten); before it the abort
   theorems were false (witness [C:Do; A:Done; B:Done], kept below as a regression example).
   Also proved: Error is final; a task is in Error iff its handler failed; Err names exactly the failed tasks whenever
   the change reports Error; the status table of a settled change and `settled: Error iff some handler failed`.
   Also proved: C03_settles (liveness, bounded rounds).
   NOT PROVED (monitored on every observed history instead, see notes/C03.md): the messages of Err (task logs are not
   modelled). *)
From Coq Require Import List ZArith.
Import ListNotations.
Require Import V.models.TaskEngine V.proofs.TaskEngineStatus V.proofs.TaskEngineReady V.proofs.TaskEngineLive
               V.proofs.TaskEngineErr V.proofs.TaskEngineWait V.proofs.TaskEngineSettled V.proofs.TaskEngineSettle.

(* Change.Status of a change with tasks is a ready status (Done, Undone, Hold, Error) iff every task is ready *)
Theorem C03_status_ready_iff_all_tasks_ready : forall l : list task,
  l <> [] -> ready (change_status l) = forallb (fun tk => ready (t_st tk)) l.
Proof. exact change_status_ready. Qed.
Print Assumptions C03_status_ready_iff_all_tasks_ready.

(* The aggregate equals the independently written statement agg_spec - Wait branch included: Wait iff some task is in
   Wait and every Do/Undo task is transitively blocked on Wait tasks (along wait edges for Do, halt edges for Undo;
   memo-free, no early exits), otherwise the first status of  Abort Undoing Undo Doing Do Wait Error Undone Done Hold
   that some task has; no tasks: Hold.
   General form: any task list whose wait/halt lists are those of g, with wait edges and halt edges acyclic (rank
   functions rk, rk2) and no Do task waiting for an Undo task / no Undo task waited for by a Do task. The memoised,
   early-exit isTaskWaiting then only ever stores the value of the memo-free statement, and its cycle guard (the
   `computing` mark) never fires. *)
Theorem C03_status_is_documented_aggregate_general :
  forall (g : list tdesc) (l : list task) (rk rk2 : nat -> nat),
  length l = length g ->
  (forall t, t_waits (nth t l dummy) = waits_g g t) -> (forall t, t_halts (nth t l dummy) = halts_of g t) ->
  (forall t w, In w (waits_g g t) -> rk w < rk t) -> (forall t h, In h (halts_of g t) -> rk2 h < rk2 t) ->
  (forall t d, stl l t = Do -> In d (waits_g g t) -> stl l d <> Undo) ->
  (forall t d, stl l t = Undo -> In d (halts_of g t) -> stl l d <> Do) ->
  change_status l = agg_spec g (map t_st l).
Proof. exact change_status_is_aggregate. Qed.
Print Assumptions C03_status_is_documented_aggregate_general.

(* ... and all these hypotheses hold in every state reached by a tame history (user aborts on unready changes only; a
   do handler that answers Wait waits to become Done) on a non-empty closed graph with acyclic wait edges: *)
Theorem C03_status_is_documented_aggregate : forall (g : list tdesc) (rk : nat -> nat) (es : list event),
  g <> [] -> closed g -> (forall t w, In w (waits_g g t) -> rk w < rk t) ->
  tame (init_state g) es ->
  let s := run_events (init_state g) es in
  change_status (tasks s) = agg_spec g (map t_st (tasks s)).
Proof. exact status_is_aggregate_reachable. Qed.
Print Assumptions C03_status_is_documented_aggregate.

(* without tasks in Wait no hypothesis on the graph or the state is needed *)
Theorem C03_status_priority_aggregate_no_wait : forall (g : list tdesc) (l : list task),
  has_status l Wait = false -> change_status l = agg_spec g (map t_st l).
Proof. exact change_status_is_priority_aggregate. Qed.
Print Assumptions C03_status_priority_aggregate_no_wait.

(* over every event list from every state: once the change has been marked ready (channel closed, ready time set) it
   is never unmarked *)
Theorem C03_ready_flag_never_reset : forall (es : list event) (s : state),
  cready s = true -> cready (run_events s es) = true.
Proof. exact cready_run_events. Qed.
Print Assumptions C03_ready_flag_never_reset.

(* Consistency of the ready flag. Over every non-empty graph and every event list in which user aborts are issued on
   changes not reported ready (Ensure in any order, handler completions with any outcome incl. errors and the lane
   aborts they trigger, ticks, wait resolutions, Change.Abort): no panic, the change is flagged ready exactly when
   every task is ready, and every task with a running handler is unready. *)
Theorem C03_ready_consistent : forall (g : list tdesc) (es : list event),
  g <> [] -> guarded (init_state g) es ->
  let s := run_events (init_state g) es in
  panicked s = false /\ cready s = all_ready (tasks s) /\ (forall t, In t (running s) -> ready (st s t) = false).
Proof. exact ready_consistent. Qed.
Print Assumptions C03_ready_consistent.

(* Finding 11 repaired: at any point of any such history a user abort of an unready change does not panic, and
   afterwards the change is flagged ready exactly when every task is ready - it is never marked ready while a task is
   unready. *)
Theorem C03_abort_unready_never_panics : forall (g : list tdesc) (es : list event),
  g <> [] -> guarded (init_state g) es ->
  let s := run_events (init_state g) es in
  cready s = false ->
  panicked (step s UAbort) = false /\ cready (step s UAbort) = all_ready (tasks (step s UAbort)).
Proof. exact abort_unready_safe. Qed.
Print Assumptions C03_abort_unready_never_panics.

(* Ready once: after a change has been reported ready, any further events (user aborts being refused on ready
   changes) leave it ready: flag set, every task ready, Change.Status a ready status, no panic. *)
Theorem C03_ready_once : forall (g : list tdesc) (es es' : list event),
  g <> [] -> guarded (init_state g) es ->
  let s := run_events (init_state g) es in
  guarded s es' -> cready s = true ->
  let s' := run_events s es' in
  cready s' = true /\ all_ready (tasks s') = true /\ ready (change_status (tasks s')) = true /\ panicked s' = false.
Proof. exact ready_is_final. Qed.
Print Assumptions C03_ready_once.

(* Error is final: in every state satisfying the invariant of C03_ready_consistent no event rewrites a task in Error *)
Theorem C03_error_is_final : forall (s : state) (e : event) (u : nat),
  inv s -> st s u = Error -> st (step s e) u = Error.
Proof. exact error_final_step. Qed.
Print Assumptions C03_error_is_final.

(* Err clause, names in full. failed_of s0 es lists the tasks whose handler returned an error in the history es (the
   completion events `Finish t OErr` that were enabled). Over every tame history on a non-empty closed graph:
   a task is in Error iff its handler returned an error ... *)
Theorem C03_error_iff_handler_failed : forall (g : list tdesc) (es : list event) (u : nat),
  g <> [] -> closed g -> tame (init_state g) es ->
  (st (run_events (init_state g) es) u = Error <-> In u (failed_of (init_state g) es)).
Proof. exact error_iff_failed. Qed.
Print Assumptions C03_error_iff_handler_failed.

(* ... and Change.Err names EXACTLY those tasks whenever the change reports Error (and nothing otherwise). What the
   model cannot say is the TEXT of each line (that it is the error the task failed with, i.e. its last ERROR log line,
   printed verbatim): task logs and formatting are not modelled; that part stays tied by the driver's per-task
   comparison of Err() on every observed history. *)
Theorem C03_err_names_exactly_failed_tasks : forall (g : list tdesc) (es : list event) (u : nat),
  g <> [] -> closed g -> tame (init_state g) es ->
  let s := run_events (init_state g) es in
  (In u (err_tasks (tasks s)) <-> change_status (tasks s) = Error /\ In u (failed_of (init_state g) es)).
Proof. exact err_names_exactly_failed. Qed.
Print Assumptions C03_err_names_exactly_failed_tasks.

(* the status of a settled change, completely: Error if some task is in Error, else Undone, else Done, else Hold *)
Theorem C03_settled_status_table : forall l : list task,
  all_ready l = true ->
  change_status l =
  if has_status l Error then Error else if has_status l Undone then Undone else if has_status l Done then Done else Hold.
Proof. exact settled_status_table. Qed.
Print Assumptions C03_settled_status_table.

(* a settled state of a tame history: no tomb, flagged ready, reports Error iff some handler returned an error, and Err
   names exactly the failed tasks *)
Theorem C03_settled_error_iff_handler_failed : forall (g : list tdesc) (es : list event),
  g <> [] -> closed g -> tame (init_state g) es ->
  let s := run_events (init_state g) es in
  all_ready (tasks s) = true ->
  running s = [] /\ cready s = true /\
  (change_status (tasks s) = Error <-> failed_of (init_state g) es <> []) /\
  (forall u, In u (err_tasks (tasks s)) <-> In u (failed_of (init_state g) es)).
Proof. exact settled_error_iff_failed. Qed.
Print Assumptions C03_settled_error_iff_handler_failed.

(* non-vacuity: chain 0 <- 1, task 1 fails, task 0 is undone; closed graph, tame history, settled, Err names [1] *)
Example C03_settled_nonvacuous :
  let g := [([], [], true); ([], [0], true)] in
  let es := [Ensure [0;1]; Finish 0 OOk; Ensure [0;1]; Finish 1 OErr; Ensure [0;1]; Finish 0 OOk; Ensure [0;1]] in
  let s := run_events (init_state g) es in
  closed g /\ tame (init_state g) es /\ all_ready (tasks s) = true /\
  failed_of (init_state g) es = [1] /\ err_tasks (tasks s) = [1] /\
  map t_st (tasks s) = [Undone; Error] /\ change_status (tasks s) = Error.
Proof. exact settled_example. Qed.

(* C03_settles (liveness). Every tame history on a non-empty closed graph with acyclic wait edges (rank function rk)
   that leaves no task in Wait (no reboot pending) and no task scheduled for later (no delayed retry outstanding) can be
   continued to a settled state by handlers that return: first every running handler finishes (nil or an error, as
   the oracle oc0 says), then rounds  Ensure (ANY order that visits every task) ; every running handler finishes
   (oracle of the round).  After  settle_bound n = n(5n+1)+5n+1  rounds, n the number of tasks - whatever the orders
   and the oracles - every task is ready, no handler runs, the change is flagged ready and it reports Error iff some
   task is in Error. Handlers answering Retry or Wait forever are excluded by the form of the rounds (they are what the
   property's `handlers that eventually return / finitely many Retry` excludes); the potential is
   (number of tasks in Error, sum of the positions of the task statuses along Do<Doing<Abort<Undo<Undoing<ready). *)
Theorem C03_settles : forall (g : list tdesc) (rk : nat -> nat) (es : list event),
  g <> [] -> closed g -> (forall t w, In w (waits_g g t) -> rk w < rk t) ->
  tame (init_state g) es ->
  let s0 := run_events (init_state g) es in
  (forall t, st s0 t <> Wait) -> (forall t, t_at (get s0 t) = 0%Z) ->
  forall (oc0 : nat -> bool) (rl : list (list nat * (nat -> bool))),
  settle_bound (length g) <= length rl ->
  (forall r, In r rl -> forall t, t < length g -> In t (fst r)) ->
  let sF := iter_rounds rl (finish_all s0 oc0) in
  all_ready (tasks sF) = true /\ running sF = [] /\ cready sF = true /\
  (change_status (tasks sF) = Error <-> has_status (tasks sF) Error = true).
Proof. exact settles. Qed.
Print Assumptions C03_settles.

(* non-vacuity: chain 0 <- 1 <- 2 from the start, task 1 fails: after the bound (64 rounds for 3 tasks) the statuses
   are Undone, Error, Hold *)
Example C03_settles_nonvacuous :
  let g := [([], [], true); ([], [0], true); ([], [1], true)] in
  let rl := repeat ([0; 1; 2], fun t => Nat.eqb t 1) (settle_bound 3) in
  map t_st (tasks (iter_rounds rl (finish_all (init_state g) (fun _ => false)))) = [Undone; Error; Hold].
Proof. vm_compute. reflexivity. Qed.

(* regression example, the former witness of finding 11: tasks [C waits A,B] after A and B completed, statuses
   [Do; Done; Done], change unready: after d3068df Change.Abort gives [Hold; Undo; Undo], no panic, change still unready
   (before d3068df: panic, change marked ready, [Hold; Undo; Done]) *)
Theorem C03_abort_on_former_witness :
  let s := run_events (init_state f11_graph) f11_prefix in
  map t_st (tasks s) = [Do; Done; Done] /\ cready s = false /\ panicked s = false /\
  panicked (step s UAbort) = false /\ cready (step s UAbort) = false /\
  map t_st (tasks (step s UAbort)) = [Hold; Undo; Undo].
Proof. vm_compute. repeat split; reflexivity. Qed.
Print Assumptions C03_abort_on_former_witness.

(* the guard is necessary: aborting a READY change whose task is Done panics (the internal check kept by the repair),
   so the hypothesis `aborts are issued on unready changes only` is not vacuous *)
Theorem C03_abort_ready_refuted : exists (g : list tdesc) (es : list event),
  let s := run_events (init_state g) es in
  cready s = true /\ panicked s = false /\ panicked (step s UAbort) = true.
Proof. exists [([], [], true)], [Ensure [0]; Finish 0 OOk]. vm_compute. repeat split; reflexivity. Qed.
Print Assumptions C03_abort_ready_refuted.

(* non-vacuity of `guarded`: a history with a user abort of an unready change *)
Example C03_guarded_nonvacuous : guarded (init_state f11_graph) (f11_prefix ++ [UAbort; Ensure [0; 1; 2]]).
Proof. vm_compute. repeat split; intros; try reflexivity; try discriminate. Qed.
