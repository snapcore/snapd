(* C09 — pruning removes only finished changes, together with all their tasks; unfinished changes are kept and aborted
   only after the abort period unless a pending predicate objects; expired warnings and notices disappear.
   This file holds the property theorems only. Model: models/Prune.v (State.Prune in overlord/state/state.go).
   Every theorem is for every state, every choice of clock, retention period, abort period, limit, start of operation and
   pending predicates, and every order in which the changes are visited (the oldest-first theorem needs the order to be
   sorted by ready time, which is what sort.Sort(byReadyTime) establishes, stably or not). *)
From Coq Require Import List NArith ZArith Bool Sorting.Sorted.
Import ListNotations.
Require Import V.models.Prune V.proofs.PruneProofs.
Open Scope Z_scope.

(* a change that is gone after Prune was either finished (ready time set) and then ready before the prune limit or
   visited while the number of ready changes exceeded the limit, or it was an unready change without tasks spawned
   (counting from the start of operation at the earliest) before the prune limit *)
Theorem C09_removed_only_if : forall p order s id,
  has_id (ps_changes s) id -> ~ has_id (r_changes (prune_with p order s)) id ->
  exists c count, In c order /\ pc_id c = id /\
    ((exists r, pc_ready c = Some r /\ (r < prune_limit p \/ p_max_ready p < count)) \/
     (pc_ready c = None /\ pc_tasks c = [] /\ clamped_spawn p c < prune_limit p)).
Proof. exact removed_only_if. Qed.
Print Assumptions C09_removed_only_if.

(* under the count limit the oldest go first: a removed finished change is never newer than a kept finished change *)
Theorem C09_oldest_first : forall p order, StronglySorted not_after order ->
  forall count c c' r r', In (c, RemoveReady) (visit p count order) -> In (c', Keep) (visit p count order) ->
  pc_ready c = Some r -> pc_ready c' = Some r' -> r <= r'.
Proof. exact oldest_first. Qed.
Print Assumptions C09_oldest_first.

(* the order the model itself uses is sorted and has the same elements *)
Theorem C09_model_order_sorted : forall l, StronglySorted not_after (sort_changes l) /\ forall x, In x (sort_changes l) <-> In x l.
Proof. intro l. split; [apply sort_changes_sorted | apply sort_changes_in]. Qed.
Print Assumptions C09_model_order_sorted.

(* all tasks of a removed finished change are removed with it *)
Theorem C09_tasks_go_with_change : forall p order s c id,
  NoDup (map pc_id order) -> In c order -> pc_ready c <> None -> has_id (ps_changes s) (pc_id c) ->
  ~ has_id (r_changes (prune_with p order s)) (pc_id c) ->
  mem id (pc_tasks c) = true -> ~ In id (map pt_id (r_tasks (prune_with p order s))).
Proof. exact tasks_go_with_change. Qed.
Print Assumptions C09_tasks_go_with_change.

(* ... and only with it: a task that no removed finished change lists stays if its change is still there or it is young *)
Theorem C09_tasks_kept_with_change : forall p order s id ch sp,
  has_task (ps_tasks s) id ch sp ->
  (forall c, In (c, RemoveReady) (vs_of p order) -> mem id (pc_tasks c) = false) ->
  (has_id (r_changes (prune_with p order s)) ch \/ prune_limit p <= sp) ->
  In id (map pt_id (r_tasks (prune_with p order s))).
Proof.
  intros p order s id ch sp Ht Hno Hl. apply in_task_ids. exists ch, sp. apply tasks_kept_with_change; assumption.
Qed.
Print Assumptions C09_tasks_kept_with_change.

(* an unfinished change that has tasks is never removed *)
Theorem C09_unfinished_kept : forall p order s id,
  has_id (ps_changes s) id -> (forall c, In c order -> pc_id c = id -> pc_ready c = None /\ pc_tasks c <> []) ->
  has_id (r_changes (prune_with p order s)) id.
Proof. exact unfinished_kept. Qed.
Print Assumptions C09_unfinished_kept.

(* the abort runs only on unfinished changes that have existed (from the start of operation at the earliest) for the
   abort period and for which no registered predicate on an attribute they carry says "pending" *)
Theorem C09_abort_only_after : forall p order s id, In id (r_aborted (prune_with p order s)) ->
  exists c, In c order /\ pc_id c = id /\ pc_ready c = None /\ clamped_spawn p c < abort_limit p /\ is_pending p c = false.
Proof. exact abort_only_after. Qed.
Print Assumptions C09_abort_only_after.

(* a task listed by no aborted and no removed change keeps its status (and stays, if linked to a remaining change or young) *)
Theorem C09_status_untouched : forall p order s t, In t (ps_tasks s) ->
  (forall c, In (c, AbortIt) (vs_of p order) -> mem (pt_id t) (pc_tasks c) = false) ->
  (forall c, In (c, RemoveReady) (vs_of p order) -> mem (pt_id t) (pc_tasks c) = false) ->
  (existsb (fun c => (pc_id c =? pt_change t)%N) (r_changes (prune_with p order s)) = true \/ prune_limit p <= pt_spawn t) ->
  In t (r_tasks (prune_with p order s)).
Proof. exact status_untouched. Qed.
Print Assumptions C09_status_untouched.

(* exactly the unexpired warnings and notices remain *)
Theorem C09_expired_gone : forall p order s x,
  (In x (r_warnings (prune_with p order s)) <-> In x (ps_warnings s) /\ x_last x + x_expire x >= p_now p) /\
  (In x (r_notices (prune_with p order s)) <-> In x (ps_notices s) /\ x_last x + x_expire x >= p_now p).
Proof. exact expired_gone. Qed.
Print Assumptions C09_expired_gone.

(* Prune completes: every change of the visiting order is visited exactly once, every change whose visit decided a
   removal is gone at the end, and the abort has run exactly on the changes whose visit decided it, in visiting order.
   (Before the repair d3068df of /repo this was false: the abort of an old unready change with tasks Do, Done, Done
   panicked in the middle of Prune; that history is kept as regression case 0 of the driver and as C09_abort_regression.) *)
Theorem C09_prune_completes : forall p order s,
  map fst (vs_of p order) = order /\
  (forall c d, In (c, d) (vs_of p order) -> removes d = true -> ~ has_id (r_changes (prune_with p order s)) (pc_id c)) /\
  r_aborted (prune_with p order s) =
    map (fun cd => pc_id (fst cd)) (filter (fun cd => match snd cd with AbortIt => true | _ => false end) (vs_of p order)).
Proof. exact prune_completes. Qed.
Print Assumptions C09_prune_completes.

Theorem C09_abort_regression :
  let r := prune abort_params abort_witness in
  map (fun t => (pt_id t, pt_status t)) (r_tasks r) = [(1, 1); (2, 6); (3, 6)]%N /\ map pc_ready (r_changes r) = [None] /\ r_aborted r = [1%N].
Proof. vm_compute. repeat split; reflexivity. Qed.
Print Assumptions C09_abort_regression.

(* ---- the converse directions: what Prune must do *)
(* a finished change that became ready before the prune limit is removed, whatever the ready count *)
Theorem C09_old_ready_removed : forall p order s c r, In c order -> pc_ready c = Some r -> r < prune_limit p ->
  ~ has_id (r_changes (prune_with p order s)) (pc_id c).
Proof.
  intros p order s c r Hin Hr Hold. destruct (decision_applied p order s c Hin) as [k D].
  rewrite (decide_old_ready p k c r Hr Hold) in D. exact D.
Qed.
Print Assumptions C09_old_ready_removed.

(* an unready change without tasks, spawned (from the start of operation at the earliest) before the prune limit, is removed *)
Theorem C09_old_empty_removed : forall p order s c, In c order -> pc_ready c = None -> pc_tasks c = [] ->
  clamped_spawn p c < prune_limit p -> ~ has_id (r_changes (prune_with p order s)) (pc_id c).
Proof.
  intros p order s c Hin Hr Ht Hold. destruct (decision_applied p order s c Hin) as [k D].
  rewrite (decide_old_empty p k c Hr Ht Hold) in D. exact D.
Qed.
Print Assumptions C09_old_empty_removed.

(* an unready change that has existed for the abort period, is not pending, and is not the empty prunable case IS aborted *)
Theorem C09_old_unready_aborted : forall p order s c, In c order -> pc_ready c = None ->
  (pc_tasks c <> [] \/ prune_limit p <= clamped_spawn p c) -> clamped_spawn p c < abort_limit p -> is_pending p c = false ->
  In (pc_id c) (r_aborted (prune_with p order s)).
Proof.
  intros p order s c Hin Hr Hne Hold Hp. destruct (decision_applied p order s c Hin) as [k D].
  rewrite (decide_old_unready p k c Hr Hne Hold Hp) in D. exact D.
Qed.
Print Assumptions C09_old_unready_aborted.

(* never more than maxReadyChanges finished changes are kept (for every visiting order, sorted or not) *)
Theorem C09_count_bound : forall p order, 0 <= p_max_ready p ->
  Z.of_nat (length (filter kept_ready (vs_of p order))) <= p_max_ready p.
Proof. exact count_bound. Qed.
Print Assumptions C09_count_bound.

(* a change that stays keeps every task it lists - no dangling task reference after Prune - provided the listing is what
   AddTask establishes (listed tasks exist and are linked back; no task listed by two changes) *)
Theorem C09_kept_change_keeps_tasks : forall p order s c' id, listing_ok order s ->
  In c' (r_changes (prune_with p order s)) -> In id (pc_tasks c') -> In id (map pt_id (r_tasks (prune_with p order s))).
Proof. exact kept_change_keeps_tasks. Qed.
Print Assumptions C09_kept_change_keeps_tasks.

(* ---- Prune as a step of a history: ONE invariant theorem, no hypothesis about the state.
   Histories ([hop], models/Prune.v) interleave NewChange, NewTask (+ AddTask when the change exists), status writes, ready-time
   writes, AddWarning, AddNotice and Prune with any clock and parameters, in any order and number, from the empty state. *)
(* every reachable state satisfies the invariant (distinct change ids; listed tasks exist and are linked back; no task listed
   by two changes), and Prune preserves it *)
Theorem C09_reachable_wf : forall ops, wf (hrun ops).
Proof. exact reachable_wf. Qed.
Print Assumptions C09_reachable_wf.

Theorem C09_prune_preserves_wf : forall p s, wf s -> wf (result_state (prune p s)).
Proof. exact prune_preserves_wf. Qed.
Print Assumptions C09_prune_preserves_wf.

(* after ANY history, for ANY clock and parameters, Prune (1) leaves a state that again satisfies the invariant; (2) removes a
   change only if it was finished and old / over the limit, or empty, unready and old; (3) removes every task of a removed
   finished change and (4) no task listed by a change that stays (no dangling task reference); (5) aborts only unready changes
   past the abort period that are not pending; (6) keeps at most maxReadyChanges finished changes; (7) keeps exactly the
   unexpired warnings and notices (kept iff last + expire >= now) *)
Theorem C09_invariant : forall ops p,
  let s := hrun ops in let order := sort_changes (ps_changes s) in let r := prune p s in
  wf (result_state r) /\
  (forall id, has_id (ps_changes s) id -> ~ has_id (r_changes r) id ->
     exists c count, In c order /\ pc_id c = id /\
       ((exists rd, pc_ready c = Some rd /\ (rd < prune_limit p \/ p_max_ready p < count)) \/
        (pc_ready c = None /\ pc_tasks c = [] /\ clamped_spawn p c < prune_limit p))) /\
  (forall c id, In c order -> pc_ready c <> None -> ~ has_id (r_changes r) (pc_id c) -> mem id (pc_tasks c) = true ->
     ~ In id (map pt_id (r_tasks r))) /\
  (forall c' id, In c' (r_changes r) -> In id (pc_tasks c') -> In id (map pt_id (r_tasks r))) /\
  (forall id, In id (r_aborted r) ->
     exists c, In c order /\ pc_id c = id /\ pc_ready c = None /\ clamped_spawn p c < abort_limit p /\ is_pending p c = false) /\
  (0 <= p_max_ready p -> Z.of_nat (length (filter kept_ready (vs_of p order))) <= p_max_ready p) /\
  (forall x, (In x (r_warnings r) <-> In x (ps_warnings s) /\ x_last x + x_expire x >= p_now p) /\
             (In x (r_notices r) <-> In x (ps_notices s) /\ x_last x + x_expire x >= p_now p)).
Proof.
  intros ops p s order r. pose proof (reachable_wf ops : wf s) as W.
  split; [exact (prune_preserves_wf p s W)|]. split; [exact (removed_only_if p order s)|].
  split; [intros c id Hc Hr; exact (tasks_go_with_change p order s c id (sort_nodup _ (proj1 W)) Hc Hr (sorted_has_id _ c Hc))|].
  split; [exact (fun c' id => kept_change_keeps_tasks p order s c' id (wf_listing_ok s W))|].
  split; [exact (abort_only_after p order s)|]. split; [exact (count_bound p order) | exact (expired_gone p order s)].
Qed.
Print Assumptions C09_invariant.

(* non-vacuity: a state in which one old finished change goes, with its task; a young one stays; an old unready one is aborted *)
Example C09_example :
  let s := mkPS [mkPC 1 (-1000) (Some (-900)) [1%N] []; mkPC 2 (-50) (Some (-40)) [2%N] []; mkPC 3 (-1000) None [3%N] []]
                [mkPT 1 4 (-1000) 1; mkPT 2 4 (-50) 2; mkPT 3 3 (-1000) 3] [mkExp 1 (-500) 100] [mkExp 1 (-50) 100] in
  let r := prune (mkParams 0 0 None 100 200 5 []) s in
  map pc_id (r_changes r) = [2; 3]%N /\ map (fun t => (pt_id t, pt_status t)) (r_tasks r) = [(2, 4); (3, 5)]%N /\
  r_aborted r = [3%N] /\ r_warnings r = [] /\ length (r_notices r) = 1%nat.
Proof. vm_compute. repeat split; reflexivity. Qed.

(* non-vacuity of the converse theorems and of the count bound: three finished changes, limit 1: the two oldest go although
   none is older than the prune limit; the hypotheses of listing_ok hold of this state *)
Example C09_count_example :
  let s := mkPS [mkPC 1 (-90) (Some (-30)) [1%N] []; mkPC 2 (-90) (Some (-20)) [2%N] []; mkPC 3 (-90) (Some (-10)) [] []]
                [mkPT 1 4 (-90) 1; mkPT 2 4 (-90) 2] [] [] in
  let p := mkParams 0 0 None 100 200 1 [] in
  map pc_id (r_changes (prune p s)) = [3%N] /\ r_tasks (prune p s) = [] /\
  length (filter kept_ready (vs_of p (sort_changes (ps_changes s)))) = 1%nat.
Proof. vm_compute. repeat split; reflexivity. Qed.

(* non-vacuity of the histories: two changes with tasks, one finished long ago; a Prune in the middle removes it with its
   task; the history goes on and a second Prune finds the invariant intact *)
Example C09_history_example :
  let ops := [HNewChange (-1000) []; HNewTask 1 (-1000) 4; HSetReady 1 (Some (-900)); HNewChange (-50) []; HNewTask 2 (-50) 2;
              HPrune (mkParams 0 0 None 100 200 5 []); HNewTask 2 (-10) 2; HNewChange (-5) []; HPrune (mkParams 0 0 None 100 200 5 [])] in
  map pc_id (ps_changes (hrun ops)) = [2; 3]%N /\ map pc_tasks (ps_changes (hrun ops)) = [[2; 3]; []]%N /\
  map pt_id (ps_tasks (hrun ops)) = [2; 3]%N.
Proof. vm_compute. repeat split; reflexivity. Qed.
