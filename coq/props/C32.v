(* C32 -- snapshot import and restore cannot escape or corrupt snap data.
   This file holds the property theorems only: statement, a short derivation from proofs/SnapshotProofs.v, Print Assumptions.
   Model: models/Snapshot.v (overlord/snapshotstate/backend: backend.go unpackVerifySnapshotImport /
   writeOneSnapshotFile; reader.go Reader.Restore / moveFile; restorestate.go RestoreState.Revert / Cleanup). *)
From Coq Require Import List NArith Bool.
Import ListNotations.
Require Import V.lib.Bytes V.models.Snapshot V.proofs.SnapshotProofs.
Open Scope N_scope.

(* IMPORT, for EVERY stream of members (every name: `..`, absolute, nested, empty, duplicates; directories; a stream
   that breaks at any point), every snapshots directory, every set of directories already inside it: every path on
   which a file is created or written is the snapshots directory followed by at least one component, none of which is
   empty, `.` or `..` -- or the member is rejected / the open fails without side effect. The only hypothesis: the
   set id is printed without a slash (it is a decimal number). *)
Theorem C32_import_inside : forall sdir idb dirs ms export_found,
  forallb (fun b => negb (b =? c_slash)) idb = true ->
  forallb (strictly_below sdir) (fst (import_run sdir idb dirs ms export_found)) = true.
Proof. exact import_inside. Qed.
Print Assumptions C32_import_inside.

(* the computed target path for every member name that passes the `../` check *)
Theorem C32_import_target_shape : forall sdir idb rest,
  forallb (fun b => negb (b =? c_slash)) idb = true ->
  contains s_dotdotslash rest = false ->
  exists rel, import_target sdir idb rest = sdir ++ rel /\ forallb plain_comp rel = true.
Proof. exact import_target_shape. Qed.
Print Assumptions C32_import_target_shape.

(* RESTORE, for EVERY list of entries (any trees extracted by tar, any pre-existing content of the data directories,
   missing parent directories, any current revision) and EVERY failure point f (each fallible step of every entry,
   including the step between the two renames of moveFile, extraction failure, size/digest mismatch): if Restore fails
   (it then reverts itself) -- or succeeds and is reverted later -- every data directory is exactly as before. *)
Theorem C32_restore_failure_identity : forall cur es f a,
  wf_case cur es = true ->
  fst (restore cur es f a) = false \/ a = ARevert ->
  all_peq (snd (restore cur es f a)) (map fst es).
Proof. exact restore_failure_identity. Qed.
Print Assumptions C32_restore_failure_identity.

(* a size / digest mismatch or a failing extraction is detected before anything in the data directory is moved *)
Theorem C32_mismatch_detected_before_move : forall cur st e f st' lg ok f',
  e_extract_ok e = false \/ e_digest_ok e = false ->
  restore_one cur st e f = (st', lg, ok, f') ->
  ok = false /\ l_created lg = [] /\ l_moved lg = [] /\ (st' = st \/ (st = None /\ st' = Some [])).
Proof. exact mismatch_detected_before_move. Qed.
Print Assumptions C32_mismatch_detected_before_move.

(* RESTORE, success half, for EVERY list of entries and every fuel: if Restore succeeds (optionally followed by Cleanup)
   every data directory holds EXACTLY: the extracted `common` and revision trees (the latter under the current revision's
   name), every other real name as before, under the backup names of `common` / the revision directory the old tree
   that was moved aside (these are what Revert puts back, theorem above with a = ARevert) -- and nothing under any
   backup name after Cleanup. expected_lookup is total: the statement fixes the content of every name. *)
Theorem C32_restore_success : forall cur es f a,
  wf_case cur es = true -> a <> ARevert ->
  fst (restore cur es f a) = true ->
  all_expected cur a es (snd (restore cur es f a)).
Proof. exact restore_success. Qed.
Print Assumptions C32_restore_success.

(* the same, as the executable predicate the check evaluates on the implementation's observed directories *)
Theorem C32_restore_success_monitor : forall cur es f a,
  wf_case cur es = true -> a <> ARevert ->
  fst (restore cur es f a) = true ->
  success_all cur a es (snd (restore cur es f a)) = true.
Proof. exact restore_success_monitor. Qed.
Print Assumptions C32_restore_success_monitor.

(* CHECK (Reader.Check, digest idealised as content identity): it succeeds iff every entry it looks at (all of them, or
   with a user list: the non-user entries and the listed users') is present in the zip, reads without error, has the
   size the zip header reports and the content whose digest is recorded *)
Theorem C32_check_iff : forall users zs,
  check users zs = true <->
  forall z, In z zs -> selected users z = true ->
    z_present z = true /\ z_read_ok z = true /\ z_read z = z_reported z /\ z_actual z = z_recorded z.
Proof. exact check_iff. Qed.
Print Assumptions C32_check_iff.

(* IMPORT with contents and DUPLICATE member names, for every stream and every set of files already there: the writes go
   to the same (inside) paths; each write stores overlay (content of that path after the earlier writes) (body): the file
   is opened without O_TRUNC, so a later member with the same target overwrites the earlier one from offset 0 ... *)
Theorem C32_import_writes_inside : forall sdir idb dirs fs ms export_found,
  forallb (fun b => negb (b =? c_slash)) idb = true ->
  forallb (strictly_below sdir) (map fst (fst (import_writes sdir idb dirs fs ms export_found))) = true.
Proof.
  intros sdir idb dirs fs ms ef Hid. destruct (import_writes_paths sdir idb dirs ms fs ef) as [-> _]. now apply import_inside.
Qed.
Print Assumptions C32_import_writes_inside.

Theorem C32_import_duplicates_overlay : forall sdir idb dirs ms fs export_found,
  writes_from fs (fst (import_writes sdir idb dirs fs ms export_found)).
Proof. exact import_writes_overlay. Qed.
Print Assumptions C32_import_duplicates_overlay.

(* ... completely when it is at least as long; otherwise the tail of the earlier content survives behind the new body
   (inside the snapshots directory only; such a file is then handed to Open/Check, which is outside this model) *)
Theorem C32_overlay_shape : forall old data,
  ((length old <= length data)%nat -> overlay old data = data) /\
  firstn (length data) (overlay old data) = data /\
  skipn (length data) (overlay old data) = skipn (length data) old /\
  length (overlay old data) = Nat.max (length old) (length data).
Proof. intros old data. split; [apply overlay_replaces | apply overlay_shape]. Qed.
Print Assumptions C32_overlay_shape.

(* IMPORT, nothing is committed unless every member verifies. backendOpen + Reader.Check on each written file are an
   oracle (m_valid). (a) one snapshot member they reject, ANYWHERE in ANY stream, makes the import fail; (b) after a failed
   import -- whatever the reason: rejected member, directory member, `../`, name without `_`, broken tar, missing
   export.json -- no file <id>_*.zip is left in the snapshots directory (the deferred Cancel removes what was written);
   (c) hence a committed import has verified every snapshot member it contains. (Files written under other names, e.g.
   `<id>_foo` without .zip or below an existing sub-directory, are NOT removed by Cancel: they stay, inside the
   snapshots directory -- observed on the real code, recorded in the notes.) *)
Theorem C32_invalid_member_fails : forall sdir idb dirs ms1 m ms2 fs export_found,
  m_kind m = MFile -> m_valid m = false ->
  beq (m_name m) s_content_json = false -> beq (m_name m) s_export_json = false ->
  snd (import_writes sdir idb dirs fs (ms1 ++ m :: ms2) export_found) = false.
Proof. exact invalid_member_fails. Qed.
Print Assumptions C32_invalid_member_fails.

Theorem C32_failed_import_commits_nothing : forall sdir idb dirs fs ms n,
  snd (import_final sdir idb dirs fs ms) = false ->
  glob_id_zip idb n = true ->
  path_lookup (sdir ++ [n]) (fst (import_final sdir idb dirs fs ms)) = None.
Proof. exact failed_import_commits_nothing. Qed.
Print Assumptions C32_failed_import_commits_nothing.

Theorem C32_committed_import_all_valid : forall sdir idb dirs fs ms m,
  snd (import_final sdir idb dirs fs ms) = true -> In m ms ->
  m_kind m = MFile -> beq (m_name m) s_content_json = false -> beq (m_name m) s_export_json = false ->
  m_valid m = true.
Proof. exact committed_import_all_valid. Qed.
Print Assumptions C32_committed_import_all_valid.

(* EXPORT -> IMPORT round trip, for EVERY list of snapshot files <ida>_<rest> (names without slash, pairwise distinct,
   targets free): the stream of SnapshotExport.StreamTo (content.json, the files under their base names, export.json)
   imported under another set id writes exactly the files <idb>_<rest> with exactly the exported contents, and succeeds *)
Theorem C32_export_import_roundtrip : forall sdir ida idb dirs fs files,
  forallb (fun b => negb (b =? c_under)) ida = true -> noslash ida = true -> noslash idb = true ->
  Forall (fun rc => noslash (fst rc) = true) files ->
  NoDup (map fst files) ->
  Forall (fun rc => path_lookup (fst (rt_target sdir idb rc)) fs = None /\
                    existsb (list_beq (fst (rt_target sdir idb rc))) dirs = false) files ->
  import_writes sdir idb dirs fs
    (export_members (map (fun rc => (ida ++ c_under :: fst rc, snd rc)) files)) false
  = (map (rt_target sdir idb) files, true).
Proof. exact export_import_roundtrip. Qed.
Print Assumptions C32_export_import_roundtrip.

(* ---- non-vacuity *)
Definition ex_init : pstate := Some [(0, 10); (4, 11); (8, 12)].          (* common, rev 4, another directory *)
Definition ex_entry (ok : bool) : rentry :=
  {| e_rev := 4; e_extract_ok := true; e_extracted := [(0, 20); (4, 21)]; e_digest_ok := ok |}.

(* success: common and the revision directory are replaced, the old ones are kept as backups 1 and 5 *)
Example C32_ex_success :
  wf_case (Some 4) [(ex_init, ex_entry true)] = true /\
  restore (Some 4) [(ex_init, ex_entry true)] 100 ANone = (true, [Some [(4, 21); (5, 11); (0, 20); (1, 10); (8, 12)]]).
Proof. vm_compute. split; reflexivity. Qed.

(* failure between the two renames of the second moveFile (step 11), second entry failing after the first was moved *)
Example C32_ex_fail_between_renames :
  fst (restore (Some 4) [(ex_init, ex_entry true)] 8 ANone) = false /\
  pstates_eqb (snd (restore (Some 4) [(ex_init, ex_entry true)] 8 ANone)) [ex_init] = true /\
  fst (restore (Some 4) [(ex_init, ex_entry true); (None, ex_entry false)] 100 ANone) = false /\
  pstates_eqb (snd (restore (Some 4) [(ex_init, ex_entry true); (None, ex_entry false)] 100 ANone)) [ex_init; None] = true.
Proof. vm_compute. repeat split; reflexivity. Qed.

(* import: `1_d/..` resolves to the snapshots directory itself (open fails, nothing written), `/etc_/passwd` lands inside *)
Example C32_ex_import :
  let sdir := [[115]; [115;110]] in
  import_run sdir [55] [] [{| m_name := [49;95;100;47;46;46]; m_kind := MFile; m_body := [120]; m_valid := true |}] false = ([], false) /\
  fst (import_run sdir [55] [sdir ++ [[55;95]]] [{| m_name := [47;101;116;99;95;47;112]; m_kind := MFile; m_body := [120]; m_valid := true |}] false)
    = [sdir ++ [[55;95]; [112]]].
Proof. vm_compute. split; reflexivity. Qed.

(* duplicates: second member shorter than the first -> new body then the tail of the first; Check on a wrong digest *)
Example C32_ex_duplicates_and_check :
  let sdir := [[115]] in
  fst (import_writes sdir [55] [] [] [{| m_name := [49;95;97]; m_kind := MFile; m_body := [1;2;3]; m_valid := true |};
                                      {| m_name := [50;95;97]; m_kind := MFile; m_body := [9]; m_valid := true |}] false)
    = [([[115]; [55;95;97]], [1;2;3]); ([[115]; [55;95;97]], [9;2;3])] /\
  check [] [{| z_user := None; z_present := true; z_read_ok := true; z_reported := 5; z_read := 5; z_actual := 1; z_recorded := 2 |}] = false /\
  check [[117]] [{| z_user := Some [118]; z_present := false; z_read_ok := true; z_reported := 5; z_read := 5; z_actual := 1; z_recorded := 2 |}] = true.
Proof. vm_compute. repeat split; reflexivity. Qed.

(* commit / cancel: accepted, kept-name, nested and rejected members -- after the failure 7_a.zip is gone again, 7_keep and
   7_d/n.zip are still there; and a two-file round trip from set 3 to set 7 *)
Example C32_ex_cancel_and_roundtrip :
  let sdir := [[115]] in
  let mk n b v := {| m_name := n; m_kind := MFile; m_body := b; m_valid := v |} in
  import_final sdir [55] [[[115]; [55;95;100]]] []
    [mk [49;95;97;46;122;105;112] [1] true; mk [49;95;107] [2] true; mk [49;95;100;47;110;46;122;105;112] [3] true;
     mk [49;95;66;46;122;105;112] [4] false; mk [49;95;122;46;122;105;112] [5] true]
  = ([([[115]; [55;95;100]; [110;46;122;105;112]], [3]); ([[115]; [55;95;107]], [2])], false) /\
  import_writes sdir [55] [] [] (export_members [([51;95;97], [1;2]); ([51;95;98], [3])]) false
  = ([([[115]; [55;95;97]], [1;2]); ([[115]; [55;95;98]], [3])], true).
Proof. vm_compute. split; reflexivity. Qed.
