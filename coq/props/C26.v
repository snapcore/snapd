(* C26 -- REST API requests are served only to callers the endpoint's access level allows.
   This file holds the property theorems only: statement, a proof of a line or two from the lemmas of the proofs file,
   Print Assumptions.
   Model: models/Access.v (daemon/ucrednet.go, daemon/access.go, Command.ServeHTTP of daemon/daemon.go, function by
   function); endpoint table: gen/Endpoints.v, regenerated from the Command literals of daemon/api*.go on every run;
   specification: proofs/AccessProofs.v (peer, connected, authenticated, level_ok, allowed -- written over the raw
   RemoteAddr string and the request context, without the model's parser or checkers). *)
From Coq Require Import List NArith ZArith Bool String.
Import ListNotations.
Require Import V.lib.Bytes V.lib.Dec V.gen.Endpoints V.models.Access V.proofs.AccessProofs.
Open Scope N_scope.

(* for EVERY endpoint record, verb and request context: the handler runs only if the verb is registered, the request
   carries peer credentials that satisfy the level declared for the verb, and the daemon is not degraded unless GET *)
Theorem C26_served_implies_declared : forall (e : endpoint) (m : meth) (x : ctx),
  fst (serve e m x) = Handler ->
  registered e m = true /\ allowed (declared e m) x /\ (x_degraded x = true -> m = GET).
Proof. exact served_implies_declared. Qed.
Print Assumptions C26_served_implies_declared.

(* ... and conversely: the decision is EXACTLY the declared level (for every endpoint record, verb and context) *)
Theorem C26_decision_is_declared_level : forall (e : endpoint) (m : meth) (x : ctx),
  fst (serve e m x) = Handler <->
  (registered e m = true /\ allowed (declared e m) x /\ (x_degraded x = true -> m = GET)).
Proof. exact decision_is_declared_level. Qed.
Print Assumptions C26_decision_is_declared_level.

(* for every endpoint of the ACTUAL table (daemon/api.go as it is now), every verb and every context: the handler runs
   only if the request carries peer credentials satisfying the level the pinned policy demands for that path and verb
   (root-only: uid 0 on snapd.socket; authenticated: snapd.socket and root / logged-in user / polkit yes for the
   action; open: snapd.socket; snapctl: snapd-snap.socket; interface-gated: snapd.socket, or snapd-snap.socket with an
   active connection of a listed interface plugged by the calling snap). Re-checked against the regenerated table. *)
Theorem C26_served_implies_allowed : forall e : endpoint, In e api -> forall (m : meth) (x : ctx),
  fst (serve e m x) = Handler ->
  exists p : access, policy_for (ep_path e) m = Some p /\ allowed p x.
Proof. exact served_implies_policy. Qed.
Print Assumptions C26_served_implies_allowed.

(* table obligation: every registered verb of every endpoint has a checker, a policy entry, and a declared level at
   least as strict as the policy (computed on the generated table) *)
Theorem C26_table_meets_policy : table_ok api = true.
Proof. exact table_ok_api. Qed.
Print Assumptions C26_table_meets_policy.

(* ... so CheckAccess is never called on a nil checker *)
Theorem C26_table_no_nil_checker : forall e : endpoint, In e api -> forall (m : meth) (x : ctx),
  fst (serve e m x) <> NilChecker.
Proof. exact table_no_nil_checker. Qed.
Print Assumptions C26_table_no_nil_checker.

(* the order used for `at least as strict` is sound for the specification *)
Theorem C26_stricter_is_sound : forall (a p : access) (x : ctx) (u : ucred),
  acc_le a p = true -> level_ok a x u -> level_ok p x u.
Proof. exact acc_le_sound. Qed.
Print Assumptions C26_stricter_is_sound.

(* missing or unparsable peer credentials never reach a handler -- any endpoint, any verb, any context whose RemoteAddr
   is not a credential string of a real peer (pid in 1..2^31-1, uid other than 2^32-1) *)
Theorem C26_no_creds_never : forall (e : endpoint) (m : meth) (x : ctx),
  (forall u : ucred, ~ peer x u) -> fst (serve e m x) <> Handler.
Proof. intros e m x Hn H. apply served_implies_declared in H. destruct H as (_ & (u & Hp & _) & _). exact (Hn u Hp). Qed.
Print Assumptions C26_no_creds_never.

(* requests arriving on the snap socket are served only by snapAccess endpoints, or by interface-gated ones when the
   calling snap has an active connection of a listed interface *)
Theorem C26_snap_socket_only_gated : forall (e : endpoint) (m : meth) (x : ctx) (u : ucred),
  fst (serve e m x) = Handler -> peer x u -> u_socket u = snap_socket ->
  declared e m = ASnap \/
  exists names, (declared e m = AIfaceOpen names \/ exists k, declared e m = AIfaceAuth names k /\ authenticated x u k)
                /\ connected x names.
Proof. exact snap_socket_only_gated. Qed.
Print Assumptions C26_snap_socket_only_gated.

(* ... spelled out: the PLUG side of an active connection of a listed interface is EXACTLY the calling instance name
   (the bytes cgroupSnapNameFromPid returned). Another instance of the same snap (some-snap vs some-snap_dev), a
   connection in which the caller is only the slot side, an undesired or hotplug-gone connection, or an interface whose
   name merely resembles a listed one does not open the endpoint. *)
Theorem C26_snap_socket_exact_instance : forall (e : endpoint) (m : meth) (x : ctx) (u : ucred) (sn : bytes),
  fst (serve e m x) = Handler -> peer x u -> u_socket u = snap_socket -> declared e m <> ASnap ->
  x_snap_of_pid x = Some sn ->
  exists names c,
    (declared e m = AIfaceOpen names \/ exists k, declared e m = AIfaceAuth names k) /\
    In c (x_conns x) /\ c_plug_snap c = sn /\ In (c_iface c) names /\
    c_undesired c = false /\ c_hotplug_gone c = false.
Proof. exact snap_socket_exact_instance. Qed.
Print Assumptions C26_snap_socket_exact_instance.

Theorem C26_snap_socket_needs_snap_name : forall (e : endpoint) (m : meth) (x : ctx) (u : ucred),
  fst (serve e m x) = Handler -> peer x u -> u_socket u = snap_socket -> declared e m <> ASnap ->
  x_snap_of_pid x <> None.
Proof. intros e m x u H Hp Hs Hn Hnone. destruct (snap_socket_only_gated e m x u H Hp Hs) as [A|(names & _ & (sn' & c & S & _))]; [contradiction|congruence]. Qed.
Print Assumptions C26_snap_socket_needs_snap_name.

(* root-only endpoints of the table are reached only by uid 0 on the main socket *)
Theorem C26_root_only : forall e : endpoint, In e api -> forall (m : meth) (x : ctx),
  policy_for (ep_path e) m = Some ARoot -> fst (serve e m x) = Handler ->
  exists u : ucred, peer x u /\ u_socket u = snapd_socket /\ u_uid u = 0.
Proof. intros e Hin m x P H. destruct (served_implies_policy e Hin m x H) as (p & P1 & (u & Hp & L)). rewrite P in P1. inversion P1; subst p. cbn in L. exists u. tauto. Qed.
Print Assumptions C26_root_only.

(* on the actual table, a PUT/POST arriving on the snap socket reaches a handler only at /v2/snapctl, or at
   /v2/accessories/themes when the calling instance has snap-themes-control actively connected AND is root / logged in /
   granted io.snapcraft.snapd.manage (computed over the regenerated table: a new write endpoint open to the snap socket
   breaks this obligation) *)
Theorem C26_snap_socket_writes : forall e : endpoint, In e api -> forall (m : meth) (x : ctx) (u : ucred),
  m <> GET -> fst (serve e m x) = Handler -> peer x u -> u_socket u = snap_socket ->
  ep_path e = bs "/v2/snapctl" \/
  (ep_path e = bs "/v2/accessories/themes" /\ connected x [if_themes] /\ authenticated x u pk_manage).
Proof. exact snap_socket_writes. Qed.
Print Assumptions C26_snap_socket_writes.

(* what the handler finds attached: when the address is what the listener printed for a real peer, every interface in
   r.RemoteAddr at handler time is one the calling instance has actively connected (plug side, exact instance) *)
Theorem C26_handler_ifaces_are_connected : forall (e : endpoint) (m : meth) (x : ctx) (r' : bytes) (u : ucred),
  names_plain (declared e m) = true ->
  x_remote x = print_ucred u -> 0 < u_pid u < 2147483648 -> u_uid u < 4294967295 -> forallb not_semi (u_socket u) = true ->
  serve e m x = (Handler, r') ->
  exists l', ucrednet_get_with_interfaces r' = Some (u, l') /\ forall i, In i l' -> connected x [i].
Proof. exact served_ifaces_are_connected. Qed.
Print Assumptions C26_handler_ifaces_are_connected.

(* END TO END for the notices handlers' type filter (noticeTypesViewableBySnap, with the generated noticeReadInterfaces):
   over the actual table, a snap on snapd-snap.socket is told `viewable` for a set of notice types only if for EVERY
   requested type the calling instance has an active plug-side connection of an interface the hand-written table lists
   for that type (refresh-observe for change-update / refresh-inhibit / snap-run-inhibit, interfaces-requests-control
   for the two prompting types, nothing for warning) *)
Theorem C26_notices_types_need_connection : forall e : endpoint, In e api ->
  forall (m : meth) (x : ctx) (r' : bytes) (u : ucred) (types : list bytes) (t : bytes),
  x_remote x = print_ucred u -> 0 < u_pid u < 2147483648 -> u_uid u < 4294967295 -> u_socket u = snap_socket ->
  serve e m x = (Handler, r') ->
  notice_types_viewable types r' = true -> In t types ->
  exists i, In i (lookup_ifaces spec_notice_ifaces t) /\ connected x [i].
Proof. exact notices_types_need_connection. Qed.
Print Assumptions C26_notices_types_need_connection.

(* the link to C25: on the actual table, when /v2/snapctl's handler runs the request came from a real peer on
   snapd-snap.socket, and the uid that runSnapctl hands to ctlcmd.Run (the uid C25's gate judges) is that peer's uid *)
Theorem C26_snapctl_uid_is_peer : forall e : endpoint, In e api -> ep_path e = bs "/v2/snapctl" ->
  forall (x : ctx) (r' : bytes), serve e POST x = (Handler, r') ->
  exists u : ucred, peer x u /\ u_socket u = snap_socket /\ ucrednet_get r' = Some u /\ snapctl_uid r' = u_uid u.
Proof. exact snapctl_uid_is_peer. Qed.
Print Assumptions C26_snapctl_uid_is_peer.

(* the model's parser accepts exactly the credential strings of real peers (so `peer` and ucrednetGet agree) *)
Theorem C26_parser_is_peer : forall (x : ctx) (u : ucred), ucrednet_get (x_remote x) = Some u <-> peer x u.
Proof. intros x u. split; [apply get_some_peer | apply peer_get]. Qed.
Print Assumptions C26_parser_is_peer.

(* the peer credential encoding round-trips exactly: what the listener prints for a real peer (pid in 1..2^31-1, uid
   other than nobody, socket path without ;) reads back as the same pid, uid and socket with no interface attached *)
Theorem C26_ucred_roundtrip : forall u : ucred,
  0 < u_pid u < 2147483648 -> u_uid u < 4294967295 -> forallb not_semi (u_socket u) = true ->
  ucrednet_get_with_interfaces (print_ucred u) = Some (u, []).
Proof. exact ucred_roundtrip. Qed.
Print Assumptions C26_ucred_roundtrip.

(* attaching an interface (name without ;) to any accepted address never changes the credentials found later; an
   interface already attached leaves the list unchanged; attaching to a fresh address yields exactly that interface *)
Theorem C26_attach_preserves_creds : forall (s : bytes) (u : ucred) (l : list bytes) (i : bytes),
  ucrednet_get_with_interfaces s = Some (u, l) -> forallb not_semi i = true ->
  exists l', ucrednet_get_with_interfaces (ucrednet_attach_interface s i) = Some (u, l') /\
             (l = [] -> l' = split_amp i) /\ (In i l -> l' = l).
Proof. intros s u l i G Hi. eexists. split; [exact (attach_full s u l i G Hi)|]. split. - intros ->. reflexivity. - intro Hin. apply mem_In in Hin. rewrite Hin. reflexivity. Qed.
Print Assumptions C26_attach_preserves_creds.

(* FULL attach round trip: for EVERY accepted address s (fresh, or already carrying any attachment string), every
   credentials u and list l read from it, and EVERY interface string i without ; (including strings with & inside):
   after ucrednetAttachInterface(s, i) a parse finds the same pid, uid and socket, and the interface list is l if i was
   already in it, else l followed by the &-separated fields of i *)
Theorem C26_attach_roundtrip : forall (s : bytes) (u : ucred) (l : list bytes) (i : bytes),
  ucrednet_get_with_interfaces s = Some (u, l) -> forallb not_semi i = true ->
  ucrednet_get_with_interfaces (ucrednet_attach_interface s i) = Some (u, if mem i l then l else l ++ split_amp i).
Proof. exact attach_full. Qed.
Print Assumptions C26_attach_roundtrip.

(* for a proper interface name (no ; no &) the list grows by exactly that name, once; a second attach is the identity *)
Theorem C26_attach_roundtrip_plain : forall (s : bytes) (u : ucred) (l : list bytes) (i : bytes),
  ucrednet_get_with_interfaces s = Some (u, l) -> forallb not_semi i = true -> forallb not_amp i = true ->
  ucrednet_get_with_interfaces (ucrednet_attach_interface s i) = Some (u, if mem i l then l else l ++ [i]).
Proof. exact attach_full_plain. Qed.
Print Assumptions C26_attach_roundtrip_plain.

Theorem C26_attach_idempotent : forall (s : bytes) (u : ucred) (l : list bytes) (i : bytes),
  ucrednet_get_with_interfaces s = Some (u, l) -> forallb not_semi i = true -> forallb not_amp i = true ->
  ucrednet_attach_interface (ucrednet_attach_interface s i) i = ucrednet_attach_interface s i.
Proof. exact attach_idempotent. Qed.
Print Assumptions C26_attach_idempotent.

(* the guards are needed: WITHOUT them the round trip is false of the faithful model (each witness is replayed on the
   real code by the driver on every run: cases cred / attachparse). None of these strings can occur in snapd: the socket
   is the listener's own address and interface names match [a-z0-9-]+; so they document the guards, they are not findings.
   (a) a socket path containing ;iface=y; reads back as ANOTHER socket plus a forged attachment, one with a bare ; as
       no credentials; (b) an interface string with & reads back as two interfaces and attaching it again doubles them;
   (c) an interface string with ; makes the address unparsable (credentials lost: every checker then denies). *)
Theorem C26_roundtrip_unguarded_refuted :
  (exists u, 0 < u_pid u < 2147483648 /\ u_uid u < 4294967295 /\
             exists v l, ucrednet_get_with_interfaces (print_ucred u) = Some (v, l) /\ (v <> u /\ l <> [])) /\
  (exists u, 0 < u_pid u < 2147483648 /\ u_uid u < 4294967295 /\ ucrednet_get_with_interfaces (print_ucred u) = None) /\
  (exists u i, ucrednet_get_with_interfaces (print_ucred u) = Some (u, []) /\
               ucrednet_get_with_interfaces (ucrednet_attach_interface (print_ucred u) i) <> Some (u, [i]) /\
               ucrednet_attach_interface (ucrednet_attach_interface (print_ucred u) i) i <> ucrednet_attach_interface (print_ucred u) i) /\
  (exists u i, ucrednet_get_with_interfaces (print_ucred u) = Some (u, []) /\
               ucrednet_get_with_interfaces (ucrednet_attach_interface (print_ucred u) i) = None).
Proof.
  split; [|split; [|split]].
  - exists (wit_u (bs "x;iface=y")). split; [vm_compute; auto|]. split; [vm_compute; reflexivity|].
    exists (wit_u (bs "x")), [bs "y"]. split; [vm_compute; reflexivity|]. split; discriminate.
  - exists (wit_u (bs "a;b")). split; [vm_compute; auto|]. split; [vm_compute; reflexivity|vm_compute; reflexivity].
  - exists (wit_u snap_socket), (bs "a&b"). split; [vm_compute; reflexivity|]. split; [vm_compute; discriminate|vm_compute; discriminate].
  - exists (wit_u snap_socket), (bs "a;iface=b"). split; [vm_compute; reflexivity|vm_compute; reflexivity].
Qed.
Print Assumptions C26_roundtrip_unguarded_refuted.

(* on every endpoint of the table, a served handler finds the peer's own credentials in r.RemoteAddr, whatever
   interfaces the checker attached on the way *)
Theorem C26_handler_sees_peer_creds : forall e : endpoint, In e api -> forall (m : meth) (x : ctx) (r' : bytes),
  serve e m x = (Handler, r') -> ucrednet_get r' = ucrednet_get (x_remote x) /\ ucrednet_get r' <> None.
Proof. exact served_keeps_creds_api. Qed.
Print Assumptions C26_handler_sees_peer_creds.

(* ---- non-vacuity: the hypotheses are satisfiable, handlers are reachable ---- *)
Definition ex_ctx (remote : string) (user : bool) : ctx :=
  mkCtx (bs remote) user (pk_table [] PkNo) (Some (bs "some-snap"))
        [mkConn (bs "some-snap") (bs "core") (bs "snap-themes-control") false false] false.

(* root on the main socket reaches POST /v2/users (root-only) *)
Example ex_root_served : exists e, In e api /\ ep_path e = bs "/v2/users" /\
  fst (serve e POST (ex_ctx "pid=100;uid=0;socket=/run/snapd.socket;" false)) = Handler.
Proof.
  exists (nth 20 api (mkEp [] false false false false ANil ANil)).
  split; [apply nth_In; vm_compute; repeat constructor | split; vm_compute; reflexivity].
Qed.

(* a plain user is refused there, a logged-in one too *)
Example ex_user_denied : exists e, In e api /\ ep_path e = bs "/v2/users" /\
  fst (serve e POST (ex_ctx "pid=100;uid=1000;socket=/run/snapd.socket;" true)) = Denied Forbidden.
Proof.
  exists (nth 20 api (mkEp [] false false false false ANil ANil)).
  split; [apply nth_In; vm_compute; repeat constructor | split; vm_compute; reflexivity].
Qed.

(* a snap with the themes interface connected reaches GET /v2/accessories/themes over the snap socket, and the handler
   sees the interface attached *)
Example ex_snap_served : exists e, In e api /\ ep_path e = bs "/v2/accessories/themes" /\
  serve e GET (ex_ctx "pid=42;uid=1000;socket=/run/snapd-snap.socket;" false) =
  (Handler, bs "pid=42;uid=1000;socket=/run/snapd-snap.socket;iface=snap-themes-control;").
Proof.
  exists (nth 37 api (mkEp [] false false false false ANil ANil)).
  split; [apply nth_In; vm_compute; repeat constructor | split; vm_compute; reflexivity].
Qed.

(* the peer predicate is inhabited, and the nil receiver's string is not a peer *)
Example ex_peer : peer (ex_ctx "pid=42;uid=1000;socket=/run/snapd-snap.socket;" false) (mkUcred 42 1000 snap_socket).
Proof. apply get_some_peer. vm_compute. reflexivity. Qed.
Example ex_nil_no_peer : forall u, ~ peer (ex_ctx "pid=;uid=;socket=;" true) u.
Proof. intros u H. apply peer_get in H. vm_compute in H. discriminate. Qed.

(* parallel instances: only some-snap has the interface connected; a request from some-snap_dev is refused, and so is
   one from a snap that is merely the SLOT side of such a connection *)
Definition ex_inst_ctx (caller : string) (conns : list conn) : ctx :=
  mkCtx (bs "pid=42;uid=1000;socket=/run/snapd-snap.socket;") false (pk_table [] PkNo) (Some (bs caller)) conns false.
Example ex_other_instance_denied :
  fst (serve (nth 46 api (mkEp [] false false false false ANil ANil)) GET
         (ex_inst_ctx "some-snap_dev" [mkConn (bs "some-snap") (bs "core") (bs "snap-refresh-observe") false false]))
  = Denied Forbidden /\
  fst (serve (nth 46 api (mkEp [] false false false false ANil ANil)) GET
         (ex_inst_ctx "some-snap" [mkConn (bs "some-snap") (bs "core") (bs "snap-refresh-observe") false false]))
  = Handler /\
  ep_path (nth 46 api (mkEp [] false false false false ANil ANil)) = bs "/v2/notices".
Proof. vm_compute. auto. Qed.
Example ex_slot_side_denied :
  fst (serve (nth 46 api (mkEp [] false false false false ANil ANil)) GET
         (ex_inst_ctx "some-snap" [mkConn (bs "other-snap") (bs "some-snap") (bs "snap-refresh-observe") false false]))
  = Denied Forbidden.
Proof. vm_compute. reflexivity. Qed.

(* the notices filter: with refresh-observe attached, change-update is viewable, the prompting type and warning are not,
   and the empty request is not; on the main socket everything is *)
Example ex_viewable :
  notice_types_viewable [bs "change-update"; bs "refresh-inhibit"] (bs "pid=42;uid=1000;socket=/run/snapd-snap.socket;iface=snap-refresh-observe;") = true /\
  notice_types_viewable [bs "change-update"; bs "interfaces-requests-prompt"] (bs "pid=42;uid=1000;socket=/run/snapd-snap.socket;iface=snap-refresh-observe;") = false /\
  notice_types_viewable [bs "warning"] (bs "pid=42;uid=1000;socket=/run/snapd-snap.socket;iface=snap-refresh-observe&snap-interfaces-requests-control;") = false /\
  notice_types_viewable [] (bs "pid=42;uid=1000;socket=/run/snapd-snap.socket;iface=snap-refresh-observe;") = false /\
  notice_types_viewable [bs "warning"] (bs "pid=42;uid=1000;socket=/run/snapd.socket;") = true.
Proof. vm_compute. auto. Qed.

(* both directions of the decision theorem are inhabited: root on the main socket satisfies the level of POST /v2/users *)
Example ex_allowed_root : allowed ARoot (ex_ctx "pid=100;uid=0;socket=/run/snapd.socket;" false).
Proof.
  exists (mkUcred 100 0 snapd_socket). split; [apply get_some_peer; vm_compute; reflexivity|cbn; auto].
Qed.
