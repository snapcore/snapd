(* C22 — interface connections are transactional and persisted state matches memory.
   Property theorems only. Model: models/Conns.v (overlord/ifacestate handlers.go doConnect / undoConnect /
   doDisconnect / undoDisconnect, ifacestate.go connect / Disconnect / Forget, helpers.go reloadConnections,
   interfaces/repo.go Connect / Disconnect), one plug snap and one slot snap, any number of connection ids.
   Agree s: persisted active connections = repository = what both snaps' profiles were last generated for.
   Equiv a b: same persisted entry for every id (all flags, attributes kept or dropped), same repository, same profile sets.

   FULL statement of the property (kept visible): for EVERY agreeing state, operation and failure point, a change that
   fails leaves the state Equiv to the one before, and every settled change ends in an agreeing state.
   It is FALSE of the faithful model and of the real code in four classes (KNOWN_FINDINGS, each reproduced through the
   driver on every run); `excluded s o f` is those classes, and the one case the model leaves out (a security setup failing
   inside a disconnect task of a removal), and guards the theorems:
     - a connect OR disconnect task failing in its SECOND security setup call: repository and conns are rolled back, but
       the profile of the snap whose setup already ran is not regenerated (connect: slot snap's profile has a connection
       that does not exist; disconnect: plug snap's profile lacks a connection that exists)
     - auto-connect (setup-profiles + auto-connect of the plug snap) from a state WITHOUT any active connection whose new
       connections are undone because a later task fails: undoSetupProfiles regenerates the plug snap and the snaps
       that have connections at that moment (none), so the slot snap keeps rules for the undone connections
     - undo of a connect that overwrote a hotplug-gone entry
     - undo of forgetting an inactive connection
   One more class (finding 8: a disconnect task failing in a security setup after repo.Disconnect left the repository
   without the connection) was repaired in /repo by commit 63d7dd9 and is not in `excluded`, see
   C22_disconnect_setup_failure_restores and C22_disconnect_first_setup_failure_restores. *)
From Coq Require Import List NArith Bool.
Import ListNotations.
Require Import V.models.Conns V.proofs.ConnsProofs.
Open Scope N_scope.

(* a change that is refused, or fails at ANY task boundary (before, inside, after its main task), restores persisted
   conns (including remembered undesired entries), the repository and the profile sets — outside the recorded classes *)
Theorem C22_failed_change_restores : forall s o f, Agree s -> excluded s o f = false ->
  (snd (run_change s o f) = true \/ snd (fst (run_change s o f)) = false) -> Equiv (fst (fst (run_change s o f))) s.
Proof. intros s o f A E. exact (proj1 (change_cases s o f A E)). Qed.
Print Assumptions C22_failed_change_restores.

(* after ANY history of connect / disconnect / forget / auto-disconnect / hotplug-disconnect changes, each with any
   failure point, none of them in a recorded class, persisted conns, repository and profiles agree *)
Theorem C22_settled_agree : forall h s, Agree s -> safe_history s h -> Agree (run_history s h).
Proof.
  induction h as [|[o f] r IH]; intros s A S; [exact A|]. destruct S as [E [S _]].
  apply IH; [exact (proj2 (change_cases s o f A E)) | exact S].
Qed.
Print Assumptions C22_settled_agree.

(* a restart (reloadConnections into an empty repository) reproduces exactly the active persisted connections *)
Theorem C22_reload_agree : forall c, NoDup (map fst c) -> Agree (mkSt c (reload c) (reload c) (reload c)).
Proof. intros c ND. exact (Agree_same c (reload c) (reload_mem c ND)). Qed.
Print Assumptions C22_reload_agree.

(* former finding 8, repaired by /repo commit 63d7dd9: a disconnect / forget task failing in ANY of its security setup calls
   fails the change, leaves persisted conns untouched and the repository exactly as it was *)
Theorem C22_disconnect_setup_failure_restores : forall s id forget ad bh k c, (k = 1 \/ k = 2) ->
  mem id (s_repo s) = true -> lookup (s_conns s) id = Some c ->
  let r := run_change s (ODisconnect id forget ad bh) (FailMain k) in
  snd r = true /\ s_conns (fst (fst r)) = s_conns s /\ forall x, mem x (s_repo (fst (fst r))) = mem x (s_repo s).
Proof. intros s id forget ad bh k c Hk M _. exact (disconnect_setup_failure_restores s id forget ad bh k Hk M). Qed.
Print Assumptions C22_disconnect_setup_failure_restores.

(* ... and when the FIRST setup call fails, profiles included (instance of C22_failed_change_restores: the case is not in `excluded`) *)
Theorem C22_disconnect_first_setup_failure_restores : forall s id forget ad bh, Agree s ->
  snd (run_change s (ODisconnect id forget ad bh) (FailMain 1)) = true ->
  Equiv (fst (fst (run_change s (ODisconnect id forget ad bh) (FailMain 1)))) s.
Proof.
  intros s id forget ad bh A F. apply C22_failed_change_restores; [exact A | apply andb_false_r | left; exact F].
Qed.
Print Assumptions C22_disconnect_first_setup_failure_restores.

(* the unguarded statement is false when the SECOND setup call of a disconnect task fails: the plug snap's profile was
   regenerated without the connection that the rollback puts back *)
Theorem C22_disconnect_second_setup_failure_refuted :
  exists s o f, Agree s /\ snd (run_change s o f) = true /\ ~ Equiv (fst (fst (run_change s o f))) s.
Proof. apply (refutes s_one (ODisconnect 0 false false false) (FailMain 2) agree_s_one); reflexivity. Qed.
Print Assumptions C22_disconnect_second_setup_failure_refuted.

Theorem C22_connect_setup_failure_refuted :
  exists s o f, Agree s /\ snd (run_change s o f) = true /\ ~ Equiv (fst (fst (run_change s o f))) s.
Proof. apply (refutes (mkSt [] [] [] []) (OConnect 0 false false) (FailMain 2) (Agree_same [] [] (fun _ => eq_refl))); reflexivity. Qed.
Print Assumptions C22_connect_setup_failure_refuted.

Theorem C22_connect_undo_hotplug_gone_refuted :
  exists s o f, Agree s /\ snd (run_change s o f) = true /\ ~ Equiv (fst (fst (run_change s o f))) s.
Proof.
  apply (refutes (mkSt [(0, mkC true false false true true)] [] [] []) (OConnect 0 false false) FailAfter); [apply agree_inactive | | ]; reflexivity.
Qed.
Print Assumptions C22_connect_undo_hotplug_gone_refuted.

Theorem C22_forget_undo_refuted :
  exists s o f, Agree s /\ snd (run_change s o f) = true /\ ~ Equiv (fst (fst (run_change s o f))) s.
Proof.
  apply (refutes (mkSt [(0, mkC true false true false false)] [] [] []) (ODisconnect 0 true false false) FailAfter); [apply agree_inactive | | ]; reflexivity.
Qed.
Print Assumptions C22_forget_undo_refuted.

(* auto-connect (the change [setup-profiles; auto-connect -> connect tasks with delayed-setup-profiles; setup-profiles]) is an
   operation of run_change: C22_failed_change_restores and C22_settled_agree above cover it at every failure point (before,
   any security setup call of either setup-profiles task, after), outside the class below. When it succeeds, every pair
   without an entry gets an active auto connection and every existing entry - also undesired / hotplug-gone - is kept *)
Theorem C22_autoconnect_success : forall s x, Agree s -> snd (run_change s OAutoConnect NoFail) = false /\
  lookup (s_conns (fst (fst (run_change s OAutoConnect NoFail)))) x =
    (if mem x univ then match lookup (s_conns s) x with Some c => Some c | None => Some auto_c end else lookup (s_conns s) x).
Proof. intros s x _. apply autoconnect_success. Qed.
Print Assumptions C22_autoconnect_success.

Theorem C22_autoconnect_undo_refuted :
  exists s o f, Agree s /\ snd (run_change s o f) = true /\ ~ Equiv (fst (fst (run_change s o f))) s.
Proof. apply (refutes (mkSt [] [] [] []) OAutoConnect FailAfter (Agree_same [] [] (fun _ => eq_refl))); reflexivity. Qed.
Print Assumptions C22_autoconnect_undo_refuted.

(* removal of the plug snap (auto-disconnect -> the injected disconnect tasks, the snap leaves snapstate, remove-profiles,
   discard-conns; failure before / after, the undo including undoDiscardConns, doSetupProfiles as the undo of remove-profiles
   and undoDisconnect) is an operation of run_change too: C22_failed_change_restores and C22_settled_agree cover it
   (a successful removal ends a safe history; a security setup failing inside an injected disconnect task is excluded: not
   modelled). After a successful removal no conns entry and no repository connection is left - in this world every
   connection names the removed snap - and no profile mentions a connection *)
Theorem C22_remove_success : forall s, Agree s ->
  let r := run_change s ORemove NoFail in
  snd r = false /\ s_conns (fst (fst r)) = [] /\ s_repo (fst (fst r)) = [] /\ s_profc (fst (fst r)) = []
  /\ forall x, mem x (s_profp (fst (fst r))) = false.
Proof. intros s A. repeat split. exact (profp_removed s A). Qed.
Print Assumptions C22_remove_success.

(* non-vacuity: an agreeing state and histories that meet the hypotheses of the guarded theorems *)
Definition ex_s := mkSt [(0, mkC true false false false true); (1, mkC true false true false false)] [0] [0] [0].
Example C22_ex_agree : Agree ex_s.
Proof. split; [|split]; cbn; try reflexivity. intro id. destruct id as [|[p|p|]]; reflexivity. Qed.
(* a manual disconnect of an auto connection that fails after its main task: undone, entry 0 is back, entry 1 still remembered *)
Example C22_ex_failed : excluded ex_s (ODisconnect 0 false false false) FailAfter = false
  /\ snd (run_change ex_s (ODisconnect 0 false false false) FailAfter) = true
  /\ st_eqb (fst (fst (run_change ex_s (ODisconnect 0 false false false) FailAfter))) ex_s = true.
Proof. vm_compute. repeat split. Qed.
(* a history: disconnect 0 (becomes undesired), reconnect over the undesired entry with a failure afterwards, connect 1 *)
Example C22_ex_history :
  let h := [(ODisconnect 0 false false false, NoFail); (OConnect 0 false false, FailAfter); (OConnect 1 false false, NoFail)] in
  safe_history ex_s h /\ lookup (s_conns (run_history ex_s h)) 0 = Some (mkC true false true false false)
  /\ s_repo (run_history ex_s h) = [1].
Proof. vm_compute. repeat split; intros; try discriminate; reflexivity. Qed.
(* a history with auto-connect: 0 is active, 1 remembered undesired; auto-connect adds 2 and 3 only; a second auto-connect that
   fails after its main work changes nothing *)
Example C22_ex_autoconnect :
  let h := [(OAutoConnect, NoFail); (ODisconnect 2 false false false, NoFail); (OAutoConnect, FailAfter)] in
  safe_history ex_s h /\ s_repo (run_history ex_s h) = [0; 3]
  /\ lookup (s_conns (run_history ex_s h)) 2 = Some (mkC true false true false false)
  /\ lookup (s_conns (run_history ex_s h)) 1 = Some (mkC true false true false false).
Proof. vm_compute. repeat split; intros; try discriminate; reflexivity. Qed.
(* a history ending with the removal of the plug snap, preceded by a removal attempt that failed at its very end *)
Example C22_ex_remove :
  let h := [(OAutoConnect, NoFail); (ORemove, FailAfter); (ORemove, NoFail)] in
  safe_history ex_s h /\ st_eqb (run_history ex_s [(OAutoConnect, NoFail); (ORemove, FailAfter)]) (run_history ex_s [(OAutoConnect, NoFail)]) = true
  /\ s_conns (run_history ex_s h) = [] /\ s_repo (run_history ex_s h) = [].
Proof. vm_compute. repeat split; intros; try discriminate; reflexivity. Qed.
