(* C25 -- non-root callers can only run snapctl's read-only commands.
   This file holds the property theorems only: statement, a proof of a line or two from the lemmas of the proofs file,
   Print Assumptions.
   Model: models/SnapCtl.v (isAllowedToRun exactly; go-flags abstracted: the command that may execute is the first
   token if it is a registered name, a help token before any -- means nothing executes; the abstraction is tied to the
   real go-flags and the real command structs by the driver). Tables: gen/NonRootAllowed.v (nonRootAllowed and the
   addCommand names, regenerated on every run). spec_allowed is the list of the statement, written by hand. *)
From Coq Require Import List NArith ZArith Bool String.
Import ListNotations.
Require Import V.lib.Bytes V.gen.NonRootAllowed V.models.SnapCtl V.proofs.SnapCtlProofs.
Open Scope N_scope.

(* for EVERY argument vector (any byte strings) and every uid other than 0: if some command's Execute may run, it is
   get, services, set-health, is-connected, system-mode or model *)
Theorem C25_gate : forall (args : list bytes) (uid : N) (n : bytes),
  uid <> 0 -> run args uid = MayExec n -> In n spec_allowed.
Proof. exact gate. Qed.
Print Assumptions C25_gate.

(* -h / --help anywhere before a -- never executes a command, whoever asks ... *)
Theorem C25_help_never_executes : forall (args : list bytes) (uid : N),
  help_before_dd args = true -> forall n, run args uid <> MayExec n.
Proof. intros args uid Hh n H. destruct (may_exec_inv _ _ _ H) as (r & _ & _ & _ & Hn). congruence. Qed.
Print Assumptions C25_help_never_executes.

(* ... and is let through the gate for everybody: the outcome is help or a parse error *)
Theorem C25_help_is_never_forbidden : forall (args : list bytes) (uid : N),
  help_before_dd args = true -> run args uid = NoExec.
Proof. exact help_is_never_forbidden. Qed.
Print Assumptions C25_help_is_never_forbidden.

(* other invocations by a non-root caller fail at the gate: first token not one of the six, no help token *)
Theorem C25_nonroot_other_forbidden : forall (a : bytes) (rest : list bytes) (uid : N),
  uid <> 0 -> ~ In a spec_allowed -> help_before_dd (a :: rest) = false -> run (a :: rest) uid = Forbidden.
Proof. exact nonroot_other_forbidden. Qed.
Print Assumptions C25_nonroot_other_forbidden.

(* the six commands are reachable for any uid *)
Theorem C25_nonroot_allowed_reach : forall (n : bytes) (rest : list bytes) (uid : N),
  In n spec_allowed -> help_before_dd (n :: rest) = false -> run (n :: rest) uid = MayExec n.
Proof. exact nonroot_allowed_reach. Qed.
Print Assumptions C25_nonroot_allowed_reach.

(* root may run every registered command and is never refused *)
Theorem C25_root_all : forall (n : bytes) (rest : list bytes),
  In n registered_commands -> help_before_dd (n :: rest) = false -> run (n :: rest) 0 = MayExec n.
Proof. intros n rest Hin Hh. exact (may_exec_intro n rest 0 Hin eq_refl Hh). Qed.
Print Assumptions C25_root_all.

Theorem C25_root_never_forbidden : forall args : list bytes, run args 0 <> Forbidden.
Proof. exact root_never_forbidden. Qed.
Print Assumptions C25_root_never_forbidden.

(* the gate's loop is exactly `a help token before any --` *)
Theorem C25_gate_scan_is_help_before_dd : forall args : list bytes, scan_help args = help_before_dd args.
Proof. exact scan_help_spec. Qed.
Print Assumptions C25_gate_scan_is_help_before_dd.

(* ---- non-vacuity ---- *)
Example ex_nonroot_get : run [bs "get"; bs "foo"] 1000 = MayExec (bs "get").
Proof. vm_compute. reflexivity. Qed.
Example ex_nonroot_set : run [bs "set"; bs "foo=bar"] 1000 = Forbidden.
Proof. vm_compute. reflexivity. Qed.
Example ex_nonroot_set_help : run [bs "set"; bs "foo=bar"; bs "-h"] 1000 = NoExec.
Proof. vm_compute. reflexivity. Qed.
Example ex_nonroot_set_help_after_dd : run [bs "set"; bs "--"; bs "-h"] 1000 = Forbidden.
Proof. vm_compute. reflexivity. Qed.
Example ex_nonroot_second_token : run [bs "set"; bs "get"] 1000 = Forbidden.
Proof. vm_compute. reflexivity. Qed.
Example ex_root_set : run [bs "set"; bs "foo=bar"] 0 = MayExec (bs "set").
Proof. vm_compute. reflexivity. Qed.
