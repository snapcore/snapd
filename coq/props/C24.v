(* C24 — all components agree on which snap, instance, component and tag names are valid.
   This file holds the property theorems only. Models: models/Naming.v (Go validators of snap/naming, C scanners of
   cmd/libsnap-confine-private/snap.c and cmd/snap-update-ns/bootstrap.c, written function by function); every regular
   expression and length limit comes from gen/NamingRegexes.v, regenerated from the sources on every run. Each validator
   is proved equal, on ALL byte strings, to one reference recogniser (valid_snap_name, valid_key, valid_instance_name,
   valid_component), hence they agree with each other. *)
From Coq Require Import List NArith Bool String.
Import ListNotations.
Require Import V.lib.Bytes V.lib.Regex V.gen.NamingRegexes V.models.Naming V.proofs.NamingProofs.
Open Scope string_scope. Open Scope N_scope.

(* the daemon (ValidateSnap), snap-confine (sc_snap_name_validate) and snap-update-ns (validate_snap_name) accept
   exactly the same snap names *)
Theorem C24_snap_name_agree : forall s : bytes,
  go_validate_snap s = valid_snap_name s /\ sc_snap_name_validate s = valid_snap_name s /\
  sun_validate_snap_name s = valid_snap_name s.
Proof. intros s. repeat split; [apply go_validate_snap_ref | apply sc_snap_name_validate_ref | apply sun_validate_snap_name_ref]. Qed.
Print Assumptions C24_snap_name_agree.

(* instance keys: the daemon's validInstanceKey expression, sc_instance_key_validate, snap-update-ns' instance_key_validate *)
Theorem C24_instance_key_agree : forall k : bytes,
  rmatch NamingRegexes.valid_instance_key k = valid_key k /\ sc_instance_key_validate k = valid_key k /\
  sun_instance_key_validate k = valid_key k.
Proof. intros k. repeat split; [apply go_instance_key_ref | apply sc_instance_key_validate_ref | apply sun_instance_key_validate_ref]. Qed.
Print Assumptions C24_instance_key_agree.

(* instance names: ValidateInstance, sc_instance_name_validate (strlen test + strsep), validate_instance_name (silent
   truncation to 52 bytes + strsep) accept exactly the same strings *)
Theorem C24_instance_name_agree : forall s : bytes,
  go_validate_instance s = valid_instance_name s /\ sc_instance_name_validate s = valid_instance_name s /\
  sun_validate_instance_name s = valid_instance_name s.
Proof. intros s. repeat split; [apply go_validate_instance_ref | apply sc_instance_name_validate_ref | apply sun_validate_instance_name_ref]. Qed.
Print Assumptions C24_instance_name_agree.

(* component names snap+component: SplitFullComponentName + ComponentRef.Validate and sc_snap_component_validate *)
Theorem C24_component_agree : forall s : bytes,
  go_validate_component s = valid_component s /\ sc_snap_component_validate s = valid_component s.
Proof. intros s. split; [apply go_validate_component_ref | apply sc_snap_component_validate_ref]. Qed.
Print Assumptions C24_component_agree.

(* every app tag, hook tag and component hook tag the daemon generates (AppInfo.SecurityTag / HookInfo.SecurityTag) from
   names it accepts is accepted by snap-confine for that instance and component — when the tag is at most 256 bytes.
   The length guard is needed, see the next theorem. *)
Theorem C24_generated_tags_accepted : forall (inst : bytes) (comp : option bytes) (is_hook : bool) (name : bytes),
  go_validate_instance inst = true ->
  comp_ok go_validate_snap comp = true ->
  (if is_hook then go_validate_hook name else go_validate_app name) = true ->
  (is_hook = false -> comp = None) ->
  (List.length (model_tag inst comp is_hook name) <= 256)%nat ->
  sc_security_tag_validate (model_tag inst comp is_hook name) inst comp = true.
Proof. exact generated_tags_accepted. Qed.
Print Assumptions C24_generated_tags_accepted.

(* the unguarded statement is false: the daemon puts no bound on the length of app (and hook) names, snap-confine
   refuses any tag above SNAP_SECURITY_TAG_MAX_LEN = 256 bytes. Witness: snap ab, app aaa...a (250 bytes). *)
Theorem C24_generated_tags_overlong_refuted :
  exists inst app : bytes,
    go_validate_instance inst = true /\ go_validate_app app = true /\
    sc_security_tag_validate (model_tag inst None false app) inst None = false.
Proof. exists (bs "ab"), (repeat 97 250). vm_compute. auto. Qed.
Print Assumptions C24_generated_tags_overlong_refuted.

(* tag agreement, full for tags within snap-confine's length limit: for every tag of at most 256 bytes, every instance
   name the daemon accepts and every component that is absent or a name the daemon accepts, snap-confine accepts the tag
   for (instance, component) exactly when ParseSecurityTag parses it as a tag of that instance and component.
   (Left to right: inversion of snap-confine's expression — extracted from snap.c — against strings.SplitN/Cut; right to
   left: ParseSecurityTag's result rebuilt by the daemon's own generator, then C24_generated_tags_accepted.) *)
Theorem C24_tag_iff : forall (tag inst : bytes) (comp : option bytes),
  (List.length tag <= 256)%nat ->
  go_validate_instance inst = true -> comp_ok go_validate_snap comp = true ->
  (sc_security_tag_validate tag inst comp = true <->
   exists h name, go_parse_security_tag tag = Some (inst, comp, h, name)).
Proof.
  intros tag inst comp Hl Hi Hc. split; [apply accepted_tags_parsed; assumption |].
  intros (h & name & H). eapply parsed_tags_accepted; eassumption.
Qed.
Print Assumptions C24_tag_iff.

(* without any hypothesis on the names: snap-confine accepts a tag only for the instance and component literally written
   in it (submatches 1 and 7 of its expression) *)
Theorem C24_tag_names_instance : forall (tag inst : bytes) (comp : option bytes),
  sc_security_tag_validate tag inst comp = true ->
  tag_group1 tag = inst /\ match comp with Some cn => tag_group7 tag = Some cn | None => tag_group7 tag = None end.
Proof.
  intros tag inst comp H. apply sc_security_tag_validate_iff in H as (_ & _ & H1 & H7 & _).
  split; [exact H1 | destruct comp; exact H7].
Qed.
Print Assumptions C24_tag_names_instance.

(* the daemon's other name validators, each equal on ALL byte strings to an explicit recogniser: app and provenance names
   (dashed shape over [a-zA-Z0-9]); hook, plug, slot and interface names (one rule: lower-case letter first, dashed shape
   over [a-z0-9]); aliases; snap-ids (exactly 32 alphanumerics); socket names and interface tags (the snap-name shape
   without the length window); quota group names (exactly the snap names) *)
Theorem C24_other_validators : forall s : bytes,
  go_validate_app s = valid_app_name s /\ go_validate_provenance s = valid_app_name s /\
  go_validate_hook s = valid_hook_name s /\ go_validate_plug s = valid_hook_name s /\
  go_validate_slot s = valid_hook_name s /\ go_validate_interface s = valid_hook_name s /\
  go_validate_alias s = valid_alias_name s /\ go_validate_snap_id s = valid_snap_id_name s /\
  go_validate_socket s = valid_dashed_name s /\ go_validate_iface_tag s = valid_dashed_name s /\
  go_validate_quota_group s = valid_snap_name s.
Proof.
  intros s. repeat split;
    [apply go_validate_app_ref | apply go_validate_provenance_ref | apply go_validate_hook_ref | apply go_validate_hook_ref |
     apply go_validate_hook_ref | apply go_validate_hook_ref | apply go_validate_alias_ref | apply go_validate_snap_id_ref |
     apply go_is_valid_name_ref | apply go_is_valid_name_ref | apply go_validate_quota_group_ref].
Qed.
Print Assumptions C24_other_validators.

(* Go accepts iff C accepts, stated directly, for all byte strings *)
Theorem C24_go_iff_c : forall s : bytes,
  go_validate_snap s = sc_snap_name_validate s /\ go_validate_snap s = sun_validate_snap_name s /\
  go_validate_instance s = sc_instance_name_validate s /\ go_validate_instance s = sun_validate_instance_name s /\
  go_validate_component s = sc_snap_component_validate s.
Proof.
  intros s. rewrite go_validate_snap_ref, sc_snap_name_validate_ref, sun_validate_snap_name_ref, go_validate_instance_ref,
    sc_instance_name_validate_ref, sun_validate_instance_name_ref, go_validate_component_ref, sc_snap_component_validate_ref.
  auto.
Qed.
Print Assumptions C24_go_iff_c.

(* the recorded finding (generated-tag-longer-than-256) carved out exactly: a tag generated from names the daemon accepts
   is accepted by snap-confine if and only if it is at most 256 bytes long *)
Theorem C24_generated_tags_accepted_iff : forall (inst : bytes) (comp : option bytes) (is_hook : bool) (name : bytes),
  go_validate_instance inst = true ->
  comp_ok go_validate_snap comp = true ->
  (if is_hook then go_validate_hook name else go_validate_app name) = true ->
  (is_hook = false -> comp = None) ->
  (sc_security_tag_validate (model_tag inst comp is_hook name) inst comp = true <->
   (List.length (model_tag inst comp is_hook name) <= 256)%nat).
Proof. intros inst comp is_hook name Hi Hc Hn Ha. split; [intros H; apply sc_security_tag_validate_iff in H; apply H | apply generated_tags_accepted; assumption]. Qed.
Print Assumptions C24_generated_tags_accepted_iff.

(* which tags snap-confine's sc_is_hook_security_tag (it decides whether SNAP_COOKIE is overwritten) calls hook tags:
   a non-component hook tag of an instance whose name starts with a lower-case letter is recognised ... *)
Theorem C24_is_hook_tag_recognised : forall inst hook : bytes,
  go_validate_instance inst = true -> go_validate_hook hook = true ->
  match inst with c :: _ => c_lower c = true | [] => False end ->
  sc_is_hook_security_tag (go_hook_tag inst None hook) = true.
Proof. exact is_hook_tag_recognised. Qed.
Print Assumptions C24_is_hook_tag_recognised.

(* ... but not every hook tag is (CANDIDATE FINDING, not monitored — see notes/C24.md): snap.0ad.hook.x is a hook tag for
   the daemon and is accepted by sc_security_tag_validate, yet sc_is_hook_security_tag rejects it (its expression wants a
   letter first and knows no +component); the same holds for every component hook tag (NamingProofs.is_hook_component_example) *)
Theorem C24_is_hook_tag_refuted :
  exists tag inst comp hook,
    go_parse_security_tag tag = Some (inst, comp, true, hook) /\ sc_security_tag_validate tag inst comp = true /\
    sc_is_hook_security_tag tag = false.
Proof. exists (bs "snap.0ad.hook.x"), (bs "0ad"), None, (bs "x"). vm_compute. auto. Qed.
Print Assumptions C24_is_hook_tag_refuted.

(* non-vacuity *)
Example C24_names_nonvacuous :
  valid_snap_name (bs "hello-world") = true /\ valid_snap_name (bs "hello-") = false /\
  valid_instance_name (bs "hello-world_prod1") = true /\ valid_component (bs "hello+extras") = true.
Proof. vm_compute. repeat split; reflexivity. Qed.

Example C24_tags_nonvacuous :
  go_validate_instance (bs "foo_bar") = true /\ comp_ok go_validate_snap (Some (bs "comp")) = true /\
  go_validate_hook (bs "install") = true /\
  model_tag (bs "foo_bar") (Some (bs "comp")) true (bs "install") = bs "snap.foo_bar+comp.hook.install" /\
  go_parse_security_tag (bs "snap.foo_bar+comp.hook.install") = Some (bs "foo_bar", Some (bs "comp"), true, bs "install").
Proof. vm_compute. repeat split; reflexivity. Qed.

Example C24_other_nonvacuous :
  valid_app_name (bs "Foo-1") = true /\ valid_hook_name (bs "pre-refresh") = true /\ valid_hook_name (bs "0h") = false /\
  valid_alias_name (bs "a.b_c-d") = true /\ valid_alias_name (bs ".a") = false /\
  valid_snap_id_name (bs "abcdefghijklmnopqrstuvwxyz012345") = true /\ valid_dashed_name (bs "x") = true /\ valid_snap_name (bs "x") = false.
Proof. vm_compute. repeat split; reflexivity. Qed.
