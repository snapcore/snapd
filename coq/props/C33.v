(* C33 — version comparison is a consistent Debian-style ordering.
   This file holds the property theorems only: statement, a short derivation from proofs/VersionProofs.v, VersionOrder.v, VersionDpkg.v, Print Assumptions.
   Model: models/Version.v (strutil/version.go function by function; chOrder regenerated into gen/ChOrder.v). *)
From Coq Require Import List NArith ZArith Bool String Lia.
Open Scope string_scope.
Require Import V.lib.Bytes V.models.Version V.proofs.VersionProofs V.proofs.VersionOrder V.proofs.VersionDpkg.

(* versions with an epoch ("<digits>:" prefix) are rejected, and nothing else is *)
Theorem C33_epoch_rejected : forall a b : bytes,
  version_compare a b = Invalid <-> (match_epoch a = true \/ match_epoch b = true).
Proof. intros a b; split; [apply invalid_only_epoch | apply epoch_rejected]. Qed.
Print Assumptions C33_epoch_rejected.

(* the comparison is total: the model's fuel (the loop bound of compareSubversion) is never exhausted,
   so every theorem below speaks about a real result *)
Theorem C33_total : forall a b : bytes, version_compare a b <> OutOfFuel.
Proof. exact version_compare_total. Qed.
Print Assumptions C33_total.

(* reflexive: every version without an epoch compares equal to itself *)
Theorem C33_reflexive : forall a : bytes, match_epoch a = false -> version_compare a a = Res 0%Z.
Proof. exact version_compare_refl. Qed.
Print Assumptions C33_reflexive.

(* swapping the operands flips the sign, for all byte strings *)
Theorem C33_sign_flip : forall (a b : bytes) (r : Z),
  version_compare a b = Res r -> version_compare b a = Res (- r)%Z.
Proof. exact version_compare_flip. Qed.
Print Assumptions C33_sign_flip.

(* antisymmetric: a <= b and b <= a only when they compare equal (both ways) *)
Theorem C33_antisymmetric : forall (a b : bytes) (x y : Z),
  version_compare a b = Res x -> version_compare b a = Res y -> (x <= 0)%Z -> (y <= 0)%Z -> x = 0%Z /\ y = 0%Z.
Proof. intros a b x y Hab Hba Hx Hy. apply version_compare_flip in Hab. rewrite Hab in Hba. inversion Hba. lia. Qed.
Print Assumptions C33_antisymmetric.

(* results are exactly -1, 0 or +1 *)
Theorem C33_result_range : forall (a b : bytes) (r : Z), version_compare a b = Res r -> (r = -1 \/ r = 0 \/ r = 1)%Z.
Proof. exact version_compare_tri. Qed.
Print Assumptions C33_result_range.

(* transitive, for ALL byte strings without NUL (0 < byte < 256; NUL is the padding byte of cmpString): if a <= b and
   b <= c then a <= c, strictly when either step is strict; and symmetrically for >=. `st x y z` is exactly that
   statement about the three results (proofs/VersionOrder.v). No bound on the lengths: the proof is by induction over the
   loop of compareSubversion, using the regenerated chOrder table only through three facts checked on all 256 bytes. *)
Theorem C33_transitive : forall (a b c : bytes) (x y : Z),
  ok a = true -> ok b = true -> ok c = true ->
  version_compare a b = Res x -> version_compare b c = Res y ->
  exists z, version_compare a c = Res z /\
    ((x <= 0 -> y <= 0 -> z <= 0 /\ (x < 0 \/ y < 0 -> z < 0)) /\
     (x >= 0 -> y >= 0 -> z >= 0 /\ (x > 0 \/ y > 0 -> z > 0)))%Z.
Proof. exact version_compare_trans. Qed.
Print Assumptions C33_transitive.

(* versions that compare equal are interchangeable: they compare alike against every third version *)
Theorem C33_equal_is_congruence : forall (a b c : bytes) (y : Z),
  ok a = true -> ok b = true -> ok c = true ->
  version_compare a b = Res 0%Z -> version_compare b c = Res y -> version_compare a c = Res y.
Proof. exact version_eq_congruence. Qed.
Print Assumptions C33_equal_is_congruence.

(* non-vacuity: a strict chain 1.0~rc1 < 1.0 < 1.0-1 meets the hypotheses *)
Example C33_transitive_nonvacuous :
  ok (bs "1.0~rc1") = true /\ ok (bs "1.0") = true /\ ok (bs "1.0-1") = true /\
  version_compare (bs "1.0~rc1") (bs "1.0") = Res (-1)%Z /\ version_compare (bs "1.0") (bs "1.0-1") = Res (-1)%Z.
Proof. vm_compute. repeat split; reflexivity. Qed.

(* the same statement in its boolean form on a complete finite domain (all strings of length <= 2 over the bytes
   `0 a . ~ -`): an instance of C33_transitive *)
Theorem C33_transitive_small_domain : forall a b c : bytes,
  In a small_domain -> In b small_domain -> In c small_domain -> trans_ok a b c = true.
Proof. intros a b c Ha Hb Hc. apply trans_ok_all; apply (all_strings_over okb small_alpha 2); trivial. Qed.
Print Assumptions C33_transitive_small_domain.

(* agreement with Debian ordering — FULL, unbounded. For ALL byte strings a b made of real non-NUL bytes (`ok`: 0 < byte < 256)
   that are structurally valid Debian versions (`debian_wf`: no NUL, no epoch, non-empty upstream part, non-empty revision
   after a hyphen), version_compare returns exactly what dpkg_compare returns, where dpkg_compare is the independent model of
   dpkg's verrevcmp (first the upstream parts, then the revisions; a missing revision is "0" for snapd and "" for dpkg).
   No bound on the lengths: proofs/VersionDpkg.v is a simulation between the fragment loop of compareSubversion and the
   character loop of verrevcmp; the regenerated chOrder table enters through one fact about all 256 x 256 pairs of symbols
   (the two orders sort every pair the same way, except digit against end-of-string), which rests on a comparison of the two
   orders checked on each of the 256 symbols. `ok` is needed beyond debian_wf only to
   say that list elements are bytes (< 256); it implies the no-NUL part of debian_wf (VersionDpkg.ok_no_nul). *)
Theorem C33_matches_debian : forall a b : bytes,
  ok a = true -> ok b = true -> debian_wf a = true -> debian_wf b = true ->
  exists r, version_compare a b = Res r /\ dpkg_compare a b = Some r.
Proof. exact version_compare_matches_dpkg. Qed.
Print Assumptions C33_matches_debian.

(* the same in the boolean form evaluated by the monitor and by the finite-domain check below *)
Theorem C33_matches_debian_bool : forall a b : bytes, ok a = true -> ok b = true -> debian_ok a b = true.
Proof. exact debian_ok_all. Qed.
Print Assumptions C33_matches_debian_bool.

(* the level below: compareSubversion has the sign of verrevcmp on any two NUL-free byte strings, provided the first position
   is not (empty, starts with a digit) — there snapd pads with a byte that sorts before digits while dpkg reads a missing
   number as 0. debian_wf (non-empty parts) excludes exactly that. *)
Theorem C33_subversion_matches_verrevcmp : forall va vb : bytes, ok va = true -> ok vb = true -> first_ok va vb = true ->
  exists d, compare_subversion va vb = Some (sgn d) /\ dpkg_verrevcmp (sub_fuel va vb) va vb = Some d.
Proof. exact subversion_matches_dpkg. Qed.
Print Assumptions C33_subversion_matches_verrevcmp.

(* non-vacuity: real versions meet the hypotheses, with and without a revision *)
Example C33_matches_debian_nonvacuous :
  ok (bs "1.0~rc1-2") = true /\ ok (bs "1.0-0ubuntu1") = true /\ ok (bs "1.0") = true /\
  debian_wf (bs "1.0~rc1-2") = true /\ debian_wf (bs "1.0-0ubuntu1") = true /\ debian_wf (bs "1.0") = true /\
  version_compare (bs "1.0~rc1-2") (bs "1.0-0ubuntu1") = Res (-1)%Z /\ version_compare (bs "1.0") (bs "1.0-0ubuntu1") = Res (-1)%Z.
Proof. vm_compute. repeat split; reflexivity. Qed.

(* the non-emptiness hypothesis is needed: against the empty string (not a Debian version) "0" is greater for snapd, equal for dpkg *)
Example C33_matches_debian_needs_nonempty :
  version_compare (bs "0") nil = Res 1%Z /\ dpkg_compare (bs "0") nil = Some 0%Z.
Proof. vm_compute. split; reflexivity. Qed.

(* the instance on a complete finite domain (all strings of length <= 3 over the bytes `0 a . ~ -`) *)
Theorem C33_matches_debian_small_domain : forall a b : bytes,
  In a debian_domain -> In b debian_domain -> debian_ok a b = true.
Proof. intros a b Ha Hb. apply debian_ok_all; apply (all_strings_over okb small_alpha 3); trivial. Qed.
Print Assumptions C33_matches_debian_small_domain.
