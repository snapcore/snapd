(* C02 — tasks never start before the tasks they wait for have finished.
   This file holds the property theorems only: statement, a proof of a line or two from the lemmas of proofs/ (or the evaluation of an example), Print Assumptions.
   Model: models/TaskEngine.v (overlord/state taskrunner.go / task.go / change.go function by function).
   An execution is an arbitrary list of events  Ensure order | Finish t outcome | UAbort | Tick d | Resolve t
   applied to the initial state of an arbitrary task graph g (no well-formedness assumption is needed below).
   The engine state carries the log of handler starts; every entry records the statuses of the prerequisites
   (wait tasks for a do handler, halt tasks for an undo handler) at the instant of the start. *)
From Coq Require Import List ZArith.
Import ListNotations.
Require Import V.models.TaskEngine V.proofs.TaskEngineProofs V.proofs.TaskEngineReady V.proofs.TaskEngineDoing.

(* Every handler start in every execution: the schedule gate was open (not before Task.atTime), and when the start
   is a fresh one (the Do->Doing or Undo->Undoing write) a do handler saw all its wait tasks Done and an undo handler
   saw all its halt tasks ready. *)
Theorem C02_fresh_start_requires_prereqs : forall (g : list tdesc) (es : list event),
  Forall (fun r : start_rec =>
            sr_gate r = true /\
            (sr_fresh r = true ->
             if sr_undo r then forallb ready (sr_pre r) = true
             else forallb (fun x => seqb x Done) (sr_pre r) = true))
         (slog (run_events (init_state g) es)).
Proof. exact start_log_ok. Qed.
Print Assumptions C02_fresh_start_requires_prereqs.

(* Do side, EVERY start (fresh or re-run). A task left in Doing by Retry is started again without a status write and
   without consulting mustWait; it still sees all its wait tasks Done, because in every reachable state a task in
   Doing has all wait tasks Done: an abort that moves a wait task Done->Undo also moves every task waiting on it
   Doing->Abort (worklist closure of abortTasks under halt edges). Over every non-empty graph and every event list in
   which user aborts are issued on unready changes only (guarded: the REST API's rule, the property's quantifier).
   No fuel hypothesis: the model's fuel bounds are never hit (C01_abort_fuel / TaskEngineFuel.oof_never). *)
Theorem C02_rerun_do_sees_prereqs_done : forall (g : list tdesc) (es : list event),
  g <> [] -> guarded (init_state g) es ->
  let s := run_events (init_state g) es in
  (forall t w, st s t = Doing -> In w (t_waits (get s t)) -> st s w = Done) /\
  Forall (fun r : start_rec => sr_undo r = false -> forallb (fun x => seqb x Done) (sr_pre r) = true) (slog s).
Proof. exact doing_prereqs_done_total. Qed.
Print Assumptions C02_rerun_do_sees_prereqs_done.

(* Undo side, re-runs: KNOWN FINDING undo-rerun-sees-handlerless-dependent-in-undo. The literal statement `every
   start of an undo handler, fresh or not, saw all halt tasks ready` is FALSE of the faithful model when a halt task
   has no undo handler (for fresh starts it is proved above): *)
Theorem C02_undo_rerun_refuted : exists (g : list tdesc) (es : list event),
  oof (run_events (init_state g) es) = false /\ panicked (run_events (init_state g) es) = false /\
  exists r, In r (slog (run_events (init_state g) es)) /\ sr_undo r = true /\ forallb ready (sr_pre r) = false.
Proof.
  exists [([], [], true); ([], [0], false); ([], [], true)].
  exists [Ensure [0;1;2]; Finish 0 OOk; Ensure [0;1;2]; Finish 1 OOk; Finish 2 OErr; Ensure [1;0;2];
          UAbort; Finish 0 (ORetry 0); Ensure [0;1;2]].
  split; [vm_compute; reflexivity|]. split; [vm_compute; reflexivity|].
  exists (mkSR 0 true [Undo] true false). split; [vm_compute; left; reflexivity|]. split; reflexivity.
Qed.
Print Assumptions C02_undo_rerun_refuted.

(* Ensure never starts a task whose scheduled time lies in the future ... *)
Theorem C02_at_time_gate : forall (s : state) (t : nat),
  gate_open s t = false -> running (ensure_one s t) = running s.
Proof. exact ensure_one_gate. Qed.
Print Assumptions C02_at_time_gate.

(* ... and Retry{After: d} from a handler whose task was not aborted schedules the task at now + d *)
Theorem C02_retry_schedules : forall (s : state) (t : nat) (d : Z),
  panicked s = false -> memn t (running s) = true -> t < length (tasks s) -> st s t <> Abort -> d <> 0%Z ->
  t_at (get (finish s t (ORetry d)) t) = (now s + d)%Z.
Proof. exact retry_sets_at. Qed.
Print Assumptions C02_retry_schedules.

(* a task in Do with a prerequisite that is not Done - in particular one in Wait (reboot pending) - is not touched by
   Ensure; it can only start after Resolve has given the prerequisite its waited status Done *)
Theorem C02_wait_blocks : forall (s : state) (t w : nat),
  st s t = Do -> In w (t_waits (get s t)) -> st s w <> Done -> ensure_one s t = s.
Proof.
  intros s t w Hs Hin Hw. apply ensure_one_must_wait; [rewrite Hs; discriminate | eapply must_wait_do; eauto].
Qed.
Print Assumptions C02_wait_blocks.

(* a task in Undo with a halt task that is still pending or running is not touched by Ensure *)
Theorem C02_undo_blocks : forall (s : state) (t h : nat),
  st s t = Undo -> In h (t_halts (get s t)) -> ready (st s h) = false -> ensure_one s t = s.
Proof.
  intros s t h Hs Hin Hh. apply ensure_one_must_wait; [rewrite Hs; discriminate | eapply must_wait_undo; eauto].
Qed.
Print Assumptions C02_undo_blocks.

(* non-vacuity: a chain 0 <- 1 <- 2 in which task 2 fails; the log has five entries, three do starts and two undo
   starts with non-empty prerequisite snapshots *)
Example C02_nonvacuous :
  let g := [([], [], true); ([], [0], true); ([], [1], true)] in
  let es := [Ensure [0;1;2]; Finish 0 OOk; Ensure [2;1;0]; Finish 1 OOk; Ensure [0;1;2]; Finish 2 OErr;
             Ensure [0;1;2]; Finish 1 OOk; Ensure [0;1;2]] in
  map (fun r => (sr_t r, sr_undo r, sr_pre r)) (slog (run_events (init_state g) es))
  = [(0, true, [Undone]); (1, true, [Error]); (2, false, [Done]); (1, false, [Done]); (0, false, [])].
Proof. vm_compute. reflexivity. Qed.
