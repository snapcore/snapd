(* C35 — revisions and epochs round-trip; epoch compatibility is set intersection.
   This file holds the property theorems only: statement, a short derivation from proofs/RevEpochProofs.v, EpochJsonProofs.v, Print Assumptions.
   Model: models/RevEpoch.v (snap/revision.go and snap/epoch.go function by function). *)
From Coq Require Import List NArith ZArith Bool.
Import ListNotations.
Require Import V.lib.Bytes V.lib.Dec V.models.RevEpoch V.proofs.RevEpochProofs V.proofs.EpochJsonProofs.

(* every revision except the single integer -2^63 reads back unchanged from its string, JSON and YAML forms *)
Theorem C35_revision_roundtrip : forall n : Z, (min64 < n <= max64)%Z ->
  parse_revision (rev_string n) = Some n /\
  rev_unmarshal_json (rev_marshal_json n) = Some n /\
  rev_unmarshal_yaml (rev_string n) = Some n.
Proof. exact revision_roundtrip. Qed.
Print Assumptions C35_revision_roundtrip.

(* ... and for n = -2^63 the full statement is false of the faithful model: String gives x-9223372036854775808,
   which ParseRevision rejects (KNOWN_FINDINGS key rev-minint64; replayed on the implementation on every run) *)
Theorem C35_minint_refuted : exists n : Z, (min64 <= n <= max64)%Z /\ parse_revision (rev_string n) = None.
Proof. exists min64. split; [unfold min64, max64; split; discriminate | vm_compute; reflexivity]. Qed.
Print Assumptions C35_minint_refuted.

(* invalid revision strings are rejected: whatever ParseRevision accepts is `unset`, or an optionally x-prefixed,
   optionally signed, non-empty run of decimal digits; the result is 0 exactly for `unset`, and never -2^63 *)
Theorem C35_revision_rejects : forall (s : bytes) (n : Z), parse_revision s = Some n ->
  rev_shape s = true /\ (n = 0%Z <-> s = unset_b) /\ (min64 < n <= max64)%Z.
Proof. exact parse_revision_accepts. Qed.
Print Assumptions C35_revision_rejects.

(* the YAML entry point accepts exactly what ParseRevision accepts *)
Theorem C35_yaml_is_parse : forall s : bytes, rev_unmarshal_yaml s = parse_revision s.
Proof. exact yaml_is_parse. Qed.
Print Assumptions C35_yaml_is_parse.

(* an epoch can read the data of another exactly when its read set meets the other's write set, empty meaning {0} *)
Theorem C35_can_read_iff : forall e o : epoch,
  can_read e o = true <-> exists x : N, In x (read_set e) /\ In x (write_set o).
Proof. exact can_read_iff. Qed.
Print Assumptions C35_can_read_iff.

(* every epoch Validate accepts can read its own data *)
Theorem C35_valid_reads_self : forall e : epoch, validate e = 0%N -> can_read e e = true.
Proof. exact valid_reads_self. Qed.
Print Assumptions C35_valid_reads_self.

(* what Validate accepts: the zero epoch, or two strictly increasing lists of at most 10 entries that intersect *)
Theorem C35_validate_spec : forall e : epoch, validate e = 0%N ->
  is_zero e = true \/
  ((length (lst (e_read e)) <= 10)%nat /\ (length (lst (e_write e)) <= 10)%nat /\
   is_increasing (lst (e_read e)) = true /\ is_increasing (lst (e_write e)) = true /\
   exists x, In x (lst (e_read e)) /\ In x (lst (e_write e))).
Proof.
  intros e H. destruct (validate_ok e H) as (_ & _ & [Z|(A & B & C & D & I)]); [left; exact Z|right].
  apply intersect_iff in I. auto.
Qed.
Print Assumptions C35_validate_spec.

(* epoch round-trip. Every valid epoch (entries < 2^32) reads back Equal
   (a) from its printed form String(): the short forms `0`, `N`, `N*` through Epoch.fromString ... *)
Theorem C35_epoch_short_roundtrip : forall e : epoch,
  validate e = 0%N -> wf32 e -> is_short (epoch_string e) = true ->
  exists e', from_string (epoch_string e) = Some e' /\ epoch_equal e e' = true.
Proof. exact epoch_short_roundtrip. Qed.
Print Assumptions C35_epoch_short_roundtrip.

(* ... and the structured form {"read":[...],"write":[...]} through the object reader + Epoch.fromStructured; *)
Theorem C35_epoch_structured_roundtrip : forall e : epoch,
  validate e = 0%N -> wf32 e -> is_short (epoch_string e) = false ->
  exists e', epoch_unmarshal_json (epoch_string e) = Some e' /\ epoch_equal e e' = true.
Proof. exact epoch_string_structured_roundtrip. Qed.
Print Assumptions C35_epoch_structured_roundtrip.

(* (b) from its MarshalJSON form (always structured, empty lists printed as [0]).
   PARTIAL only in this respect: encoding/json itself is not modelled; `epoch_unmarshal_json` reads exactly the byte
   language json.Marshal produces for these values (no white space, fixed key order). That Go's decoder agrees with it
   on those bytes is checked by the differential run on every generated epoch (mismatch compares the model's reading of
   the marshalled bytes with the implementation's parse-back); other JSON spellings of the same object are outside the model. *)
Theorem C35_epoch_marshal_roundtrip : forall e : epoch,
  validate e = 0%N -> wf32 e ->
  exists e', epoch_unmarshal_json (epoch_marshal_json e) = Some e' /\ epoch_equal e e' = true.
Proof. exact epoch_marshal_roundtrip. Qed.
Print Assumptions C35_epoch_marshal_roundtrip.

(* non-vacuity: {read:[1,2,5], write:[5]} is valid, prints in the structured form and reads back *)
Example C35_structured_example :
  let e := mkEpoch (Some [1; 2; 5]%N) (Some [5]%N) in
  validate e = 0%N /\ is_short (epoch_string e) = false /\
  epoch_unmarshal_json (epoch_string e) = Some e /\ epoch_unmarshal_json (epoch_marshal_json e) = Some e.
Proof. vm_compute. repeat split; reflexivity. Qed.

(* the monitor's independent statement of which epochs are valid (zero epoch, or no explicitly empty list, at most 10
   entries per list, strictly increasing, a common element) is exactly what the model of Validate accepts *)
Theorem C35_valid_spec_is_validate : forall e : epoch, valid_spec e = (validate e =? 0)%N.
Proof. exact valid_spec_is_validate. Qed.
Print Assumptions C35_valid_spec_is_validate.
