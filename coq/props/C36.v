(* C36 - accepted quota groups always fit inside their parents.
   This file holds the property theorems only: statement, a proof of a line or two from the lemmas of the proofs file,
   Print Assumptions.
   Model: models/Quota.v (snap/quota/quota.go and resources.go function by function). `run ncpu [] qs` is the forest of
   groups after the history qs of NewGroup / NewSubGroup / UpdateQuotaLimits requests, refused requests leaving it as it was.
   All theorems quantify over EVERY history (no bound on length, depth or values; values are unbounded integers).

   FULL STATEMENT (kept visible): after every history, for every group with a memory, thread or CPU limit the sum over its
   sub-groups of max(sub-group limit, sub-group reservation) is within the limit, every group's cpu set lies within the
   nearest ancestor's, and a refused request changes nothing.
   PROVED: memory and threads (C36_fit_invariant_mem_threads_partial, C36_every_group_fits_mem_threads), nesting of cpu sets
   (C36_cpuset_nesting), refusal (C36_refused_unchanged).
   REFUTED on the faithful model and on the real code: the CPU part (C36_cpu_fit_refuted, C36_cpu_fit_numcpu_cap_refuted;
   KNOWN_FINDINGS keys cpuset-change-over-count0-group and cpu-percentage-only-sized-beyond-numcpu; a third defect,
   cpu-check-stops-at-cpuset-only-ancestor, was repaired in /repo commit 731c638 and is now a regression case).
   GUARDED CPU theorem (C36_cpu_fit_no_percentage_only_partial): the CPU fit holds after every history without
   percentage-only (count 0) cpu quotas. NOT PROVED: the CPU fit for histories with percentage-only quotas under a guard
   that only forbids changes of their effective cpu set; there the fit is monitored on the implementation's observed
   trees in every run (Quota.inv_cpu), which is testing, not proof. *)
From Coq Require Import List ZArith NArith Bool.
Import ListNotations.
Require Import V.models.Quota V.proofs.QuotaProofs.
Open Scope Z_scope.

(* after every history of requests, every tree of the forest fits for memory and for threads *)
Theorem C36_fit_invariant_mem_threads_partial : forall (ncpu : Z) (qs : list req),
  inv_mem (run ncpu [] qs) = true /\ inv_thr (run ncpu [] qs) = true.
Proof. exact fit_invariant_mem_threads. Qed.
Print Assumptions C36_fit_invariant_mem_threads_partial.

(* the same, group by group: any group x anywhere in the forest that has a memory (thread) limit holds the combined
   reservations of its sub-groups, resv being the sum over the sub-groups of max(limit, reservation) *)
Theorem C36_every_group_fits_mem_threads : forall (ncpu : Z) (qs : list req) (root x : group),
  In root (run ncpu [] qs) -> in_tree x root ->
  (l_mem (lim x) <> 0 -> resv l_mem x <= l_mem (lim x)) /\
  (l_thr (lim x) <> 0 -> resv l_thr x <= l_thr (lim x)).
Proof. intros ncpu qs root x Hr Hx. destruct (fit_invariant_mem_threads ncpu qs) as [Hm Ht]. unfold inv_mem, inv_thr in *. rewrite forallb_forall in Hm, Ht. split; intro H; [exact (fits_spec _ _ (Hm _ Hr) x Hx H)|exact (fits_spec _ _ (Ht _ Hr) x Hx H)]. Qed.
Print Assumptions C36_every_group_fits_mem_threads.

Theorem C36_reservation_is_sum_of_max : forall (f : limits -> Z) i l ss,
  resv f (G i l ss) = fold_right (fun c acc => Z.max (f (lim c)) (resv f c) + acc) 0 ss.
Proof. reflexivity. Qed.
Print Assumptions C36_reservation_is_sum_of_max.

(* after every history, every group's own cpu set lies within the cpu set of the nearest ancestor that has one *)
Theorem C36_cpuset_nesting : forall (ncpu : Z) (qs : list req), inv_set (run ncpu [] qs) = true.
Proof. intros ncpu qs. apply (run_inv ncpu InvS (fun _ => True)); [|apply Forall_forall; auto|reflexivity]. intros st q st' HI _. exact (step_preserves_sets _ _ _ _ HI). Qed.
Print Assumptions C36_cpuset_nesting.

(* a refused request leaves the groups unchanged: the rest of the history runs from the same forest *)
Theorem C36_refused_unchanged : forall (ncpu : Z) (st : forest) (q : req) (qs : list req),
  step ncpu st q = None -> run ncpu st (q :: qs) = run ncpu st qs.
Proof. intros ncpu st q qs H. cbn [run]. rewrite H. reflexivity. Qed.
Print Assumptions C36_refused_unchanged.

(* the CPU part of the property is false. Witness 1 (finding 3): parent 2x100% with cpu set {0,1}, child 50% (count 0, so
   its reservation is percentage x size of the inherited set); enlarging the parent's cpu set to {0..7} is accepted and
   the child's reservation becomes 400 > 200 *)
Theorem C36_cpu_fit_refuted : exists (ncpu : Z) (qs : list req),
  all_accepted ncpu qs = true /\ inv_cpu ncpu (run ncpu [] qs) = false.
Proof. exists 8, cpu_witness_1. split; vm_compute; reflexivity. Qed.
Print Assumptions C36_cpu_fit_refuted.

(* Witness 3: no effective cpu set changes, yet the fit breaks. Group 12x100% over a 12-entry cpu set on an 8-cpu machine
   with sub-groups 4x100, 4x100, 2x100 (1000); UpdateQuotaLimits(cpu 0x100%, same set) is sized as 12x100 = 1200 by the
   validator and accepted, but GetLocalCPUQuota caps the count at NumCPU: the group now reserves 800 < 1000 *)
Theorem C36_cpu_fit_numcpu_cap_refuted : exists (ncpu : Z) (qs : list req),
  all_accepted ncpu qs = true /\ inv_cpu ncpu (run ncpu [] qs) = false.
Proof. exists 8, cpu_witness_3. split; vm_compute; reflexivity. Qed.
Print Assumptions C36_cpu_fit_numcpu_cap_refuted.

(* the former witness 2 (root 2x25%, child with only a cpu set {0,2,4,5}, grandchild 4x100%) is refused since the repair of
   validateCPUResourceFit in /repo commit 731c638, and the fit holds after that history *)
Example C36_ex_set_only_ancestor_now_refused :
  step 8 (run 8 [] (firstn 2 cpu_witness_2)) (RSub [0%nat; 0%nat] 3 (mkRes None (Some (4, 100)) None None)) = None /\
  inv_cpu 8 (run 8 [] cpu_witness_2) = true.
Proof. split; vm_compute; reflexivity. Qed.

(* GUARDED CPU theorem - PARTIAL. The guard is stronger than `no accepted request changes the effective cpu set of a
   percentage-only group`: it excludes percentage-only quotas altogether. For every history in which every requested cpu
   quota has a count >= 1 and a percentage >= 1 (cpu sets, memory and threads arbitrary), the cpu fit holds after the
   history: every group with a cpu quota holds the combined effective reservations of its sub-groups. Together with the
   two refutations this says: all cpu-fit defects of the (repaired) code need a percentage-only quota.
   Missing for the weaker guard: see notes/C36.md (C36_cpu_fit_numcpu_cap_refuted shows that guard alone is not enough). *)
Theorem C36_cpu_fit_no_percentage_only_partial : forall (ncpu : Z) (qs : list req),
  Forall (fun q => match r_cpu (req_res q) with Some (c, p) => 0 < c /\ 0 < p | None => True end) qs ->
  inv_cpu ncpu (run ncpu [] qs) = true.
Proof. exact cpu_fit_without_percentage_only. Qed.
Print Assumptions C36_cpu_fit_no_percentage_only_partial.

(* non-vacuity: histories with accepted nested creations and updates exist, requests are refused for lack of room, and
   the invariant is not trivially true of arbitrary forests *)
Definition mib (n : Z) : Z := n * 1024 * 1024.
Definition ex_hist : list req :=
  [ RNew 1 (mkRes (Some (mib 4)) None None None);
    RSub [0%nat] 2 (mkRes None None None (Some 8));
    RSub [0%nat; 0%nat] 3 (mkRes (Some (mib 2)) None None None);
    RSub [0%nat; 0%nat] 4 (mkRes (Some (mib 2)) None None None);
    RSub [0%nat] 5 (mkRes (Some (mib 1)) None None None);                 (* refused: 2+2+1 > 4 *)
    RUpd [0%nat; 0%nat; 1%nat] (mkRes (Some (mib 3)) None None None);     (* refused *)
    RUpd [0%nat] (mkRes (Some (mib 5)) None None None);                   (* accepted *)
    RUpd [0%nat; 0%nat; 1%nat] (mkRes (Some (mib 3)) None None None) ].   (* now accepted *)
Example C36_ex_run : run 4 [] ex_hist =
  [G 1 (mkLim (mib 5) 0 0 0 []) [G 2 (mkLim 0 8 0 0 []) [G 3 (mkLim (mib 2) 0 0 0 []) []; G 4 (mkLim (mib 3) 0 0 0 []) []]]].
Proof. vm_compute. reflexivity. Qed.
Example C36_ex_refused : step 4 (run 4 [] (firstn 4 ex_hist)) (RSub [0%nat] 5 (mkRes (Some (mib 1)) None None None)) = None.
Proof. vm_compute. reflexivity. Qed.
Example C36_ex_not_trivial : inv_mem [G 1 (mkLim (mib 1) 0 0 0 []) [G 2 (mkLim (mib 2) 0 0 0 []) []]] = false.
Proof. vm_compute. reflexivity. Qed.

(* the guard of C36_cpu_fit_no_percentage_only_partial is satisfiable by a history with nested cpu quotas, cpu sets and a
   refusal for lack of cpu room *)
Definition ex_cpu_hist : list req :=
  [ RNew 1 (mkRes None (Some (2, 100)) (Some [0; 1]) None);
    RSub [0%nat] 2 (mkRes (Some (mib 1)) None None None);
    RSub [0%nat; 0%nat] 3 (mkRes None (Some (1, 50)) None None);
    RSub [0%nat; 0%nat] 4 (mkRes None (Some (1, 100)) (Some [1]) None);
    RSub [0%nat] 5 (mkRes None (Some (1, 100)) None None);               (* refused: 50 + 100 + 100 > 200 *)
    RUpd [0%nat; 0%nat; 0%nat] (mkRes None (Some (2, 50)) None None) ].  (* accepted: 100 + 100 = 200 *)
Example C36_ex_cpu_guard : Forall (fun q => match r_cpu (req_res q) with Some (c, p) => 0 < c /\ 0 < p | None => True end) ex_cpu_hist.
Proof. repeat constructor. Qed.
Example C36_ex_cpu_run : run 8 [] ex_cpu_hist =
  [G 1 (mkLim 0 0 2 100 [0; 1]) [G 2 (mkLim (mib 1) 0 0 0 []) [G 3 (mkLim 0 0 2 50 []) []; G 4 (mkLim 0 0 1 100 [1]) []]]].
Proof. vm_compute. reflexivity. Qed.
Example C36_ex_cpu_refused : step 8 (run 8 [] (firstn 4 ex_cpu_hist)) (RSub [0%nat] 5 (mkRes None (Some (1, 100)) None None)) = None.
Proof. vm_compute. reflexivity. Qed.
