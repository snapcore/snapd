(* C20 - assertions survive encoding and malformed input is rejected safely.

   Full statement of the property: every valid signed assertion decodes back from its encoding to an assertion with
   identical headers, body, revision and signature, also when several are streamed together; arbitrary or truncated
   input is rejected with an error and never crashes or hangs the decoder; the stream decoder enforces its limits on
   header, body and signature sizes.

   Proved here, for all inputs, on the model of asserts/headers.go and of the Decoder of asserts/asserts.go:
   the header text round trip for every normalised header tree of any depth, line splitting, totality of the header
   parser (no out-of-range index, termination within 2*lines+1 steps) on every byte string, the size bounds of
   readUntil and of every assertion a Decoder.Decode call hands on, and that Decoder.Decode never panics (the negative
   body-length panic found by this check is repaired in /repo, commit 94ffaa1),
   the byte-level round trip of a whole serialized assertion (C20_assertion_roundtrip), that bufio-style Peek does not
   depend on the reader's chunking (C20_peek_chunking_independent),
   and the stream round trip: Decoder.Decode called repeatedly on what one Encoder wrote for any list of assertions returns
   exactly those assertions, then EOF (C20_stream_roundtrip, by induction on the list through the doubling loop of readUntil).
   Not proved (monitored on the implementation by the differential run): that the result of the stream decoder does not
   depend on how the underlying reader splits the bytes (the model abstracts bufio.Reader.Peek as delivering the requested
   bytes; the driver reads every boundary-placed stream through readers handing out 1, 2, 3, 7, B-1, B, B+1 or random
   numbers of bytes per Read, also with the last bytes delivered together with EOF), the per-type checks of assemble, and
   absence of hangs in the real decoder. *)
From Coq Require Import List NArith ZArith Bool String Lia.
Import ListNotations.
Require Import V.lib.Bytes V.models.AssertCodec V.proofs.AssertCodecProofs V.proofs.AssertStreamProofs.
Open Scope string_scope.
Open Scope list_scope.
Open Scope N_scope.

Theorem C20_roundtrip : forall h, norm_headers h = true -> parse_header_lines (format_headers h) = Ok h.
Proof. exact roundtrip_lines. Qed.
Print Assumptions C20_roundtrip.

Theorem C20_roundtrip_bytes : forall h,
  norm_headers h = true -> h <> [] ->
  forallb no_nl (format_headers h) = true -> utf8_valid (join_lines (format_headers h)) = true ->
  parse_headers (join_lines (format_headers h)) = Ok h.
Proof. exact roundtrip_bytes. Qed.
Print Assumptions C20_roundtrip_bytes.

Theorem C20_split_join : forall ls, ls <> [] -> forallb no_nl ls = true -> split_lines (join_lines ls) = ls.
Proof. exact split_join. Qed.
Print Assumptions C20_split_join.

Theorem C20_join_split : forall s, join_lines (split_lines s) = s.
Proof. exact join_split. Qed.
Print Assumptions C20_join_split.

(* Decode (Encode a) at byte level: for every normalised header tree h, every body and every signature text, the
   serialized form (header lines, blank line + body if the body is not empty, blank line, signature) is split and
   parsed back to exactly (h, body, signature), and the signed content kept with the assertion is the original content,
   so that Encode of the decoded assertion is the original byte string (C20_reencode_identity).  Constraints of the
   format, all of them hypotheses: the lines of header strings contain no newline byte, the header text is valid UTF-8,
   the signature has no blank line inside and does not start with a newline.  The body is arbitrary (blank lines and
   trailing newlines included).  That assemble then accepts the parts (body-length header = length of the body,
   type-specific checks) is outside the model. *)
Theorem C20_assertion_roundtrip : forall h body sig,
  norm_headers h = true -> h <> [] ->
  forallb no_nl (format_headers h) = true -> utf8_valid (join_lines (format_headers h)) = true ->
  cut_first_nlnl sig = None -> has_prefix [NL] sig = false ->
  decode_parts (encode_assertion h body sig) = Ok (mkParts h body sig (content_of (join_lines (format_headers h)) body)).
Proof. exact assertion_roundtrip. Qed.
Print Assumptions C20_assertion_roundtrip.

Theorem C20_reencode_identity : forall h body sig,
  norm_headers h = true -> h <> [] ->
  forallb no_nl (format_headers h) = true -> utf8_valid (join_lines (format_headers h)) = true ->
  cut_first_nlnl sig = None -> has_prefix [NL] sig = false ->
  exists p, decode_parts (encode_assertion h body sig) = Ok p /\ encode (p_content p) (p_sig p) = encode_assertion h body sig.
Proof.
  intros h body sig Hn Hne Hl Hu Hs1 Hs2. eexists. split; [apply assertion_roundtrip; assumption|]. reflexivity.
Qed.
Print Assumptions C20_reencode_identity.

(* STREAM round trip.  Any list of assertions (normalised headers whose body-length is the length of the body, arbitrary
   body, signature text s without blank line, not ending in a newline, stored as s + newline) handed to ONE Encoder - each
   one complete or without the final newline of its signature (WriteEncoded / WriteContentSignature of a trimmed
   signature) - and then read back by calling Decoder.Decode repeatedly gives exactly those assertions (headers, body,
   signature, signed content), in order, and then EOF.  Side conditions: each component fits the limits in the sense of
   the doubling loop (lim_ok; for the production limits: header text and signature text <= 128 KiB - 2, body <= 2 MiB,
   C20_limits_default), initial buffer >= 1.  Holds for every incoming state of the sticky EOF flag. *)
Theorem C20_stream_roundtrip : forall lim (l : list (bool * item)) ef,
  1 <= l_buf lim -> Forall (fun x => wf_item (snd x)) l -> Forall (fun x => lim_ok lim (snd x)) l ->
  stream_all lim (mkD (encode_stream (enc_items l)) ef) (repeat true (S (List.length l)))
  = map (fun x => SOk (i_parts (snd x))) l ++ [SEof].
Proof. exact stream_roundtrip. Qed.
Print Assumptions C20_stream_roundtrip.

Theorem C20_limits_default : forall it,
  lenN (i_head it) + 2 <= 131072 -> lenN (i_body it) <= 2097152 -> lenN (i_s it) + 2 <= 131072 -> lim_ok default_limits it.
Proof.
  intros it H1 H2 H3. split; [apply ru_ok_default; exact H1|]. split; [exact H2|apply ru_ok_default; exact H3].
Qed.
Print Assumptions C20_limits_default.

(* readUntil returns the text up to and including the first blank line whenever the doubling loop can reach it *)
Theorem C20_read_until_finds : forall fuel size maxSize d e,
  delim_end (d_rem d) = Some e -> ru_ok fuel size maxSize e = true ->
  exists ef, read_until fuel size maxSize d = (RFound (takeN e (d_rem d)), mkD (dropN e (d_rem d)) ef).
Proof. intros fuel size maxSize d e He Hok. pose proof (read_until_spec fuel size maxSize d) as H. rewrite He in H. exact (H Hok). Qed.
Print Assumptions C20_read_until_finds.

(* bufio.Reader.Peek(n) over a reader that hands out its data in arbitrary pieces returns the first n of the bytes still
   to come, or all of them with EOF if there are fewer - whatever the pieces: this is the [peek] the stream decoder model
   is built on.  (Assumed about bufio: see models/AssertCodec.v at peek_fill.)  The stream decoder touches its reader
   only through peek and Discard, so its result does not depend on the chunking; that last lifting step is not a
   theorem here (monitored with the chopped readers). *)
Theorem C20_peek_chunking_independent : forall n buf1 chunks1 buf2 chunks2,
  buf1 ++ List.concat chunks1 = buf2 ++ List.concat chunks2 -> chunk_peek n buf1 chunks1 = chunk_peek n buf2 chunks2.
Proof. intros n buf1 chunks1 buf2 chunks2 H. rewrite !chunk_peek_flat. cbn zeta. rewrite H. reflexivity. Qed.
Print Assumptions C20_peek_chunking_independent.

Theorem C20_peek_is_flat_peek : forall n buf chunks,
  chunk_peek n buf chunks =
  let flat := buf ++ List.concat chunks in
  if Nat.ltb (List.length flat) n then (flat, true) else (firstn n flat, false).
Proof. exact chunk_peek_flat. Qed.
Print Assumptions C20_peek_is_flat_peek.

(* the parser never indexes out of range and never runs out of its fuel of 2*lines+1 steps, whatever the input *)
Theorem C20_no_panic : forall head, parse_headers head = Err \/ exists h, parse_headers head = Ok h.
Proof. exact parse_headers_total. Qed.
Print Assumptions C20_no_panic.

Theorem C20_no_panic_lines : forall ls, parse_header_lines ls = Err \/ exists h, parse_header_lines ls = Ok h.
Proof. exact parse_header_lines_total. Qed.
Print Assumptions C20_no_panic_lines.

(* readUntil never returns more than the limit (or the initial buffer size if that is larger) *)
Theorem C20_read_until_bound : forall fuel size maxSize d buf d',
  read_until fuel size maxSize d = (RFound buf, d') -> lenN buf <= N.max size maxSize.
Proof. intros fuel size maxSize d buf d' H. exact (read_until_any_bound _ _ _ _ _ _ H). Qed.
Print Assumptions C20_read_until_bound.

(* the loop of readUntil as written in Go searches only buf[last:] with last = size - len(delim) + 1 of the previous round;
   that overlap loses no delimiter: for every input it finds exactly what a search of the whole buffer finds (a delimiter
   straddling two rounds included).  All other theorems are stated on the whole-buffer form. *)
Theorem C20_read_until_overlap : forall fuel size maxSize d,
  1 <= size -> read_until_go fuel 0 size maxSize d = read_until fuel size maxSize d.
Proof.
  intros fuel size maxSize d Hs. apply read_until_overlap_gen; [exact Hs|lia|].
  apply delim_end_short. pose proof (takeN_len_le_size (0 + 1) (d_rem d)). lia.
Qed.
Print Assumptions C20_read_until_overlap.

Theorem C20_limits : forall lim d p d',
  stream_decode lim d = (SOk p, d') ->
  lenN (p_body p) <= l_body lim /\ lenN (p_sig p) <= N.max (l_buf lim) (l_sig lim).
Proof. intros lim d p d' H. pose proof (stream_decode_ok lim d) as Hok. rewrite H in Hok. exact Hok. Qed.
Print Assumptions C20_limits.

(* the stream decoder never panics, whatever the stream and the limits (a negative body-length is rejected with an
   error before the buffer is allocated; repaired in /repo commit 94ffaa1, see KNOWN_FINDINGS `fixed:`) *)
Theorem C20_stream_never_panics : forall lim d, fst (stream_decode lim d) <> SPanic.
Proof. exact stream_never_panics. Qed.
Print Assumptions C20_stream_never_panics.

Theorem C20_stream_loop_never_panics : forall accepted lim d, ~ In SPanic (stream_all lim d accepted).
Proof. exact stream_all_never_panics. Qed.
Print Assumptions C20_stream_loop_never_panics.

(* the input that panicked the decoder before /repo commit 94ffaa1 *)
Definition neg_length_stream : bytes := bs "body-length: -100" ++ [10; 10] ++ bs "x".

(* the normal-form hypothesis of the round trip is needed: an empty list inside a list is dropped by appendEntry
   (assembleAndSign accepts such headers; confirmed on the real code), a list of empty lists cannot be read back *)
Definition dropped_tree : list (bytes * hv) := [(bs "foo", Lst [Str [bs "a"]; Lst []])].
Definition unreadable_tree : list (bytes * hv) := [(bs "foo", Lst [Lst []])].

Theorem C20_roundtrip_any_tree_refuted :
  exists h, parse_header_lines (format_headers h) <> Ok h.
Proof. exists dropped_tree. vm_compute. discriminate. Qed.
Print Assumptions C20_roundtrip_any_tree_refuted.

(* non-vacuity *)
Example C20_ex_tree : list (bytes * hv) :=
  [(bs "type", Str [bs "test-only"]);
   (bs "plugs", Map [(bs "a", Lst [Str [bs "x"]; Lst [Str [bs "l1"; []; bs "  l3"]]; Map [(bs "k", Str [[]])]]);
                     (bs "b-2", Str [bs "- not a list"; bs "x: y"])])].
Example C20_ex_norm : norm_headers C20_ex_tree = true.
Proof. vm_compute. reflexivity. Qed.
Example C20_ex_roundtrip : parse_headers (join_lines (format_headers C20_ex_tree)) = Ok C20_ex_tree.
Proof. vm_compute. reflexivity. Qed.
Example C20_ex_assertion :
  decode_parts (encode_assertion C20_ex_tree (bs "body" ++ [10; 10] ++ bs "more" ++ [10]) (bs "AcLBXAQ=" ++ [10]))
  = Ok (mkParts C20_ex_tree (bs "body" ++ [10; 10] ++ bs "more" ++ [10]) (bs "AcLBXAQ=" ++ [10])
                (content_of (join_lines (format_headers C20_ex_tree)) (bs "body" ++ [10; 10] ++ bs "more" ++ [10]))).
Proof. vm_compute. reflexivity. Qed.
Definition C20_ex_item (body : bytes) (len : bytes) : item :=
  mkItem [(bs "type", Str [bs "test-only"]); (bs "body-length", Str [len]); (bs "note", Str [bs "a"; bs "b"])] body (bs "AcLB" ++ [10] ++ bs "XAQ=").
Example C20_ex_wf : wf_item (C20_ex_item (bs "body" ++ [10; 10] ++ bs "x") (bs "7")) /\ lim_ok default_limits (C20_ex_item (bs "body" ++ [10; 10] ++ bs "x") (bs "7")).
Proof. split; [unfold wf_item|unfold lim_ok]; repeat split; vm_compute; solve [reflexivity | discriminate]. Qed.
Example C20_ex_stream :
  let a := C20_ex_item (bs "body" ++ [10; 10] ++ bs "x") (bs "7") in
  let b := C20_ex_item [] (bs "0") in
  stream_all default_limits (mkD (encode_stream (enc_items [(true, a); (false, b); (true, a)])) false) (repeat true 4)
  = [SOk (i_parts a); SOk (i_parts b); SOk (i_parts a); SEof].
Proof. vm_compute. reflexivity. Qed.
Example C20_ex_dropped : parse_header_lines (format_headers dropped_tree) = Ok [(bs "foo", Lst [Str [bs "a"]])].
Proof. vm_compute. reflexivity. Qed.
Example C20_ex_unreadable : parse_header_lines (format_headers unreadable_tree) = Err.
Proof. vm_compute. reflexivity. Qed.
Example C20_ex_reject : parse_headers (bs "a:" ++ [10] ++ bs "  -") = Err.
Proof. vm_compute. reflexivity. Qed.
Example C20_ex_negative_length_rejected : fst (stream_decode default_limits (mkD neg_length_stream false)) = SErr.
Proof. vm_compute. reflexivity. Qed.
Example C20_ex_straddle :   (* the blank line sits on bytes 7 and 8, across the first 8-byte round *)
  fst (read_until_go ru_fuel 0 8 64 (mkD (repeat 97 7 ++ [10; 10] ++ repeat 98 20) false)) = RFound (repeat 97 7 ++ [10; 10]).
Proof. vm_compute. reflexivity. Qed.
Example C20_ex_limit : fst (read_until ru_fuel 16 64 (mkD (repeat 97 200) false)) = RTooBig.
Proof. vm_compute. reflexivity. Qed.
