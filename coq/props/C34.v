(* C34 - channel names normalise consistently; pinned tracks cannot be switched.
   This file holds the property theorems only: statement, a short derivation from proofs/ChannelProofs.v, Print Assumptions.
   Model: models/Channel.v (snap/channel/channel.go function by function); the risk list and the two defaults of
   Channel.Clean come from gen/ChannelRisks.v, regenerated from the Go source on every run.
   All theorems quantify over ALL byte strings / ALL Channel values (no bound). *)
From Coq Require Import List NArith Bool String.
Import ListNotations.
Require Import V.lib.Bytes V.gen.ChannelRisks V.models.Channel V.proofs.ChannelProofs.

(* normalising twice equals normalising once - for every Channel value, whether or not it came from the parser *)
Theorem C34_clean_idempotent : forall c : chan, clean (clean c) = clean c.
Proof. exact clean_idempotent. Qed.
Print Assumptions C34_clean_idempotent.

(* parsing a channel and printing it again is stable: whenever Parse(s, arch) succeeds with c, Parse(c.String(), arch)
   succeeds with the very same channel (architecture, name, track, risk and branch) *)
Theorem C34_parse_print_stable : forall (sys s arch : bytes) (c : chan),
  parse sys s arch = Some c -> parse sys (chan_string c) arch = Some c.
Proof. exact parse_print_stable. Qed.
Print Assumptions C34_parse_print_stable.

(* the full form of every parsed channel is track/risk[/branch]: the risk is one of the four, the shown track is never
   empty and is `latest` exactly when the channel has no track, and Channel.Full never panics *)
Theorem C34_full_names_track_and_risk : forall (sys s arch : bytes) (c : chan),
  parse sys s arch = Some c ->
  In (c_risk c) risks /\
  shown_track c <> [] /\
  (shown_track c = default_track <-> c_track c = []) /\
  chan_full c = Some (shown_track c ++ slash :: c_risk c ++ (if is_nil_b (c_branch c) then [] else slash :: c_branch c)).
Proof. exact full_names_track_and_risk. Qed.
Print Assumptions C34_full_names_track_and_risk.

(* the string-level Full(s): normalising twice equals normalising once, for every byte string on which it succeeds *)
Theorem C34_full_idempotent : forall s r : bytes, full_of_string s = Some r -> full_of_string r = Some r.
Proof. exact full_string_idempotent. Qed.
Print Assumptions C34_full_idempotent.

(* ... and its result is empty (no component in s) or track/risk or track/risk/branch with no empty component; where Full
   itself fills in or places the risk (s has one component, or two starting with a risk name) the risk position holds one of
   the four risks. Full does not validate a risk that the input supplies after a track: Full(foo/bar) = foo/bar and
   Full(a/b/c) = a/b/c, so `risk from the table` cannot be claimed for those inputs (it is claimed, and proved, for parsed
   channels in C34_full_names_track_and_risk). *)
Theorem C34_full_shape : forall s r : bytes, full_of_string s = Some r ->
  r = [] \/
  exists cs, split_slash r = cs /\ (List.length cs = 2%nat \/ List.length cs = 3%nat) /\
             Forall (fun c => c <> []) cs /\
             ((List.length (fields_slash s) = 1%nat \/
               (List.length (fields_slash s) = 2%nat /\ is_risk (hd [] (fields_slash s)) = true)) ->
              In (nth 1 cs []) risks).
Proof. exact full_string_shape. Qed.
Print Assumptions C34_full_shape.

(* a request that starts with a risk name is resolved to <current track>/<request> when the current channel has a track *)
Theorem C34_resolve_risk_first : forall (cur new : bytes) (ch : chan),
  parse_verbatim [] cur dash = Some ch -> is_nil_b new = false -> is_risk (hd_comp new) = true ->
  resolve cur new = Some (if is_nil_b (c_track ch) then new else c_track ch ++ slash :: new).
Proof. exact resolve_risk_first. Qed.
Print Assumptions C34_resolve_risk_first.

(* a risk-only (or risk/branch) request keeps the current track: the resolved channel parses, with the current track and
   the requested risk and branch.
   GUARD: the current track is not spelled like a risk name. The full statement (without `is_risk (c_track ch) = false`)
   is false, see C34_risk_only_track_named_like_risk_refuted. *)
Theorem C34_risk_only_keeps_track : forall (cur new : bytes) (ch nc : chan),
  parse_verbatim [] cur dash = Some ch ->
  parse_verbatim [] new dash = Some nc ->
  c_track nc = [] ->
  is_risk (c_track ch) = false ->
  exists r rc,
    resolve cur new = Some r /\
    r = (if is_nil_b (c_track ch) then new else c_track ch ++ slash :: new) /\
    parse_verbatim [] r dash = Some rc /\
    c_track rc = c_track ch /\ c_risk rc = c_risk nc /\ c_branch rc = c_branch nc.
Proof. exact risk_only_keeps_track. Qed.
Print Assumptions C34_risk_only_keeps_track.

(* ... and without the guard it fails: Resolve(edge/stable/hotfix, beta) = edge/beta, which the parser reads as
   risk edge, branch beta (KNOWN_FINDINGS key resolve-track-spelled-like-risk; replayed on the implementation on every run) *)
Theorem C34_risk_only_track_named_like_risk_refuted :
  exists cur new ch nc r rc,
    parse_verbatim [] cur dash = Some ch /\ parse_verbatim [] new dash = Some nc /\ c_track nc = [] /\
    resolve cur new = Some r /\ parse_verbatim [] r dash = Some rc /\ c_track rc <> c_track ch.
Proof. exact risk_only_refuted. Qed.
Print Assumptions C34_risk_only_track_named_like_risk_refuted.

(* under a pinned track a request is refused, or the result is the pinned track itself or starts with `track/`; and
   whatever the parser then reads in the result has exactly the pinned track: the pinned track cannot be switched *)
Theorem C34_pinned : forall track new : bytes, track <> [] ->
  match resolve_pinned track new with
  | POk r => (r = track \/ has_prefix (track ++ [slash]) r = true) /\
             (forall rc, parse_verbatim [] r dash = Some rc -> c_track rc = track)
  | PInvalid | PSwitch => True
  end.
Proof. exact pinned_cannot_switch. Qed.
Print Assumptions C34_pinned.

(* Resolve laws. Resolving twice equals resolving once: if cur parses and its track is not spelled like a risk name (the
   carve-out is exactly the class of the recorded finding; C34_resolve_idempotent_refuted shows it is needed), then
   Resolve(cur, Resolve(cur, new)) = Resolve(cur, new). The empty channel is a unit on both sides. *)
Theorem C34_resolve_idempotent : forall (cur new r : bytes) (ch : chan),
  parse_verbatim [] cur dash = Some ch -> is_risk (c_track ch) = false ->
  resolve cur new = Some r -> resolve cur r = Some r.
Proof. exact resolve_idempotent. Qed.
Print Assumptions C34_resolve_idempotent.

Theorem C34_resolve_idempotent_refuted : exists (cur new r : bytes) (ch : chan),
  parse_verbatim [] cur dash = Some ch /\ resolve cur new = Some r /\ resolve cur r <> Some r.
Proof.
  exists bad_cur, bad_new. eexists. eexists.
  split; [vm_compute; reflexivity|]. split; [vm_compute; reflexivity|]. vm_compute. discriminate.
Qed.
Print Assumptions C34_resolve_idempotent_refuted.

Theorem C34_resolve_units : forall s : bytes, resolve s [] = Some s /\ resolve [] s = Some s.
Proof. intros s. split; [reflexivity|]. unfold resolve. destruct s; reflexivity. Qed.
Print Assumptions C34_resolve_units.

(* under a pinned track (or none) resolving twice equals resolving once, for every track and every request - no guard *)
Theorem C34_pinned_idempotent : forall track new r : bytes,
  resolve_pinned track new = POk r -> resolve_pinned track r = POk r.
Proof. exact pinned_idempotent. Qed.
Print Assumptions C34_pinned_idempotent.

(* the system-level sentence, at the entry point snapd uses (overlord/snapstate resolveChannel): for the snap the device model
   pins to a track (its kernel with a kernel track, its gadget with a gadget track), every non-empty request - whatever the
   current channel is, also when the request spells the current channel - is refused or resolved to the pinned track
   itself or to track/..., and whatever the parser reads in the result has the pinned track; an empty request keeps the
   current channel; without a pin it is channel.Resolve *)
Theorem C34_snapstate_pinned : forall (is_kernel is_gadget : bool) (ktrack gtrack old new : bytes),
  pinned_for is_kernel is_gadget ktrack gtrack <> [] -> new <> [] ->
  match resolve_channel is_kernel is_gadget ktrack gtrack old new with
  | Some r => (r = pinned_for is_kernel is_gadget ktrack gtrack \/
               has_prefix (pinned_for is_kernel is_gadget ktrack gtrack ++ [slash]) r = true) /\
              (forall rc, parse_verbatim [] r dash = Some rc -> c_track rc = pinned_for is_kernel is_gadget ktrack gtrack)
  | None => True
  end.
Proof. exact snapstate_pinned. Qed.
Print Assumptions C34_snapstate_pinned.

Theorem C34_snapstate_no_request_or_no_pin : forall (ik ig : bool) (kt gt old new : bytes),
  resolve_channel ik ig kt gt old [] = Some old /\
  (pinned_for ik ig kt gt = [] -> new <> [] -> resolve_channel ik ig kt gt old new = resolve old new).
Proof.
  intros. split; [reflexivity|]. intros Hp Hn. unfold resolve_channel. apply is_nil_b_false in Hn. rewrite Hn, Hp. reflexivity.
Qed.
Print Assumptions C34_snapstate_no_request_or_no_pin.

(* non-vacuity: the hypotheses are satisfiable and the functions do what the names say on ordinary inputs *)
Example C34_ex_parse : parse (bs "amd64") (bs "latest/edge") [] = Some (mkChan (bs "amd64") (bs "edge") [] (bs "edge") []).
Proof. vm_compute. reflexivity. Qed.
Example C34_ex_parse_track : parse [] (bs "foo") (bs "arm64") = Some (mkChan (bs "arm64") (bs "foo/stable") (bs "foo") (bs "stable") []).
Proof. vm_compute. reflexivity. Qed.
Example C34_ex_full : chan_full (mkChan (bs "arm64") (bs "edge/fix") [] (bs "edge") (bs "fix")) = Some (bs "latest/edge/fix").
Proof. vm_compute. reflexivity. Qed.
Example C34_ex_resolve : resolve (bs "foo/stable") (bs "edge") = Some (bs "foo/edge").
Proof. vm_compute. reflexivity. Qed.
Example C34_ex_resolve_hyps : exists ch nc, parse_verbatim [] (bs "foo/stable") dash = Some ch /\
  parse_verbatim [] (bs "edge/fix") dash = Some nc /\ c_track nc = [] /\ is_risk (c_track ch) = false.
Proof. eexists. eexists. split; [vm_compute; reflexivity|]. split; [vm_compute; reflexivity|]. split; vm_compute; reflexivity. Qed.
Example C34_ex_pinned_ok : resolve_pinned (bs "foo") (bs "edge") = POk (bs "foo/edge").
Proof. vm_compute. reflexivity. Qed.
Example C34_ex_pinned_same : resolve_pinned (bs "foo") (bs "foo/beta") = POk (bs "foo/beta").
Proof. vm_compute. reflexivity. Qed.
Example C34_ex_pinned_switch : resolve_pinned (bs "foo") (bs "bar/edge") = PSwitch.
Proof. vm_compute. reflexivity. Qed.
Example C34_ex_pinned_invalid : resolve_pinned (bs "foo/edge") (bs "edge") = PInvalid.
Proof. vm_compute. reflexivity. Qed.
Example C34_ex_fullstr : full_of_string (bs "edge//fix") = Some (bs "latest/edge/fix").
Proof. vm_compute. reflexivity. Qed.
Example C34_ex_fullstr_unvalidated : full_of_string (bs "foo/bar") = Some (bs "foo/bar").
Proof. vm_compute. reflexivity. Qed.
Example C34_ex_snapstate_same : resolve_channel true false (bs "18") [] (bs "latest/stable") (bs "latest/stable") = None.
Proof. vm_compute. reflexivity. Qed.
Example C34_ex_snapstate_risk : resolve_channel true false (bs "18") [] (bs "latest/stable") (bs "stable") = Some (bs "18/stable").
Proof. vm_compute. reflexivity. Qed.
Example C34_ex_snapstate_other_snap : resolve_channel false false (bs "18") [] (bs "foo/stable") (bs "edge") = Some (bs "foo/edge").
Proof. vm_compute. reflexivity. Qed.
