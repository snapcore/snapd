(* C05 — persisted state reloads to the same state; identifiers are never reused.
   This file holds the property theorems only.
   Model: models/StatePersist.v (overlord/state state.go, task.go, change.go, notices.go, warning.go). *)
From Coq Require Import String List NArith ZArith Bool.
Import ListNotations.
Require Import V.lib.Bytes V.models.StatePersist V.gen.PersistFields V.proofs.ListFacts V.proofs.StatePersistProofs.
Open Scope N_scope.

(* Over EVERY operation sequence (new change/task/lane, edges, data, status changes with any engine side effects,
   notices, warnings, prunes removing anything, save/load at any wall-clock readings, in any order and number) started
   from ANY state: per kind (change, task, lane, notice) the identifiers handed out are strictly increasing, every one
   of them is strictly greater than the counter of the start state and at most the counter of the final state. *)
Theorem C05_ids_never_reused : forall (ops : list op) (k : kind) (s s' : state) (iss : issued) (befores : list state),
  run s ops = (s', iss, befores) ->
  strictly_increasing_from (ctr k s) (ids_of_kind (kn k) iss) = true /\
  Forall (fun i => ctr k s < i /\ i <= ctr k s') (ids_of_kind (kn k) iss).
Proof.
  intros ops k s s' iss befores H. pose proof (run_between ops k s s' iss befores H) as B.
  split; [eapply between_sorted; eassumption | apply between_all_above; assumption].
Qed.
Print Assumptions C05_ids_never_reused.

(* ... hence an identifier handed out after any point of a history — in particular after a reload — is greater than
   (so never equal to) every identifier of the same kind handed out before that point *)
Theorem C05_ids_after_reload_are_new : forall ops1 ops2 k s s1 i1 b1 s2 i2 b2 n1 n2,
  run s ops1 = (s1, i1, b1) -> run (reload n2 (persist n1 s1)) ops2 = (s2, i2, b2) ->
  forall x y, In x (ids_of_kind (kn k) i1) -> In y (ids_of_kind (kn k) i2) -> x < y.
Proof. exact ids_after_reload_are_new. Qed.
Print Assumptions C05_ids_after_reload_are_new.

(* no object of the state ever carries an identifier above its counter (so a fresh identifier is not the identifier of
   any change, task or notice still present — also after prunes and reloads) *)
Theorem C05_objects_below_counters : forall ops s s' iss befores, run s ops = (s', iss, befores) -> wf s -> wf s'.
Proof. exact wf_run. Qed.
Print Assumptions C05_objects_below_counters.

(* a save at wall clock n1 followed by a load at n2 >= n1 gives back the state, except that (documented in the code)
   a task's waited status Default becomes Done, warnings/notices that have expired at n2 are dropped, and (not
   documented: see C05_roundtrip_null_refuted) data entries whose JSON value is null are dropped *)
Theorem C05_reload_is_normalize : forall (n1 n2 : Z) (s : state), (n1 <= n2)%Z -> reload n2 (persist n1 s) = normalize n2 s.
Proof. exact reload_persist. Qed.
Print Assumptions C05_reload_is_normalize.

Theorem C05_second_reload_changes_nothing : forall now s, normalize now (normalize now s) = normalize now s.
Proof. exact normalize_idempotent. Qed.
Print Assumptions C05_second_reload_changes_nothing.

(* nothing lost, nothing duplicated: same changes and tasks in the same order, same statuses, edges, lanes, counters *)
Theorem C05_no_loss_no_dup : forall n1 n2 s, (n1 <= n2)%Z ->
  let s' := reload n2 (persist n1 s) in
  map c_id (s_changes s') = map c_id (s_changes s) /\ map c_tasks (s_changes s') = map c_tasks (s_changes s) /\
  map t_id (s_tasks s') = map t_id (s_tasks s) /\ map t_status (s_tasks s') = map t_status (s_tasks s) /\
  map t_waits (s_tasks s') = map t_waits (s_tasks s) /\ map t_halts (s_tasks s') = map t_halts (s_tasks s) /\
  map t_lanes (s_tasks s') = map t_lanes (s_tasks s) /\ map t_change (s_tasks s') = map t_change (s_tasks s) /\
  s_last_change s' = s_last_change s /\ s_last_task s' = s_last_task s /\ s_last_lane s' = s_last_lane s /\
  s_last_notice s' = s_last_notice s /\ s_lnts s' = s_lnts s.
Proof.
  intros n1 n2 s Hle s'. subst s'. rewrite (reload_persist n1 n2 s Hle). unfold normalize. simpl.
  rewrite !map_map. repeat split; apply map_ext; intros []; reflexivity.
Qed.
Print Assumptions C05_no_loss_no_dup.

(* the round trip as ONE equation over the whole state: load (save s) = s - every persisted field of every change, task
   (status, waited status, clean, progress, data, wait/halt edges, lanes, log, change link, spawn/ready/doing/undoing/at times),
   warning and notice, the state data and the four counters and the last-notice time stamp - for every state that is canonical
   for the load clock: no data value that is the JSON literal null (the recorded finding, carved out exactly by this
   hypothesis), no task whose waited status is still Default (the documented default-to-Done on load), no expired warning or
   notice (dropped by design). The runtime-only fields are not part of [state] (C05_codec_fields_complete accounts for them). *)
Theorem C05_roundtrip_exact : forall n1 n2 s, (n1 <= n2)%Z -> canonical n2 s -> reload n2 (persist n1 s) = s.
Proof. exact roundtrip_exact. Qed.
Print Assumptions C05_roundtrip_exact.

(* every state that comes out of a load is canonical, whatever was saved ... *)
Theorem C05_reload_canonical : forall n1 n2 s, (n1 <= n2)%Z -> canonical n2 (reload n2 (persist n1 s)).
Proof. exact reload_canonical. Qed.
Print Assumptions C05_reload_canonical.

(* ... so from the first reload on save/load is the identity (as long as nothing expires in between) *)
Theorem C05_reload_fixed_point : forall n1 n2 n3 n4 s, (n1 <= n2)%Z -> (n2 <= n3)%Z -> (n3 <= n4)%Z ->
  Forall (fun w => warning_expired n4 w = false) (s_warnings (reload n2 (persist n1 s))) ->
  Forall (fun n => notice_expired n4 n = false) (s_notices (reload n2 (persist n1 s))) ->
  reload n4 (persist n3 (reload n2 (persist n1 s))) = reload n2 (persist n1 s).
Proof.
  intros n1 n2 n3 n4 s H12 H23 H34 HW HN. apply roundtrip_exact; [assumption|].
  destruct (reload_canonical n1 n2 s H12) as (A & B & _ & _). repeat split; try apply A; assumption.
Qed.
Print Assumptions C05_reload_fixed_point.

(* the notices are a map keyed by (user id present and value, type, key) - noticeKey in Go. A reload preserves the MAP KEYS:
   the reloaded notices carry exactly the keys of the unexpired saved ones, pairwise distinct if they were; and over every op
   sequence with reloads and prunes anywhere no two notices of the state ever share a key - so an occurrence of
   (user, type, key) after a reload bumps the existing notice instead of creating a second one, and a public notice and a
   notice of user 0 with the same type and key stay two notices *)
Theorem C05_roundtrip_notice_keys : forall n1 n2 s, (n1 <= n2)%Z ->
  map nkey (s_notices (reload n2 (persist n1 s))) = map nkey (filter (fun n => negb (notice_expired n2 n)) (s_notices s)) /\
  (keys_unique s -> keys_unique (reload n2 (persist n1 s))).
Proof.
  intros n1 n2 s H. rewrite (reload_persist n1 n2 s H). unfold normalize, keys_unique. simpl. split; [reflexivity|].
  apply NoDup_map_filter.
Qed.
Print Assumptions C05_roundtrip_notice_keys.

Theorem C05_notice_keys_unique : forall ops s s' iss befores, run s ops = (s', iss, befores) -> keys_unique s -> keys_unique s'.
Proof. exact keys_unique_run. Qed.
Print Assumptions C05_notice_keys_unique.

(* the statement the driver monitors on the implementation (every persisted field equal, waited status up to
   Default = Done, unexpired notices and warnings) holds of the model for every state without null data values *)
Theorem C05_roundtrip_observable : forall s, state_no_null s -> reload_ok (s, reload 0 (persist 0 s)) = true.
Proof. exact reload_ok_model. Qed.
Print Assumptions C05_roundtrip_observable.

(* ... and without that hypothesis the full statement is false of the faithful model (KNOWN_FINDINGS key data-json-null;
   replayed on the implementation on every run): a value set to a typed nil pointer is visible through Has/Get before the
   save and gone after the load *)
Theorem C05_roundtrip_null_refuted : exists s, reload_ok (s, reload 0 (persist 0 s)) = false.
Proof. exists null_witness. vm_compute. reflexivity. Qed.
Print Assumptions C05_roundtrip_null_refuted.

(* the model's histories satisfy the monitored identifier condition *)
Theorem C05_ids_monitor_holds : forall ops s' iss befores, run empty_state ops = (s', iss, befores) -> ids_ok iss = true.
Proof. exact ids_ok_model. Qed.
Print Assumptions C05_ids_monitor_holds.

(* tie to the source text, re-checked on every run against the regenerated gen/PersistFields.v: for State, Task,
   Change, Notice and Warning every field of the Go struct is either in the model's record or on the runtime-only
   list; there is one marshalled field per persisted field; MarshalJSON writes every marshalled field and reads every
   persisted one; UnmarshalJSON reads every marshalled field and assigns every persisted one *)
Theorem C05_codec_fields_complete :
  codec_complete State_struct_fields State_m_fields State_marshal_written State_marshal_reads State_unmarshal_reads
    State_unmarshal_assigns state_persisted state_runtime state_sources state_dests = true /\
  codec_complete Task_struct_fields Task_m_fields Task_marshal_written Task_marshal_reads Task_unmarshal_reads
    Task_unmarshal_assigns task_persisted task_runtime task_persisted task_persisted = true /\
  codec_complete Change_struct_fields Change_m_fields Change_marshal_written Change_marshal_reads Change_unmarshal_reads
    Change_unmarshal_assigns change_persisted change_runtime change_persisted change_persisted = true /\
  codec_complete Notice_struct_fields Notice_m_fields Notice_marshal_written Notice_marshal_reads Notice_unmarshal_reads
    Notice_unmarshal_assigns notice_persisted [] notice_persisted notice_persisted = true /\
  codec_complete Warning_struct_fields Warning_m_fields Warning_marshal_written Warning_marshal_reads
    Warning_unmarshal_reads Warning_unmarshal_assigns warning_persisted [] warning_persisted warning_persisted = true.
Proof. exact codec_fields_complete. Qed.
Print Assumptions C05_codec_fields_complete.

(* non-vacuity: a concrete history with a prune and a reload in the middle; identifiers 1,2 then 3 for changes *)
Example C05_example_history :
  let ops := [ONewChange (bs "install") (bs "s") 5%Z; ONewTask (bs "t") (bs "s") 5%Z; OAddTask 1 1;
              OSetStatus 1 4 6%Z (mkEff true 1 4); ONewChange (bs "x") (bs "y") 7%Z; OPrune [1] [1] [] [];
              OReload 0 0; ONewChange (bs "z") (bs "w") 8%Z; ONewTask (bs "t") (bs "s") 9%Z] in
  let '(s', iss, befores) := run empty_state ops in
  ids_of_kind 0 iss = [1; 2; 3] /\ ids_of_kind 1 iss = [1; 2] /\ ids_of_kind 3 iss = [1; 2; 3] /\
  map c_id (s_changes s') = [2; 3] /\ length befores = 1%nat.
Proof. vm_compute. repeat split; reflexivity. Qed.

Example C05_wf_satisfiable : wf empty_state.
Proof. repeat split; constructor. Qed.

Example C05_no_null_satisfiable : state_no_null (mkState [(bs "k", bs "1")] [] [] [] [] 0 0 0 0 None).
Proof.
  repeat split; try constructor. intros e [E|[]]. subst e. reflexivity.
Qed.

(* non-vacuity: the same notice of user 1000 before and after a reload is one notice with two occurrences; the public notice
   and the notice of user 0 with the same type and key are two *)
Example C05_notice_keys_example :
  let ops := [OAddNotice (Some 1000) (nt 1) (bs "1") [] 0%Z None 5%Z; OAddNotice None (nt 1) (bs "1") [] 0%Z None 6%Z;
              OAddNotice (Some 0) (nt 1) (bs "1") [] 0%Z None 7%Z; OReload 0 0; OAddNotice (Some 1000) (nt 1) (bs "1") [] 0%Z None 8%Z] in
  let '(s', iss, _) := run empty_state ops in
  map n_id (s_notices s') = [1; 2; 3] /\ map n_occ (s_notices s') = [2; 1; 1] /\ ids_of_kind 3 iss = [1; 2; 3].
Proof. vm_compute. repeat split; reflexivity. Qed.

(* non-vacuity of [canonical]: a state with a change, a task in Wait with waited status Done, data, a warning and a notice *)
Example C05_canonical_satisfiable :
  let s := mkState [(bs "k", bs "1")]
             [mkChange 1 (bs "c") (bs "s") 0 false [(bs "a", bs "true")] [1] (Some 5%Z) None 2]
             [mkTask 1 (bs "t") (bs "s") 10 4 false None [] [] [] [3%Z] [bs "INFO x"] 1 (Some 5%Z) None 0%Z 0%Z (Some 9%Z)]
             [mkWarning (bs "w") 1%Z 2%Z None default_warning_expire 0%Z]
             [mkNotice 1 (Some 0) (nt 1) (bs "1") 1%Z 2%Z 2%Z 1 [] 0%Z default_notice_expire] 1 1 3 1 (Some 2%Z) in
  reload 10 (persist 10 s) = s.
Proof. vm_compute. reflexivity. Qed.
