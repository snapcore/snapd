(* C21 — interface connection decisions follow the declared policy rules.
   This file holds the property theorems only: statement, a proof of a line or two from the lemmas of the proofs file,
   Print Assumptions.
   Model: models/Policy.v (interfaces/policy/policy.go, helpers.go, asserts/ifacedecls.go, asserts/constraint.go).
   Scope of the model: name/attribute regexps are literals; the leaf classification of attribute constraints
   ($MISSING, $SLOT(), $PLUG(), $*_PUBLISHER_ID) is done by the driver. The theorems below quantify over ALL rule
   sets, declarations and candidates of the model and do not depend on how a single alternative matches. *)
From Coq Require Import List NArith ZArith Bool String.
Import ListNotations.
Require Import V.lib.Bytes V.models.Policy V.proofs.ListFacts V.proofs.PolicyProofs.
Open Scope N_scope.

(* The most specific applicable rule decides: plug snap-declaration, then slot snap-declaration, then the
   base-declaration plug rule, then its slot rule; with no rule at any level the connection is allowed. *)
Theorem C21_first_rule_levels : forall ds iface,
  (forall r, level1 ds iface = Some r -> first_rule ds iface = Some (true, r)) /\
  (forall r, level1 ds iface = None -> level2 ds iface = Some r -> first_rule ds iface = Some (false, r)) /\
  (forall r, level1 ds iface = None -> level2 ds iface = None -> level3 ds iface = Some r ->
             first_rule ds iface = Some (true, r)) /\
  (forall r, level1 ds iface = None -> level2 ds iface = None -> level3 ds iface = None -> level4 ds iface = Some r ->
             first_rule ds iface = Some (false, r)) /\
  (level1 ds iface = None -> level2 ds iface = None -> level3 ds iface = None -> level4 ds iface = None ->
   first_rule ds iface = None).
Proof. intros ds iface. unfold first_rule, level1, level2, level3, level4. repeat split; intros; repeat match goal with H : _ = _ |- _ => rewrite H; clear H end; reflexivity. Qed.
Print Assumptions C21_first_rule_levels.

(* ... and everything else in the declarations is ignored: two sets of declarations with the same snap/publisher ids
   and the same first rule for the plug's interface give the same verdict (connection and auto-connection) *)
Theorem C21_precedence : forall auto c ds',
  same_ids (k_decls c) ds' ->
  first_rule ds' (f_iface (k_plug c)) = first_rule (k_decls c) (f_iface (k_plug c)) ->
  check_connect auto (with_decls c ds') = check_connect auto c.
Proof. exact precedence. Qed.
Print Assumptions C21_precedence.

(* the same as a statement about editing declarations: replace or remove the rules of every level below the deciding
   one (this is the variant the driver runs on the real code for every case) *)
Theorem C21_lower_levels_ignored : forall auto c low,
  check_connect auto (conn_low_variant c low) = check_connect auto c.
Proof. intros auto c low. unfold conn_low_variant. apply precedence; [apply same_ids_low | apply first_rule_low]. Qed.
Print Assumptions C21_lower_levels_ignored.

(* For every candidate whose declarations compile: the connection is allowed exactly when the interfaces agree and
   either no level has a rule, or in the deciding rule NO deny alternative matches and SOME allow alternative matches
   (deny wins over allow; an allow match is needed); and the evaluation never dereferences a missing alternative. *)
Theorem C21_connect_spec : forall auto c, decls_valid (k_decls c) = true ->
  is_allow (check_connect auto c) = spec_connect_allowed auto c /\ check_connect auto c <> VPanic.
Proof. intros auto c H. destruct (connect_spec auto c H) as (A & B & _). split; assumption. Qed.
Print Assumptions C21_connect_spec.

(* deny wins, stated on the rule evaluation itself, for arbitrary lists and an arbitrary matching predicate *)
Theorem C21_deny_wins : forall (f : alt -> bool) auto deny allow,
  existsb f deny = true -> eval_conn f auto deny allow = VRefuse.
Proof. intros f auto deny allow H. unfold eval_conn. rewrite (alts_ok_existsb f deny H). reflexivity. Qed.
Print Assumptions C21_deny_wins.

(* an allowed connection has a matching allow alternative (the first one fixes slots-per-plug) and no matching deny *)
Theorem C21_allow_needed : forall (f : alt -> bool) auto deny allow any,
  eval_conn f auto deny allow = VAllow any ->
  deny <> [] /\ existsb f deny = false /\
  exists a, In a allow /\ f a = true /\ find f allow = Some a /\ any = arity_any auto a.
Proof. exact eval_conn_allowed_inv. Qed.
Print Assumptions C21_allow_needed.

(* rule compilation supplies a default alternative for every missing subrule: all six lists are non-empty *)
Theorem C21_compiled_nonempty : forall r, rule_valid r = true -> nonempty6 (compile_rule r).
Proof. exact compile_nonempty. Qed.
Print Assumptions C21_compiled_nonempty.

(* Monotonicity, on lists: inserting a deny alternative anywhere never turns Refused into Allowed, provided the deny
   list was not empty ... *)
Theorem C21_deny_monotone_lists : forall (f : alt -> bool) auto deny1 deny2 allow d, deny1 ++ deny2 <> [] ->
  is_allow (eval_conn f auto (deny1 ++ d :: deny2) allow) = true ->
  is_allow (eval_conn f auto (deny1 ++ deny2) allow) = true.
Proof. exact deny_monotone_lists. Qed.
Print Assumptions C21_deny_monotone_lists.

(* ... and the guard is needed: an EMPTY deny list refuses everything (the Go loop over no alternatives returns no
   error, which checkPlugRule/checkSlotRule read as `denied`), so adding a non-matching alternative allows. Compiled
   rules never have an empty list (C21_compiled_nonempty; the driver asserts it on every real compiled rule). *)
Theorem C21_empty_deny_refuted : exists (f : alt -> bool) auto deny allow d,
  is_allow (eval_conn f auto (deny ++ [d]) allow) = true /\ is_allow (eval_conn f auto deny allow) = false.
Proof. exists (fun a => is_some (a_on_core_desktop a)), false, [], [mkAlt None None None None [] [] [] [] [] [] None None (Some true) None], alt_empty. split; reflexivity. Qed.
Print Assumptions C21_empty_deny_refuted.

(* Monotonicity, on declarations (the full statement, no guard left): take any candidate whose declarations compile and
   add a deny alternative (xp to plug rules, xs to slot rules) to the deny-connection / deny-auto-connection subrule of
   EVERY rule of EVERY declaration; if the connection is allowed afterwards it was allowed before. *)
Theorem C21_deny_monotone : forall auto c xp xs, decls_valid (k_decls c) = true ->
  is_allow (check_connect auto (conn_deny_variant auto c xp xs)) = true -> is_allow (check_connect auto c) = true.
Proof. exact deny_monotone. Qed.
Print Assumptions C21_deny_monotone.

(* Installation: same deny-over-allow semantics, for every slot and every plug of the snap *)
Theorem C21_install_spec : forall i, inst_valid i = true -> check_install i = spec_install_allowed i.
Proof. intros i H. rewrite check_install_eq. unfold spec_install_allowed, spec_install_allowed_gen. f_equal; apply forallb_ext_in; intros x _; [exact (check_inst_side_spec false i x H)|exact (check_inst_side_spec true i x H)]. Qed.
Print Assumptions C21_install_spec.

Theorem C21_install_deny_wins : forall (f : alt -> bool) deny allow, existsb f deny = true -> eval_inst f deny allow = false.
Proof. intros f deny allow H. unfold eval_inst. rewrite (alts_ok_existsb f deny H). reflexivity. Qed.
Print Assumptions C21_install_deny_wins.

(* a snap-declaration rule shadows the base-declaration rule for the same interface: changing shadowed base rules
   changes nothing *)
Theorem C21_install_precedence : forall i b',
  (forall iface, match i_decl i with Some d => slot_rule d iface | None => None end = None ->
                 slot_rule b' iface = slot_rule (i_base i) iface) ->
  (forall iface, match i_decl i with Some d => plug_rule d iface | None => None end = None ->
                 plug_rule b' iface = plug_rule (i_base i) iface) ->
  check_install (inst_with i (i_decl i) b') = check_install i.
Proof. exact install_precedence. Qed.
Print Assumptions C21_install_precedence.

Theorem C21_install_deny_monotone_lists : forall (f : alt -> bool) deny1 deny2 allow d, deny1 ++ deny2 <> [] ->
  eval_inst f (deny1 ++ d :: deny2) allow = true -> eval_inst f (deny1 ++ deny2) allow = true.
Proof. exact inst_deny_monotone_lists. Qed.
Print Assumptions C21_install_deny_monotone_lists.

Theorem C21_install_empty_deny_refuted : exists (f : alt -> bool) deny allow d,
  eval_inst f (deny ++ [d]) allow = true /\ eval_inst f deny allow = false.
Proof. exists (fun a => is_some (a_on_core_desktop a)), [], [mkAlt None None None None [] [] [] [] [] [] None None (Some true) None], alt_empty. split; reflexivity. Qed.
Print Assumptions C21_install_empty_deny_refuted.

Theorem C21_install_deny_monotone : forall i xp xs, inst_valid i = true ->
  check_install (inst_deny_variant i xp xs) = true -> check_install i = true.
Proof. exact install_deny_monotone. Qed.
Print Assumptions C21_install_deny_monotone.

(* What `an alternative matches` means in C21_connect_spec: the conjunction of ALL its atomic constraints - names,
   attributes, snap types, snap ids, publisher ids (with $PLUG_PUBLISHER_ID / $SLOT_PUBLISHER_ID), on-classic,
   on-core-desktop and the device scope (on-store / on-brand / on-model) *)
Theorem C21_plug_alternative_atoms : forall c a, check_plug_conn1 c a = true <->
  check_names (a_plug_names a) (f_iface (k_plug c)) (f_name (k_plug c)) = true /\
  check_names (a_slot_names a) (f_iface (k_slot c)) (f_name (k_slot c)) = true /\
  attrs_check (Some (conn_ctx c)) (a_plug_attrs a) (side_attrs (k_plug c)) = true /\
  attrs_check (Some (conn_ctx c)) (a_slot_attrs a) (side_attrs (k_slot c)) = true /\
  check_snap_type (f_type (k_slot c)) (a_slot_snap_types a) = true /\
  check_id (od_snap_id (slot_decl (k_decls c))) (a_slot_snap_ids a) no_special = true /\
  check_id (od_pub_id (slot_decl (k_decls c))) (a_slot_pub_ids a)
           (one_special (bs "$PLUG_PUBLISHER_ID") (od_pub_id (plug_decl (k_decls c)))) = true /\
  check_on_classic (k_env c) (a_on_classic a) = true /\
  check_on_core_desktop (k_env c) (a_on_core_desktop a) = true /\
  check_device_scope (k_env c) (a_device a) = true.
Proof. intros c a. unfold check_plug_conn1, check_plug_conn1_gen, check_names. cbv zeta. rewrite !andb_true_iff. tauto. Qed.
Print Assumptions C21_plug_alternative_atoms.

Theorem C21_slot_alternative_atoms : forall c a, check_slot_conn1 c a = true <->
  check_names (a_plug_names a) (f_iface (k_plug c)) (f_name (k_plug c)) = true /\
  check_names (a_slot_names a) (f_iface (k_slot c)) (f_name (k_slot c)) = true /\
  attrs_check (Some (conn_ctx c)) (a_plug_attrs a) (side_attrs (k_plug c)) = true /\
  attrs_check (Some (conn_ctx c)) (a_slot_attrs a) (side_attrs (k_slot c)) = true /\
  check_snap_type (f_type (k_slot c)) (a_slot_snap_types a) = true /\
  check_snap_type (f_type (k_plug c)) (a_plug_snap_types a) = true /\
  check_id (od_snap_id (plug_decl (k_decls c))) (a_plug_snap_ids a) no_special = true /\
  check_id (od_pub_id (plug_decl (k_decls c))) (a_plug_pub_ids a)
           (one_special (bs "$SLOT_PUBLISHER_ID") (od_pub_id (slot_decl (k_decls c)))) = true /\
  check_on_classic (k_env c) (a_on_classic a) = true /\
  check_on_core_desktop (k_env c) (a_on_core_desktop a) = true /\
  check_device_scope (k_env c) (a_device a) = true.
Proof. intros c a. unfold check_slot_conn1, check_slot_conn1_gen, check_names. cbv zeta. rewrite !andb_true_iff. tauto. Qed.
Print Assumptions C21_slot_alternative_atoms.

(* the on-core-desktop atom: `on-core-desktop: b` holds exactly when b is the system's core-desktop flag (classic: false,
   core: false, core desktop: true); being on classic makes no constraint hold; the monitor's own statement agrees *)
Theorem C21_on_core_desktop_atom : forall e b, check_on_core_desktop e (Some b) = Bool.eqb b (e_core_desktop e).
Proof. reflexivity. Qed.
Print Assumptions C21_on_core_desktop_atom.

Theorem C21_on_core_desktop_classic_irrelevant : forall cl cl' os os' cd m st c,
  check_on_core_desktop (mkEnv cl os cd m st) c = check_on_core_desktop (mkEnv cl' os' cd m st) c.
Proof. reflexivity. Qed.
Print Assumptions C21_on_core_desktop_classic_irrelevant.

Theorem C21_core_desktop_ref_agrees : forall e c, core_desktop_ref e c = check_on_core_desktop e c.
Proof. intros e [[|]|]; unfold core_desktop_ref, check_on_core_desktop; destruct (e_core_desktop e); reflexivity. Qed.
Print Assumptions C21_core_desktop_ref_agrees.

(* A *-snap-id / *-publisher-id list is an ALTERNATION: the constraint holds exactly when the list is empty, or the id is
   set and equals what SOME entry stands for - a $NAME stands for the value it resolves to, and an entry that cannot be
   resolved (no declaration on the other side, unknown name) matches nothing but does not stop the search: entries after
   it are still alternatives. Order and position of the entries do not matter. (The monitor uses its own matcher,
   check_id_ref, a plain recursion over the list; compared with check_id on every case, equality not proved.) *)
Theorem C21_id_list_is_alternation : forall id ids special, check_id id ids special = true <->
  ids = [] \/ (id <> [] /\ exists cand, In cand ids /\ resolve special cand <> [] /\ id = resolve special cand).
Proof. exact check_id_alternation. Qed.
Print Assumptions C21_id_list_is_alternation.

Theorem C21_id_list_order_irrelevant : forall id ids ids' special,
  ids <> [] -> ids' <> [] -> (forall c, In c ids <-> In c ids') -> check_id id ids special = check_id id ids' special.
Proof. exact check_id_order_irrelevant. Qed.
Print Assumptions C21_id_list_order_irrelevant.

Theorem C21_id_unresolvable_skipped : forall id l1 c l2 special, resolve special c = [] -> l1 ++ l2 <> [] ->
  check_id id (l1 ++ c :: l2) special = check_id id (l1 ++ l2) special.
Proof. exact check_id_unresolvable_skipped. Qed.
Print Assumptions C21_id_unresolvable_skipped.

Example C21_ex_id_list :
  let sp := one_special (bs "$SLOT_PUBLISHER_ID") [] in   (* the slot snap has no declaration *)
  check_id (bs "canonical") [bs "$SLOT_PUBLISHER_ID"; bs "canonical"] sp = true /\
  check_id (bs "canonical") [bs "pub-two"; bs "$SLOT_PUBLISHER_ID"; bs "canonical"] sp = true /\
  check_id (bs "pub-one") [bs "$SLOT_PUBLISHER_ID"; bs "canonical"] sp = false /\
  check_id_ref (bs "canonical") [bs "$SLOT_PUBLISHER_ID"; bs "canonical"] sp = true.
Proof. repeat split. Qed.

(* A plug-names / slot-names regexp (restricted to a top-level alternation of literals, not starting with `$`) matches
   exactly when the WHOLE name equals one of the alternatives: `led|buzzer` matches neither `led-admin` nor `xbuzzer`. The
   same function decides literal attribute-value regexps. (The monitor uses a second, independently written matcher,
   name_match_ref; the two are compared on every case by the run, their equality is not proved.) *)
Theorem C21_name_whole_match : forall iface name c entry, c <> 36%N ->
  name_match iface name (c :: entry) = true <-> In name (split_bar (c :: entry)).
Proof. exact name_match_whole. Qed.
Print Assumptions C21_name_whole_match.

Example C21_ex_alternation :
  name_match (bs "ia") (bs "led") (bs "led|buzzer") = true /\ name_match (bs "ia") (bs "buzzer") (bs "led|buzzer") = true /\
  name_match (bs "ia") (bs "led-admin") (bs "led|buzzer") = false /\ name_match (bs "ia") (bs "xbuzzer") (bs "led|buzzer") = false /\
  name_match_ref (bs "ia") (bs "led-admin") (bs "led|buzzer") = false /\ name_match_ref (bs "ia") (bs "buzzer") (bs "led|buzzer") = true.
Proof. repeat split. Qed.

(* ------------------------------------------------------------------ non-vacuity *)
Definition ex_env := mkEnv true (bs "ubuntu") false None None.
Definition ex_plug := mkSide (bs "n1") (bs "ia") (bs "app") [(bs "k1", VStr (bs "x"))] [].
Definition ex_slot := mkSide (bs "n2") (bs "ia") (bs "os") [(bs "k1", VStr (bs "x"))] [].
Definition on_classic_alt (b : bool) := mkAlt None None None None [] [] [] [] [] [] None (Some (b, [])) None None.
Definition attr_alt := mkAlt None None None (Some (MMap [(bs "k1", MEval false (bs "k1"))])) [] [] [] [] [] [] None None None None.
(* base plug rule: allow when the slot's k1 equals the plug's k1; deny on core systems *)
Definition ex_rule := RMap (mkRuleMap None None (Some (SOne attr_alt)) (Some (SOne (on_classic_alt false))) None None).
Definition ex_decls := mkDecls (Some (mkDecl (bs "id1") (bs "pub-one") [] [])) None
                               (mkDecl [] [] [(bs "ia", ex_rule)] [(bs "ia", RShort false)]).
Definition ex_conn := mkConn ex_env ex_plug ex_slot ex_decls.

(* the hypotheses of C21_connect_spec / C21_deny_monotone are met by a candidate that is allowed by an attribute
   match at level 3 while level 4 would refuse ... *)
Example C21_ex_valid : decls_valid (k_decls ex_conn) = true. Proof. reflexivity. Qed.
Example C21_ex_allowed : check_connect false ex_conn = VAllow true. Proof. vm_compute. reflexivity. Qed.
Example C21_ex_level : level1 ex_decls (bs "ia") = None /\ level2 ex_decls (bs "ia") = None /\
                       exists r, level3 ex_decls (bs "ia") = Some r /\ exists r', level4 ex_decls (bs "ia") = Some r'.
Proof. repeat split. eexists; split; [reflexivity|]. eexists. reflexivity. Qed.
(* ... and an added matching deny alternative turns it into a refusal (so the monotone direction is not trivial) *)
Example C21_ex_deny_added : check_connect false (conn_deny_variant false ex_conn (on_classic_alt true) alt_empty) = VRefuse.
Proof. vm_compute. reflexivity. Qed.
(* installation *)
Definition ex_inst := mkInst ex_env (bs "app") [] [ex_plug] None
  (mkDecl [] [] [(bs "ia", RMap (mkRuleMap (Some (SOne (on_classic_alt true))) None None None None None))] []).
Example C21_ex_inst : inst_valid ex_inst = true /\ check_install ex_inst = true /\
                      check_install (inst_deny_variant ex_inst (on_classic_alt true) alt_empty) = false.
Proof. repeat split. Qed.
