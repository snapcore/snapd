(* C29 — config transactions are isolated, read their own writes, never lose updates.
   Property theorems only: statement, a proof of a line or two from proofs/ConfigProofs.v, Print Assumptions.
   Model: models/Config.v (overlord/configstate/config transaction.go + helpers.go, function by function) and, in
   the same file, the plain nested-map REFERENCE (a transaction = configuration at its start + log of successful
   writes; view = log replayed, nulls purged; commit = log replayed on the latest configuration).
   Notation: tx_ok t = t is related to some reference transaction (tx_rel); every transaction of every reachable
   state is (C29_reachable_ok). wf_tree = object keys unique (sorted association lists stand for Go maps). *)
From Coq Require Import List NArith ZArith Bool.
Import ListNotations.
Require Import V.lib.JsonTree V.proofs.JsonTreeProofs V.models.Config V.proofs.ConfigProofs.
Open Scope N_scope.

(* EVERY history (any number of live transactions, any interleaving of new/set/get/commit/save/restore/discard):
   what the transaction machinery (write cache of raw and map entries, PatchConfig, commitChange, purgeNulls) shows
   - every Get result, every Set verdict, the committed config after every other operation - is exactly what plain
   nested maps with per-transaction write logs show. *)
Theorem C29_refines_reference : forall (init : config) (ops : list op),
  wf_tree (Obj init) = true -> forallb wf_op ops = true ->
  run (mkState init [] []) ops = rrun (mkRstate init [] []) ops.
Proof. intros init ops W Wo. exact (proj1 (sim_exec ops _ _ (rel_init init W) Wo)). Qed.
Print Assumptions C29_refines_reference.

Theorem C29_reachable_ok : forall init ops i t, wf_tree (Obj init) = true -> forallb wf_op ops = true ->
  nth_error (st_txs (exec (mkState init [] []) ops)) i = Some t ->
  tx_ok t /\ wf_tree (Obj (st_cfg (exec (mkState init [] []) ops))) = true.
Proof. exact reachable_ok. Qed.
Print Assumptions C29_reachable_ok.

(* read-your-writes: after a successful Set of ks := v, (1) reading ks or anything below it gives v (nulls purged)
   or what lies below v; (2) every path that diverges from ks reads as before; (3) every proper prefix of ks reads
   as an object; (4) other snaps read as before. Together with (2) before any write: the committed value at
   transaction start (tx_view of a fresh transaction is the purged pristine configuration). *)
Theorem C29_read_your_writes : forall t s ks v t', tx_ok t -> wf_tree v = true -> tx_set t s ks v = Some t' ->
  (forall q, tx_get t' s (ks ++ q) = get_node q (purge v)) /\
  (forall q, diverge q ks = true -> tx_get t' s q = tx_get t s q) /\
  (forall q k2 q2, ks = q ++ k2 :: q2 -> q <> [] -> exists l, tx_get t' s q = GOk (Obj l)) /\
  (forall s' q, s' <> s -> tx_get t' s' q = tx_get t s' q).
Proof. exact read_your_writes. Qed.
Print Assumptions C29_read_your_writes.

(* a null write removes the option; its parent stays in place as an object (possibly empty) without that member *)
Theorem C29_null_removes : forall t s q k t', tx_ok t -> tx_set t s (q ++ [k]) Null = Some t' ->
  tx_get t' s (q ++ [k]) = GNoOption /\
  (q <> [] -> exists l, tx_get t' s q = GOk (Obj l) /\ lookup k l = None).
Proof. exact null_removes. Qed.
Print Assumptions C29_null_removes.

(* isolation: an operation changes no transaction other than the one it addresses, and the committed configuration
   changes only on Commit / RestoreRevisionConfig *)
Theorem C29_isolation : forall st o,
  (publishes o = false -> st_cfg (fst (step st o)) = st_cfg st) /\
  (forall j t, op_tx o <> Some j -> nth_error (st_txs st) j = Some t -> nth_error (st_txs (fst (step st o))) j = Some t).
Proof. exact isolation. Qed.
Print Assumptions C29_isolation.

(* commit merges only what was written. r_log rt is the list of the transaction's successful writes (tx_rel). L is
   the LATEST committed configuration, whatever other transactions committed since this one started. *)
Theorem C29_commit_keeps_unwritten : forall t rt L s q t0, tx_rel t rt -> wf_tree (Obj L) = true -> q <> [] ->
  (forall w, In w (r_log rt) -> fst (fst w) = s -> diverge q (snd (fst w)) = true) ->
  get_node q (lookup s L) = GOk t0 -> purge t0 = Some t0 ->
  get_node q (lookup s (fst (tx_commit t L))) = GOk t0.
Proof.
  intros t rt L s q t0 R W NQ D G P. exact (commit_reads t rt L s q t0 R W NQ (replay_diverge_ok _ _ _ _ _ D G) P).
Qed.
Print Assumptions C29_commit_keeps_unwritten.

Theorem C29_commit_writes_win : forall t rt L lg1 lg2 s ks v, tx_rel t rt -> wf_tree (Obj L) = true ->
  r_log rt = lg1 ++ (s, ks, v) :: lg2 ->
  (forall w, In w lg2 -> fst (fst w) = s -> diverge ks (snd (fst w)) = true) ->
  forall q, get_node (ks ++ q) (lookup s (fst (tx_commit t L))) = get_node q (purge v).
Proof.
  intros t rt L lg1 lg2 s ks v R W EL D q. destruct (last_write _ lg1 lg2 s ks v (rel_wfl _ _ R) EL D) as (Wv & NE & IN & G).
  now rewrite (get_committed t rt L s ks q v R W NE (G L)), IN, pg_get_node.
Qed.
Print Assumptions C29_commit_writes_win.

(* no lost update: t1 commits onto B, then t2 onto the result (t2 never saw t1's writes). An option written by t1 on
   a path diverging from everything t2 wrote is still there; what t2 wrote reads as written (C29_commit_writes_win
   with L := fst (tx_commit t1 B)), i.e. for options written by both the later commit wins. Swap the roles for the
   other commit order. *)
Theorem C29_no_lost_update : forall t1 rt1 t2 rt2 B lg1 lg1' s ks v,
  tx_rel t1 rt1 -> tx_rel t2 rt2 -> wf_tree (Obj B) = true ->
  r_log rt1 = lg1 ++ (s, ks, v) :: lg1' ->
  (forall w, In w lg1' -> fst (fst w) = s -> diverge ks (snd (fst w)) = true) ->
  (forall w, In w (r_log rt2) -> fst (fst w) = s -> diverge ks (snd (fst w)) = true) ->
  purge v = Some v ->
  get_node ks (lookup s (fst (tx_commit t2 (fst (tx_commit t1 B))))) = GOk v.
Proof. exact no_lost_update. Qed.
Print Assumptions C29_no_lost_update.

(* the first clause of the property over a WHOLE transaction (any number of writes; tx_rel t rt holds for every transaction
   of every reachable state under arbitrary interleavings - C29_reachable_ok - and r_log rt is the list of its successful
   writes since its start / last commit):
   - the value LAST written: if the last write covering an option was ks := v (no later write of the transaction is on a
     path comparable with ks) the option, and everything below it, reads as v - with v = null the option is gone;
   - otherwise the COMMITTED value: an option of the configuration the transaction started from, on a path diverging from
     every write of the transaction, reads as committed (nulls purged); a transaction that wrote nothing reads exactly the
     committed configuration. *)
Theorem C29_reads_last_written : forall t rt lg1 lg2 s ks v, tx_rel t rt ->
  r_log rt = lg1 ++ (s, ks, v) :: lg2 ->
  (forall w, In w lg2 -> fst (fst w) = s -> diverge ks (snd (fst w)) = true) ->
  forall q, tx_get t s (ks ++ q) = get_node q (purge v).
Proof.
  intros t rt lg1 lg2 s ks v R EL D q. destruct (last_write _ lg1 lg2 s ks v (rel_wfl _ _ R) EL D) as (Wv & NE & _ & G).
  now rewrite (get_view t rt s ks q v R NE (G _)), pg_get_node.
Qed.
Print Assumptions C29_reads_last_written.

Theorem C29_reads_committed_if_unwritten :
  (forall t rt s q t0, tx_rel t rt -> q <> [] ->
     (forall w, In w (r_log rt) -> fst (fst w) = s -> diverge q (snd (fst w)) = true) ->
     get_node q (lookup s (tx_pristine t)) = GOk t0 -> tx_get t s q = pg (GOk t0)) /\
  (forall c s q, tx_get (new_tx c) s q = get_from q (purge_list (snap_map c s))).
Proof.
  split; [|reflexivity]. intros t rt s q t0 R NQ D G. rewrite <- (app_nil_r q) at 1.
  exact (get_view t rt s q [] t0 R NQ (replay_diverge_ok _ _ _ _ _ D G)).
Qed.
Print Assumptions C29_reads_committed_if_unwritten.

(* traversal through a scalar is rejected - the scalar may sit in the configuration as of transaction start (even if
   the transaction has since replaced it) or in the transaction's own view - nothing else is, and a rejected Set
   changes nothing *)
Theorem C29_non_map_traversal_rejected : forall t s ks v, tx_ok t -> ks <> [] ->
  (tx_set t s ks v = None <->
   blocked ks (Some (Obj (snap_map (tx_pristine t) s))) = true \/ blocked ks (Some (Obj (raw_view t s))) = true).
Proof. exact set_fails_iff. Qed.
Print Assumptions C29_non_map_traversal_rejected.

Theorem C29_rejected_changes_nothing : forall st i s ks v t, nth_error (st_txs st) i = Some t ->
  tx_set t s ks v = None -> step st (OSet i s ks v) = (st, BSet false).
Proof. intros st i s ks v t N H. cbn [step]. now rewrite N, H. Qed.
Print Assumptions C29_rejected_changes_nothing.

(* revision snapshots, as functions (snap, revision) -> saved tree: save records the current snap config (nothing if
   the snap has none), restore installs the snapshot if there is one (otherwise leaves the configuration as it is),
   discard removes exactly that snapshot *)
Theorem C29_revision_snapshots :
  (forall c rc s r s' r', snap_at (save_rev c rc s r) s' r' =
     match lookup s c with
     | Some sc => if (s' =? s) && (r' =? r) then Some sc else snap_at rc s' r'
     | None => snap_at rc s' r'
     end) /\
  (forall c rc s r s', lookup s' (restore_rev c rc s r) =
     match snap_at rc s r with
     | Some sc => if s' =? s then Some sc else lookup s' c
     | None => lookup s' c
     end) /\
  (forall rc s r s' r', snap_at (discard_rev rc s r) s' r' = if (s' =? s) && (r' =? r) then None else snap_at rc s' r') /\
  (forall c c' rc s r sc, lookup s c = Some sc -> lookup s (restore_rev c' (save_rev c rc s r) s r) = Some sc).
Proof. exact (conj save_spec (conj restore_spec (conj discard_spec save_then_restore))). Qed.
Print Assumptions C29_revision_snapshots.

(* ---- non-vacuity: the hypotheses are satisfiable and the interesting branches are taken *)
Definition ex_cfg : config := [(115, Obj [(97, Atom 1%Z); (98, Obj [(99, Atom 2%Z)])])].   (* s: {a:1, b:{c:2}} *)

(* a successful nested write, a rejected one (through the scalar a), the LP 1920773 re-creation after a null *)
Example ex_set_ok : exists t', tx_set (new_tx ex_cfg) 115 [98; 100] (Atom 3%Z) = Some t' /\
  tx_get t' 115 [98] = GOk (Obj [(99, Atom 2%Z); (100, Atom 3%Z)]).
Proof. eexists. split; reflexivity. Qed.
Example ex_set_rejected : tx_set (new_tx ex_cfg) 115 [97; 98] (Atom 3%Z) = None.
Proof. reflexivity. Qed.
Example ex_scalar_replaced_still_rejected :
  match tx_set (new_tx ex_cfg) 115 [97] (Obj []) with Some t' => tx_set t' 115 [97; 98] (Atom 3%Z) | None => None end = None.
Proof. reflexivity. Qed.
Example ex_null_leaves_empty_object :
  match tx_set (new_tx ex_cfg) 115 [98; 99] Null with Some t' => tx_get t' 115 [98] | None => GOther end = GOk (Obj []).
Proof. reflexivity. Qed.
(* two transactions from the same base, both commit: nothing is lost *)
Example ex_two_commits :
  run (mkState ex_cfg [] []) [ONew; ONew; OSet 0 115 [98; 100] (Atom 3%Z); OSet 1 115 [98; 97] (Atom 4%Z); OCommit 0; OCommit 1] =
  [BCfg ex_cfg []; BCfg ex_cfg []; BSet true; BSet true;
   BCfg [(115, Obj [(97, Atom 1%Z); (98, Obj [(99, Atom 2%Z); (100, Atom 3%Z)])])] [];
   BCfg [(115, Obj [(97, Atom 1%Z); (98, Obj [(97, Atom 4%Z); (99, Atom 2%Z); (100, Atom 3%Z)])])] []].
Proof. vm_compute. reflexivity. Qed.
Example ex_tx_ok : tx_ok (new_tx ex_cfg).
Proof. exists (mkRtx ex_cfg []). now apply rel_empty. Qed.

(* nested dotted paths, two transactions from the same base: transaction 0 writes b.d, transaction 1 writes b.a; each
   sees only its own write until commit; transaction 1 commits FIRST, then 0 - the other order of ex_two_commits - and
   the committed b holds both (same final configuration in either order) *)
Example ex_two_commits_other_order :
  run (mkState ex_cfg [] []) [ONew; ONew; OSet 0 115 [98; 100] (Atom 3%Z); OSet 1 115 [98; 97] (Atom 4%Z);
                              OGet 0 115 [98]; OGet 1 115 [98]; OCommit 1; OGet 0 115 [98]; OCommit 0; ONew; OGet 2 115 [98]] =
  [BCfg ex_cfg []; BCfg ex_cfg []; BSet true; BSet true;
   BGet (GOk (Obj [(99, Atom 2%Z); (100, Atom 3%Z)])); BGet (GOk (Obj [(97, Atom 4%Z); (99, Atom 2%Z)]));
   BCfg [(115, Obj [(97, Atom 1%Z); (98, Obj [(97, Atom 4%Z); (99, Atom 2%Z)])])] [];
   BGet (GOk (Obj [(99, Atom 2%Z); (100, Atom 3%Z)]));
   BCfg [(115, Obj [(97, Atom 1%Z); (98, Obj [(97, Atom 4%Z); (99, Atom 2%Z); (100, Atom 3%Z)])])] [];
   BCfg [(115, Obj [(97, Atom 1%Z); (98, Obj [(97, Atom 4%Z); (99, Atom 2%Z); (100, Atom 3%Z)])])] [];
   BGet (GOk (Obj [(97, Atom 4%Z); (99, Atom 2%Z); (100, Atom 3%Z)]))].
Proof. vm_compute. reflexivity. Qed.
(* null at an inner node against a concurrent write below it: transaction 0 unsets b, transaction 1 writes b.d.
   0 then 1: b is removed, then re-created holding only d (the later commit wins, the old member c is gone);
   1 then 0: b gets d, then the whole of b is removed. The paths are comparable, so the later commit decides. *)
Example ex_inner_null_then_write :
  run (mkState ex_cfg [] []) [ONew; ONew; OSet 0 115 [98] Null; OSet 1 115 [98; 100] (Atom 4%Z); OGet 0 115 [98]; OGet 1 115 [98];
                              OCommit 0; OCommit 1; ONew; OGet 2 115 [98]] =
  [BCfg ex_cfg []; BCfg ex_cfg []; BSet true; BSet true; BGet GNoOption; BGet (GOk (Obj [(99, Atom 2%Z); (100, Atom 4%Z)]));
   BCfg [(115, Obj [(97, Atom 1%Z)])] []; BCfg [(115, Obj [(97, Atom 1%Z); (98, Obj [(100, Atom 4%Z)])])] [];
   BCfg [(115, Obj [(97, Atom 1%Z); (98, Obj [(100, Atom 4%Z)])])] []; BGet (GOk (Obj [(100, Atom 4%Z)]))].
Proof. vm_compute. reflexivity. Qed.
Example ex_write_then_inner_null :
  run (mkState ex_cfg [] []) [ONew; ONew; OSet 0 115 [98] Null; OSet 1 115 [98; 100] (Atom 4%Z); OCommit 1; OCommit 0; ONew;
                              OGet 2 115 [98]; OGet 2 115 [97]] =
  [BCfg ex_cfg []; BCfg ex_cfg []; BSet true; BSet true;
   BCfg [(115, Obj [(97, Atom 1%Z); (98, Obj [(99, Atom 2%Z); (100, Atom 4%Z)])])] [];
   BCfg [(115, Obj [(97, Atom 1%Z)])] []; BCfg [(115, Obj [(97, Atom 1%Z)])] []; BGet GNoOption; BGet (GOk (Atom 1%Z))].
Proof. vm_compute. reflexivity. Qed.
