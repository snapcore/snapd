(* C04 — a restart at any checkpoint resumes changes without redoing finished work.
   This file holds the property theorems only. Model: models/Restart.v (TaskRunner.Ensure/run/mustWait/tryUndo and the
   single-lane abort of overlord/state/taskrunner.go, with persist/reload; self-contained, not TaskEngine.v).
   An event list is any sequence of Ensure passes, handler completions, graceful stops (EStop = TaskRunner.Stop with the
   handlers in flight honouring their tombs: the cancellation error counts as Retry in both directions, the task stays Doing /
   Undoing) and restarts (ERestart = reload of the last payload), anywhere, any number. *)
From Coq Require Import List NArith Bool.
Import ListNotations.
Require Import V.lib.Bytes V.models.Restart V.gen.UnlockOrder V.proofs.RestartProofs V.proofs.RestartTieProofs.
Open Scope N_scope.

(* a handler phase recorded as finished is never started again: once a task has left Do/Doing (rank >= 2: Done, Abort,
   Undo, Undoing, Undone, Hold, Error) no event list — with restarts anywhere — starts its do handler again, and once it is
   Undone/Hold/Error none starts its undo handler again. [count id u log] is the number of starts of the do (u = false) or
   undo (u = true) handler of task id recorded so far. *)
Theorem C04_never_after_done : forall c evs s id,
  (2 <= rk (status_of (tasks s) id) -> count id false (log (run_events c s evs)) = count id false (log s)) /\
  (5 <= rk (status_of (tasks s) id) -> count id true (log (run_events c s evs)) = count id true (log s)).
Proof. intros c evs s id. exact (proj2 (run_frozen c id evs s)). Qed.
Print Assumptions C04_never_after_done.

(* no change or task is lost, duplicated or rewired by any event list, and statuses only move forward *)
Theorem C04_no_loss_no_dup : forall c evs s,
  (forall id, rk (status_of (tasks s) id) <= rk (status_of (tasks (run_events c s evs)) id)) /\
  map t_id (tasks (run_events c s evs)) = map t_id (tasks s) /\
  map t_waits (tasks (run_events c s evs)) = map t_waits (tasks s).
Proof. intros c evs s. exact (proj1 (run_frozen c 0 evs s)). Qed.
Print Assumptions C04_no_loss_no_dup.

(* what a restart is: every persisted field survives, the set of running handlers is empty *)
Theorem C04_reload_persist : forall s, tasks (restart s) = tasks s /\ running (restart s) = [] /\ log (restart s) = log s.
Proof. intros s. repeat split. Qed.
Print Assumptions C04_reload_persist.

(* same outcome, every graph, every configuration, every continuation: in a state whose running handlers all belong to
   tasks in Doing or Undoing - i.e. NO RUNNING TASK IS IN ABORT at the restart point - a restart followed by an Ensure pass
   and any further events (more restarts included) gives exactly the tasks, statuses and set of running handlers that
   the same Ensure pass and events give without the restart ([eqv]: same task list, same running set; the log of
   handler starts is not compared: after a restart the running handlers are started again). By induction over the Ensure
   pass (two passes side by side) and over the event list; no bound on the graph.
   The baseline is the run without restart in which an Ensure pass happens at that moment (Ensure may run at any time:
   State.EnsureBefore); the driver builds exactly that baseline on the real code. *)
Theorem C04_same_outcome : forall c s evs, NoDup (map t_id (tasks s)) ->
  (forall id, mem id (running s) = true -> status_of (tasks s) id = 3 \/ status_of (tasks s) id = 7) ->
  eqv (run_events c s (ERestart :: EEnsure :: evs)) (run_events c s (EEnsure :: evs)).
Proof. exact same_outcome. Qed.
Print Assumptions C04_same_outcome.

(* the same for a graceful stop before the process goes away: TaskRunner.Stop, then the restart *)
Theorem C04_same_outcome_stop : forall c s evs, NoDup (map t_id (tasks s)) ->
  (forall id, mem id (running s) = true -> status_of (tasks s) id = 3 \/ status_of (tasks s) id = 7) ->
  eqv (run_events c s (EStop :: ERestart :: EEnsure :: evs)) (run_events c s (EEnsure :: evs)).
Proof. exact same_outcome_stop. Qed.
Print Assumptions C04_same_outcome_stop.

(* in addition, on a complete finite domain and against the fixed round policy itself (no Ensure inserted in the baseline):
   all chains of at most 3 tasks with any extra edges to earlier tasks, all 64 handler configurations, every one of the
   first 40 single steps of the deterministic schedule as the crash point: same final status vector *)
Theorem C04_same_outcome_chains_bounded : forall x, In x same_outcome_domain -> same_outcome_ok x = true.
Proof. apply forallb_forall. exact same_outcome_all. Qed.
Print Assumptions C04_same_outcome_chains_bounded.

(* the guard of C04_same_outcome matters (KNOWN_FINDINGS key restart-with-task-in-abort, replayed on the implementation
   on every run): with two parallel failing tasks, a restart taken while the second one is in Abort (aborted while its
   handler was running) gives Undone instead of Error for it: an Abort task is not run again after a restart, it is
   undone directly (TaskRunner.Ensure -> tryUndo), so its own failure is never observed *)
Theorem C04_same_outcome_parallel_refuted :
  let g := [(1, []); (2, [])] in let c := mkCfg [1; 2] [] in
  statuses (settle 16 c (restart (iter 2 c (init g)))) <> statuses (settle 16 c (init g)).
Proof. vm_compute. discriminate. Qed.
Print Assumptions C04_same_outcome_parallel_refuted.

(* ---- the persistence assumption: checkpoints are atomic with respect to state mutations and totally ordered.
   [restart] above reloads the in-memory task list; that is justified exactly when the store holds the payload of the last
   unlock. C04_store_is_memory: in the model with an explicit store, for every history of runner steps (each followed by its
   checkpoint) and crashes WITHOUT stale writes, the store always equals the in-memory task list and the history is the
   runner model's history with ERestart for every crash - so every theorem above applies to crashes. *)
Theorem C04_store_is_memory : forall c evs w, no_stale evs = true -> w_disk w = tasks (w_mem w) ->
  w_disk (wrun c w evs) = tasks (w_mem (wrun c w evs)) /\
  w_mem (wrun c w evs) = run_events c (w_mem w) (flat_map erase evs).
Proof. exact store_is_memory. Qed.
Print Assumptions C04_store_is_memory.

(* ... and the hypothesis is needed: one stale write (the older payload, task 1 Doing, completing after the newer one, task 1
   Done - a checkpoint written outside the state lock) and a crash, and the finished task is run again *)
Theorem C04_stale_checkpoint_refuted :
  let c := mkCfg [] [] in let w0 := mkW (init [(1, [])]) (tasks (init [(1, [])])) in
  let w2 := wrun c w0 [WStep EEnsure; WStep (EFinish 1)] in
  let wf := wrun c w2 [WStale (tasks (w_mem (wrun c w0 [WStep EEnsure]))); WCrash; WStep EEnsure] in
  status_of (tasks (w_mem w2)) 1 = 4 /\ count 1 false (log (w_mem w2)) = 1 /\ count 1 false (log (w_mem wf)) = 2.
Proof. vm_compute. repeat split; reflexivity. Qed.
Print Assumptions C04_stale_checkpoint_refuted.

(* checkpoint failure and retry (State.Unlock keeps the lock while it retries a failing Backend.Checkpoint): over every history
   of steps whose checkpoint succeeds at once or is still failing, successful retries and crashes, the store always holds the
   image of a state whose unlock completed - the current one or, while an unlock is retrying, the one before the step in
   progress; never anything older, never a mixture; and a crash during the retry loses exactly that unacknowledged step *)
Theorem C04_store_always_an_unlocked_state : forall c evs w, store_inv c w -> store_inv c (crun c w evs).
Proof. intros c evs. induction evs as [|e evs IH]; intros w H; simpl; [exact H | apply IH, cstep_inv, H]. Qed.
Print Assumptions C04_store_always_an_unlocked_state.

Theorem C04_crash_during_retry : forall c w, store_inv c w -> c_dirty w = true ->
  exists m0 e, c_mem w = step c m0 e /\ tasks (c_mem (cstep c w CCrash)) = tasks m0.
Proof.
  intros c w [[Hd _]|[_ [m0 [e [Hm Hk]]]]] Hdirty; [congruence|]. exists m0, e. split; [exact Hm | simpl; exact Hk].
Qed.
Print Assumptions C04_crash_during_retry.

(* ... connected to the runner model: when no write fails, a history with crashes IS the runner model's history with ERestart
   for each crash (so every theorem about [run_events] applies); a step whose write fails followed by the successful retry is
   the step with an immediate write; a step whose write fails followed by a crash is the crash alone (same tasks, nothing
   running, same store): the unacknowledged step is lost and nothing else *)
Theorem C04_crun_is_run_events : forall c evs w, all_written evs = true -> c_dirty w = false -> c_disk w = tasks (c_mem w) ->
  c_dirty (crun c w evs) = false /\ c_disk (crun c w evs) = tasks (c_mem (crun c w evs)) /\
  c_mem (crun c w evs) = run_events c (c_mem w) (flat_map cerase evs).
Proof. exact crun_is_run_events. Qed.
Print Assumptions C04_crun_is_run_events.

Theorem C04_failed_then_retry : forall c w e, c_dirty w = false -> e <> ERestart ->
  cstep c (cstep c w (CStep e false)) CRetry = cstep c w (CStep e true).
Proof. intros c w e Hd He. rewrite !(cstep_step c w e _ He), Hd. reflexivity. Qed.
Print Assumptions C04_failed_then_retry.

Theorem C04_failed_then_crash : forall c w e, c_dirty w = false -> e <> ERestart ->
  tasks (c_mem (cstep c (cstep c w (CStep e false)) CCrash)) = tasks (c_mem (cstep c w CCrash)) /\
  running (c_mem (cstep c (cstep c w (CStep e false)) CCrash)) = [] /\
  c_disk (cstep c (cstep c w (CStep e false)) CCrash) = c_disk w.
Proof. intros c w e Hd He. destruct e; try congruence; simpl; rewrite Hd; repeat split; reflexivity. Qed.
Print Assumptions C04_failed_then_crash.

(* THE normal form: ANY history of steps whose write succeeds at once or is still failing, steps attempted while the lock is
   held by a retrying unlock, successful retries and crashes, from a state whose store is up to date, leaves the runner in a
   state equivalent (same tasks with statuses and edges, same set of running handlers; the observer's log of handler starts is
   not compared: a handler whose step was lost did start) to [run_events] of [cflat None evs]: the steps whose unlock completed,
   in order, an ERestart for every crash, the unacknowledged steps dropped. Hence every theorem about [run_events] above speaks
   about every store history. *)
Theorem C04_store_normal_form : forall c evs w, c_dirty w = false -> c_disk w = tasks (c_mem w) ->
  eqv (c_mem (crun c w evs)) (run_events c (c_mem w) (cflat None evs)).
Proof. intros c evs w Hd Hk. apply cnormal_gen. exact (conj Hd (conj Hk (conj eq_refl (fun _ => eq_refl)))). Qed.
Print Assumptions C04_store_normal_form.

(* the hypothesis is tied to the code twice: (T) over the step list of State.Unlock regenerated from overlord/state/state.go
   on every run: in Unlock the data is marshalled and the checkpoint written before the state lock is released (a deferred
   unlock, no other unlock before the last Checkpoint call, no goroutine); the closure returned by Unlocker - the second
   release path - goes through s.Unlock() and hands back s.Lock; the bare s.unlock() has no caller in overlord/state other
   than Unlock itself and ReadState (fresh unmodified state), and s.mu.Unlock() none other than s.unlock(): every lock release
   that can follow a modification checkpoints first; (C) the drivers observe that what a handler or goroutine recorded before
   releasing the lock - through Unlock or through Unlocker - is in a completed payload; the second driver also observes on the real Unlock that the
   lock is held during every Checkpoint call and that writes complete in unlock order *)
Theorem C04_checkpoint_written_under_lock : every_release_checkpoints = true.
Proof. vm_compute. reflexivity. Qed.
Print Assumptions C04_checkpoint_written_under_lock.

(* non-vacuity: a chain of three tasks whose last do handler fails, restarted after five steps: the first task is Done
   at that point, is not done again, and everything ends undone *)
Example C04_example :
  let g := [(1, []); (2, [1]); (3, [2])] in let c := mkCfg [3] [] in
  let s := iter 5 c (init g) in let f := settle 16 c (restart s) in
  statuses s = [(1, 4); (2, 4); (3, 3)] /\ statuses f = [(1, 8); (2, 8); (3, 9)] /\
  count 1 false (log f) = 1 /\ count 3 false (log f) = 2 /\ count 1 true (log f) = 1.
Proof. vm_compute. repeat split; reflexivity. Qed.

(* non-vacuity of the hypotheses of C04_same_outcome: two parallel tasks, both running after the first Ensure pass *)
Example C04_same_outcome_hypotheses_satisfiable :
  let s := ensure (mkCfg [] []) (init [(1, []); (2, [])]) in
  running s = [1; 2] /\ forallb (fun id => (status_of (tasks s) id =? 3) || (status_of (tasks s) id =? 7)) (running s) = true.
Proof. vm_compute. split; reflexivity. Qed.

(* non-vacuity: a step whose checkpoint is failing, another step that cannot happen meanwhile, a crash: the task is back in Do *)
Example C04_retry_example :
  let c := mkCfg [] [] in let w0 := mkC (init [(1, [])]) (tasks (init [(1, [])])) false in
  let w1 := crun c w0 [CStep EEnsure false; CStep (EFinish 1) true] in
  store_inv c w0 /\ c_dirty w1 = true /\ statuses (c_mem w1) = [(1, 3)] /\
  statuses (c_mem (crun c w1 [CCrash])) = [(1, 2)] /\ statuses (c_mem (crun c w1 [CRetry; CStep (EFinish 1) true; CCrash])) = [(1, 4)].
Proof. vm_compute. repeat split; try reflexivity. left. split; reflexivity. Qed.

(* non-vacuity of the normal form: a failing write, an attempt while the lock is held, a crash (step lost), then a failing
   write that is retried successfully, a crash *)
Example C04_normal_form_example :
  cflat None [CStep EEnsure false; CStep (EFinish 1) true; CCrash; CStep EEnsure false; CRetry; CStep (EFinish 1) true; CCrash]
  = [ERestart; EEnsure; EFinish 1; ERestart].
Proof. reflexivity. Qed.
