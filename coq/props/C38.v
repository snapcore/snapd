(* C38 — accepted gadget volumes lay out into disjoint structures.
   This file holds the property theorems only: statement, a short derivation from proofs/GadgetProofs.v, Print Assumptions.
   Model: models/Gadget.v (gadget/gadget.go, gadget/ondisk.go, gadget/layout.go, gadget/quantity function by function).

   Full statement of the property: for EVERY volume definition that InfoFromGadgetYaml accepts, the layout places the
   structures in increasing order, no two overlapping, every laid-out content inside its structure.
   It is FALSE of the faithful model and of the real code when one of the uint64 sums of the implementation wraps
   (C38_wrap_refuted, reachable from gadget.yaml text: finding, KNOWN_FINDINGS key offset-sum-wraps-uint64).
   It is proved for every volume definition whose laid-out structures all end below 2^64 (hypothesis `Forall fits`). *)
From Coq Require Import List NArith ZArith Bool Sorting.Sorted.
Import ListNotations.
Require Import V.models.Gadget V.proofs.GadgetProofs.
Open Scope N_scope.

(* every ordered structure list that validateCrossVolumeStructure accepts: OnDiskStructsFromGadget yields a list in which
   every structure ends at or before the start of every later one (so starts increase and no two structures overlap),
   provided no laid-out structure ends at or beyond 2^64. By induction on the structure list; any number of structures,
   any sizes, explicit and floating offsets. *)
Theorem C38_disjoint_increasing : forall l : list structure,
  validate_cross l = true -> Forall fits (on_disk l) -> StronglySorted before (on_disk l).
Proof. exact validate_cross_disjoint. Qed.
Print Assumptions C38_disjoint_increasing.

(* the same from the gadget.yaml text: quantity parsing, implicit offsets and min-sizes, reordering by offset, validation *)
Theorem C38_accepted_disjoint : forall (v : raw_volume) (l : list structure),
  accept v = Some l -> Forall fits (on_disk l) ->
  StronglySorted before (on_disk l) /\ StronglySorted (fun a b => fst a <= fst b) (on_disk l).
Proof. intros v l H F. split; [|apply sorted_starts]; exact (accepted_disjoint v l H F). Qed.
Print Assumptions C38_accepted_disjoint.

(* ... and for ANY actual sizes up to the declared ones (a disk may hold a min-size..size structure at any size in between,
   structures without an offset of their own then start at the actual end of their predecessor): still no overlap.
   So validating with the full sizes, as validateCrossVolumeStructure does, covers every admissible disk *)
Theorem C38_accepted_disjoint_any_sizes : forall (v : raw_volume) (l : list structure) (zs : list N),
  accept v = Some l -> Forall fits (on_disk l) -> Forall2 (fun s z => z <= s_size s) l zs ->
  StronglySorted before (on_disk_sized l zs).
Proof. exact accepted_disjoint_any_sizes. Qed.
Print Assumptions C38_accepted_disjoint_any_sizes.

(* ... and they stay inside the volume: every structure ends at or before the end of the last one, which is below 2^64 *)
Theorem C38_inside_volume : forall (v : raw_volume) (l : list structure),
  accept v = Some l -> Forall fits (on_disk l) ->
  Forall (fun p => fst p + snd p <= layout_end (on_disk l)) (on_disk l) /\ (on_disk l <> [] -> layout_end (on_disk l) < W).
Proof. exact accepted_inside_volume. Qed.
Print Assumptions C38_inside_volume.

(* offset-write: in an accepted volume every 4-byte offset-write pointer lies inside the min-size of the first structure, which
   then is at offset 0 (form `name+off`, name = the first structure), or inside the minimal volume size (absolute form) *)
Theorem C38_offset_write_inside : forall (v : raw_volume) (l : list structure) (first : structure) (r : list structure),
  accept v = Some l -> l = first :: r -> Forall (ow_inside first (vol_min_size l)) l.
Proof. exact accepted_offset_write_inside. Qed.
Print Assumptions C38_offset_write_inside.

(* the entries of the layout are the structures: same sizes, declared offsets respected, the MBR at 0 *)
Theorem C38_layout_is_of_the_structures : forall (v : raw_volume) (l : list structure),
  accept v = Some l ->
  map snd (on_disk l) = map s_size l /\
  Forall2 (fun s p => forall o, s_offset s = Some o -> fst p = o) l (on_disk l) /\
  Forall2 (fun s p => s_mbr s = true -> fst p = 0) l (on_disk l).
Proof.
  intros v l H. split; [exact (proj1 (on_disk_from_spec l 0))|].
  split; [exact (proj2 (on_disk_from_spec l 0)) | exact (accepted_mbr_at_zero v l H)].
Qed.
Print Assumptions C38_layout_is_of_the_structures.

(* content: whenever layOutStructureContent succeeds for a structure that ends below 2^64 and whose quantities are below
   2^63, every laid-out image lies inside the structure and the images are in increasing order without overlap *)
Theorem C38_content_inside : forall (st : N) (s : structure) (cs : list (N * N)),
  layout_content st s = Some cs -> st + s_size s < W -> small_struct s ->
  Forall (within st (s_size s)) cs /\ StronglySorted before cs.
Proof. exact layout_content_inside. Qed.
Print Assumptions C38_content_inside.

(* ... and the quantities are always below 2^63 when they come from gadget.yaml (image sizes are file sizes, int64):
   the content statement for a whole accepted volume *)
Theorem C38_accepted_content_inside : forall (v : raw_volume) (l : list structure) (lay : list (list (N * N))),
  Forall raw_images_small (rv_structs v) -> accept v = Some l -> Forall fits (on_disk l) ->
  layout_all l (on_disk l) = Some lay ->
  Forall2 (fun p cs => Forall (within (fst p) (snd p)) cs /\ StronglySorted before cs) (on_disk l) lay.
Proof. exact accepted_content_inside. Qed.
Print Assumptions C38_accepted_content_inside.

(* the size / offset parser: whatever it accepts is below 2^63; it is exact on quantities that denote a number in
   [0, 2^63) and refuses those in [-2^63, 0) *)
Theorem C38_quantity_parser : forall q : qty,
  (forall n, parse_qty q = Some n -> n < two63) /\
  ((0 <= qty_value q < 9223372036854775808)%Z -> parse_qty q = Some (Z.to_N (qty_value q))) /\
  ((- 9223372036854775808 <= qty_value q < 0)%Z -> parse_qty q = None).
Proof.
  intro q. split; [exact (parse_qty_bound q)|]. split; [exact (parse_qty_exact q) | exact (parse_qty_negative q)].
Qed.
Print Assumptions C38_quantity_parser.

(* the unguarded statement is false: a gadget.yaml volume of three structures, every quantity accepted by the parser,
   is accepted by validation and laid out with the third structure strictly inside the first (the running end
   2*(2^63-2^30) + 4G wraps to 2^31). Confirmed on the real code on every run (driver witness 0). *)
Theorem C38_wrap_refuted : exists (v : raw_volume) (l : list structure),
  accept v = Some l /\ disjoint_incr (on_disk l) = false /\
  exists a b, In a (on_disk l) /\ In b (on_disk l) /\ fst a < fst b /\ fst b + snd b < fst a + snd a.
Proof. exists wrap_witness. exact wrap_witness_accepted_overlapping. Qed.
Print Assumptions C38_wrap_refuted.

(* the mechanism behind it: number * unit is an int64 product without overflow check. 17179869185G is read as 1G,
   17179869184G (= 2^64) as 0, -17179869183G as 1G. Outside [-2^63, 2^63) the parser is not exact. *)
Theorem C38_parse_wrap_refuted : exists q : qty, exists n : N,
  (0 <= q_num q)%Z /\ parse_qty q = Some n /\ Z.of_N n <> qty_value q.
Proof.
  exists (Q 17179869185 UG), 1073741824. split; [discriminate|]. split; [exact (proj1 parse_wrap_witness) | discriminate].
Qed.
Print Assumptions C38_parse_wrap_refuted.

(* non-vacuity: an ordinary volume (mbr, a floating structure after a min-size one, content) is accepted, fits and is laid out *)
Example C38_nonvacuous :
  let v := RV false [ RS None (Some (Q 440 UB)) None true false None [RC None None (Some 440)];
                      RS (Some (Q 1 UM)) (Some (Q 2 UM)) (Some (Q 1 UM)) false true None [];
                      RS None (Some (Q 1 UG)) None false true None [];
                      RS (Some (Q 2 UG)) (Some (Q 8 UM)) None false false (Some (Some 0, Q 92 UB))
                         [RC None (Some (Q 512 UB)) (Some 300); RC (Some (Q 1 UM)) None (Some 4096)] ] in
  exists l lay, accept v = Some l /\ Forall fits (on_disk l) /\ layout_all l (on_disk l) = Some lay /\
                on_disk l = [(0, 440); (1048576, 2097152); (3145728, 1073741824); (2147483648, 8388608)] /\
                lay = [[(0, 440)]; []; []; [(2147483648, 512); (2148532224, 4096)]].
Proof.
  eexists. eexists. split; [vm_compute; reflexivity|]. split; [|split; [vm_compute; reflexivity|split; reflexivity]].
  repeat constructor.
Qed.

(* non-vacuity of the any-sizes theorem: the floating structure s2 (min 1M, size 2M) and its predecessor at their minimal sizes *)
Example C38_any_sizes_nonvacuous :
  let v := RV false [ RS (Some (Q 1 UM)) (Some (Q 2 UM)) (Some (Q 1 UM)) false true None [];
                      RS None (Some (Q 2 UM)) (Some (Q 1 UM)) false true None [];
                      RS (Some (Q 5 UM)) (Some (Q 1 UM)) None false true None [] ] in
  exists l, accept v = Some l /\ Forall fits (on_disk l) /\
            Forall2 (fun s z => z <= s_size s) l [1048576; 1048576; 1048576] /\
            on_disk l = [(1048576, 2097152); (3145728, 2097152); (5242880, 1048576)] /\
            on_disk_sized l [1048576; 1048576; 1048576] = [(1048576, 1048576); (2097152, 1048576); (5242880, 1048576)].
Proof.
  eexists. split; [vm_compute; reflexivity|]. split; [repeat constructor|].
  split; [repeat constructor; vm_compute; discriminate|]. split; reflexivity.
Qed.

(* non-vacuity of the offset-write theorem: relative and absolute forms accepted, one byte too far refused *)
Example C38_offset_write_nonvacuous :
  let mk ow := RV false [ RS None (Some (Q 440 UB)) None true false None [];
                          RS (Some (Q 1 UM)) (Some (Q 1 UM)) None false true ow [] ] in
  (exists l, accept (mk (Some (Some 0, Q 436 UB))) = Some l) /\ accept (mk (Some (Some 0, Q 437 UB))) = None /\
  (exists l, accept (mk (Some (None, Q 2097148 UB))) = Some l) /\ accept (mk (Some (None, Q 2097149 UB))) = None /\
  accept (mk (Some (Some 1, Q 0 UB))) = None.
Proof.
  split; [eexists; vm_compute; reflexivity|]. split; [vm_compute; reflexivity|].
  split; [eexists; vm_compute; reflexivity|]. split; vm_compute; reflexivity.
Qed.
