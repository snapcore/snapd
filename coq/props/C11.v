(* C11 — after every settled change the recorded snap state matches the system.
   Theorems only. Model: models/SnapSeq.v, invariant `wf` in proofs/SnapSeqProofs.v; tied to /repo by the differential run of
   harness/overlay/overlord/snapstate/zz_verif_c10_test.go; monitor SnapSeq.monitor11_fail evaluates the invariant on the
   state and backend log the real code leaves after EVERY settled change of every history (completed or failed and undone,
   all operation kinds).

   FULL STATEMENT: the invariant (current is kept, no revision kept twice, mounted = kept, linked revision = current
   exactly when active, a removed snap leaves nothing) holds after every sequence of install / refresh / revert / enable /
   disable / remove operations with and without injected failures, on several snaps.
   PROVED (C11_consistent_invariant): for EVERY history of operations on the snap — install, refresh (from the store or a local
   file, to a new or a kept revision), revert, enable, disable, remove, remove --revision, snap set, refresh inhibition,
   changes of refresh.retain — each of them completed, refused, or FAILED AT AN ARBITRARY TASK and undone, played from the
   empty state, the state after every step satisfies `wf`, which implies the C11 statement (C11_invariant_content).
   The recorded C10 classes (fail-after-discard, config-from-nothing) do not break the invariant: they are covered.
   The only side condition is refresh.retain >= 2, the range the configuration accepts (with retain 1 a failure after the
   discard of the old current revision would leave current not kept; configcore rejects such values).
   `step o k retain inuse s`: k = 0 the change runs to its end, k = S j its first j tasks complete, the next one fails,
   the j tasks are undone in reverse.  NOT covered: several snaps and the frame condition between them (the model and the
   driver play one snap); partial effects of the failing task itself (the failing task has no effect in the model; the
   handlers' own cleanup on error is not modelled). *)
From Coq Require Import List NArith ZArith Bool.
Import ListNotations.
Require Import V.models.SnapSeq V.proofs.SnapSeqProofs V.proofs.SnapSeqProofs3 V.proofs.SnapSeqDone V.proofs.SnapSeqProofs7
               V.proofs.SnapSeqProofs8 V.proofs.SnapSeqProofs9.
Open Scope N_scope.

Theorem C11_invariant_content : forall s : st, wf s ->
  NoDup (seq s) /\ (seq s <> [] -> In (cur s) (seq s)) /\ (forall x, In x (mounted s) <-> In x (seq s)) /\
  (active s = true -> link s = cur s) /\ (active s = false -> link s = 0) /\
  (seq s = [] -> active s = false /\ link s = 0 /\ cfg s = 0 /\ mounted s = [] /\ cur s = 0).
Proof. exact wf_consistent. Qed.
Print Assumptions C11_invariant_content.

Theorem C11_empty_wf : wf empty.
Proof. exact wf_empty. Qed.
Print Assumptions C11_empty_wf.

(* every operation that completes (k = 0) or is refused preserves the invariant *)
Theorem C11_completed_ops_preserve : forall (o : op) (retain : Z) (inuse : N -> bool) (s : st),
  wf s -> (2 <= retain)%Z -> wf (step o 0 retain inuse s).
Proof. exact completed_wf. Qed.
Print Assumptions C11_completed_ops_preserve.

(* a failed and undone refresh leaves a consistent state whatever the failure position *)
Theorem C11_failed_refresh_preserves : forall (s : st) (o : op) (j : nat) (retain : Z) (inuse : N -> bool),
  wf s -> okind o = ORefresh -> accepts o s = true -> (2 <= retain)%Z -> cfg_guard o s ->
  wf (run_change o (S j) (tasks_for o s retain inuse) s).
Proof. intros s o j retain inuse W K A R _. apply failed_c10_wf; auto. right; left; exact K. Qed.
Print Assumptions C11_failed_refresh_preserves.

(* any single step, whatever its kind and whatever its failure position *)
Theorem C11_every_step_preserves : forall (o : op) (k : nat) (retain : Z) (inuse : N -> bool) (s : st),
  wf s -> (2 <= retain)%Z -> wf (step o k retain inuse s).
Proof. exact step_wf_all. Qed.
Print Assumptions C11_every_step_preserves.

(* induction over histories: hplay plays a list of steps (operation, failure position, retain, in-use answer) *)
Theorem C11_consistent_invariant : forall (hs : list hstep),
  (forall h, In h hs -> (2 <= h_retain h)%Z) -> wf (hplay hs empty).
Proof. intros hs R. apply history_wf_all; [exact wf_empty|exact R]. Qed.
Print Assumptions C11_consistent_invariant.

(* handlers that fail midway and are retried.  doDiscardSnap is the handler that answers state.Retry (a failed
   RemoveSnapFiles) and is then run again from the top on whatever the first attempt left in the state.  Its effects in order
   (discard_plan: RemoveSnapFiles, DeleteSnapConfig for the last revision, DiscardRevisionConfig, and LAST the write of the
   trimmed record computed from the state read at the start) make up the handler (C11_discard_effects), and re-running it
   after a failure at any internal point reaches the same state as one undisturbed run.  The other handlers that change both
   the recorded state and the disk are given in the same ordered-effects form further below (unlink-current-snap, mount-snap
   and its undo, link-snap) with `failure after any effect + the handler's own cleanup = nothing happened`.  NOT in this
   form: undoLinkSnap (its configuration restore precedes the backend UnlinkSnap; a re-run is not proved idempotent here),
   doCopySnapData / its undo (data directories are not modelled; the driver injects a copy-data failure and finds the change
   undone), re-runs after a restart. *)
Theorem C11_discard_effects : forall (r : N) (s : st), discard_run r s (discard_plan r s) s = do_discard r s.
Proof. exact discard_plan_is_discard. Qed.
Print Assumptions C11_discard_effects.

Theorem C11_handlers_retry_idempotent : forall (r : N) (s : st) (i : nat),
  (i < length (discard_plan r s))%nat ->
  do_discard r (discard_run r s (firstn i (discard_plan r s)) s) = do_discard r s.
Proof. exact discard_retry_idempotent. Qed.
Print Assumptions C11_handlers_retry_idempotent.

(* why the write of the trimmed record has to come last: written before RemoveSnapFiles, a retry would start from ONE kept
   revision and take the last-revision shortcut: kept [1,2], discarding 1 — the snap is gone from the state while
   revision 2 is still mounted and linked *)
Example C11_retry_needs_set_last :
  let s := mkSt [1;2] 2 true 1 false false false false false 0 2 0 [] 5 [] [1;2] 2 in
  let early := apply_deffect 1 s s ESet in
  seq (do_discard 1 s) = [2] /\ seq (do_discard 1 early) = [] /\ mounted (do_discard 1 early) = [2] /\ link (do_discard 1 early) = 2.
Proof. exact retry_needs_set_last. Qed.

(* doUnlinkCurrentSnap = backend UnlinkSnap, then Set(Active=false); when UnlinkSnap fails (with or without having taken
   effect) restoreUnlinkOnError links the old revision again: nothing happened *)
Theorem C11_unlink_current_effects : forall s : st, run_effects uc_effects s = do_unlink_current s.
Proof. intros []. reflexivity. Qed.
Print Assumptions C11_unlink_current_effects.

Theorem C11_unlink_current_failure_is_clean : forall (s : st) (i : nat), wf s -> active s = true -> (i <= 1)%nat ->
  uc_cleanup s (run_effects (firstn i uc_effects) s) = s.
Proof.
  intros s i [_ _ _ _ _ _ _ W8] A L. rewrite A in W8.
  destruct i as [|[|i]]; [| |apply le_S_n in L; inversion L]; destruct s; simpl in *; subst; reflexivity.
Qed.
Print Assumptions C11_unlink_current_failure_is_clean.

(* doMountSnap = backend SetupSnap; its error path undoes the setup: nothing happened.  undoMountSnap re-run = run once *)
Theorem C11_mount_failure_is_clean : forall (r : N) (s : st) (i : nat), wf s -> ~ In r (seq s) -> (i <= 1)%nat ->
  run_effects (mount_effects r) s = do_mount r s /\
  mount_cleanup r (run_effects (firstn i (mount_effects r)) s) = s.
Proof. intros r s i W NI L. split; [destruct s; reflexivity|apply mount_failure_cleanup; auto]. Qed.
Print Assumptions C11_mount_failure_is_clean.

Theorem C11_undo_mount_retry_idempotent : forall (r : N) (s : st) (i : nat), (i <= 1)%nat ->
  undo_mount r (run_effects (firstn i (undo_mount_effects r)) s) = undo_mount r s.
Proof.
  intros r s i L. destruct i as [|[|i]]; [reflexivity| |apply le_S_n in L; inversion L].
  destruct s. unfold undo_mount. simpl. rewrite rem_idem. reflexivity.
Qed.
Print Assumptions C11_undo_mount_retry_idempotent.

(* doLinkSnap = backend LinkSnap, SaveRevisionConfig, RestoreRevisionConfig (reverts), and LAST the Set of the new record.
   A failure after any of the first three effects runs the deferred UnlinkSnap: on a snap that was not linked (always the
   case when link-snap runs) every field is as before except the configuration bookkeeping (core = everything but config
   and revision-config: a snapshot saved, or on a revert a configuration restored, before the failure stays); when LinkSnap
   itself is what fails, nothing at all has changed *)
Theorem C11_link_effects : forall (o : op) (s : st), run_effects (link_effects o s) s = fst (do_link o s).
Proof. exact link_effects_ok. Qed.
Print Assumptions C11_link_effects.

Theorem C11_link_failure_is_clean : forall (o : op) (s : st) (i : nat), link s = 0 -> (i <= 3)%nat ->
  core (link_cleanup (run_effects (firstn i (link_effects o s)) s)) = core s /\
  ((i <= 1)%nat -> link_cleanup (run_effects (firstn i (link_effects o s)) s) = s).
Proof. exact link_failure_cleanup. Qed.
Print Assumptions C11_link_failure_is_clean.

(* non-vacuity: install 1, refresh to 2, refresh to 3 failing after the last task (revision 1 is already garbage-collected),
   refresh to 3, revert to 2, disable, remove --revision 2 (the current one): kept [3], current 3 *)
Example C11_history_example :
  let i := mkOp OInstall 1 false 1 false false false false false 0 false 0 1 true in
  let d := mkOp ODisable 0 false 0 false false false false false 0 false 0 6 true in
  let rr := mkOp ORemoveRev 2 false 0 false false false false false 0 false 0 7 true in
  let hs := [mkH i 0 2 no_inuse; mkH (mk_refresh 2 7 2) 0 2 no_inuse; mkH (mk_refresh 3 0 3) 40 2 no_inuse;
             mkH (mk_refresh 3 0 4) 0 2 no_inuse; mkH (mk_revert 2 true 5) 0 2 no_inuse; mkH d 0 2 no_inuse;
             mkH rr 0 2 no_inuse] in
  seq (hplay hs empty) = [3] /\ cur (hplay hs empty) = 3 /\ active (hplay hs empty) = false /\ mounted (hplay hs empty) = [3].
Proof. vm_compute. repeat split; reflexivity. Qed.
