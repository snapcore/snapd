(* C13 — revert switches to a kept revision in place and blocks the reverted-from ones.
   Theorems only. Model: models/SnapSeq.v (Revert/RevertToRevision preconditions, doInstall's task list with Flags.Revert,
   doUnlinkCurrentSnap, doLinkSnap's revert branch, SnapState.Block), tied to /repo by the differential run of
   harness/overlay/overlord/snapstate/zz_verif_c10_test.go; monitor SnapSeq.monitor13_fail on the observed behaviour.
   Not modelled: data directories (the `no copy` part is the absence of copy-snap-data in the task list, and the driver
   counts the backend's copy-data calls on the real code). *)
From Coq Require Import List NArith ZArith Bool.
Import ListNotations.
Require Import V.models.SnapSeq V.proofs.SnapSeqProofs V.proofs.SnapSeqDone.
Open Scope N_scope.

(* a completed revert: the kept revisions and their order are unchanged, the target is current, active and linked,
   the mounted revisions are unchanged, and the change has no copy-snap-data, mount-snap or discard-snap task *)
Theorem C13_revert_in_place : forall (o : op) (s : st) (retain : Z) (inuse : N -> bool),
  wf s -> okind o = ORevert -> accepts o s = true ->
  let r := run_change o 0 (tasks_for o s retain inuse) s in
  seq r = seq s /\ cur r = orev o /\ active r = true /\ link r = orev o /\ mounted r = mounted s /\
  forallb (fun t => negb (kind_eqb (fst t) KCopyData || kind_eqb (fst t) KMount || kind_eqb (fst t) KDiscard))
          (tasks_for o s retain inuse) = true.
Proof. intros o s retain inuse _. apply revert_in_place. Qed.
Print Assumptions C13_revert_in_place.

(* RevertToRevision is accepted exactly when the revision is kept, is not the current one and the snap is active;
   a refused operation changes nothing *)
Theorem C13_preconditions : forall (o : op) (s : st) (k : nat) (retain : Z) (inuse : N -> bool),
  okind o = ORevert -> odefault o = false ->
  (accepts o s = true <-> (In (orev o) (seq s) /\ orev o <> cur s /\ active s = true)) /\
  (accepts o s = false -> step o k retain inuse s = s).
Proof.
  intros o s k retain inuse K D. split; [|apply refused_unchanged].
  unfold accepts. rewrite K, D. simpl. rewrite !andb_true_iff, negb_true_iff, N.eqb_neq, mem_In. tauto.
Qed.
Print Assumptions C13_preconditions.

(* Revert() without a revision goes to the revision just before the current one *)
Theorem C13_default_is_previous : forall (o : op) (s : st),
  okind o = ORevert -> odefault o = true -> accepts o s = true ->
  exists i, last_index (cur s) (seq s) = Some (S i) /\ nth_error (seq s) i = Some (orev o).
Proof. exact revert_default_target. Qed.
Print Assumptions C13_default_is_previous.

(* Block() after a completed revert: the revisions after the new current one, minus those marked not-blocked; the
   reverted-from revision is marked not-blocked exactly when the revert asked for it, otherwise its mark is dropped *)
Theorem C13_block_after_revert : forall (o : op) (s : st) (retain : Z) (inuse : N -> bool) (i : nat),
  wf s -> okind o = ORevert -> accepts o s = true -> last_index (orev o) (seq s) = Some i ->
  block (run_change o 0 (tasks_for o s retain inuse) s)
  = filter (fun r => negb (mem r (if onotblocked o then ins (cur s) (nb s) else rem (cur s) (nb s))))
           (skipn (S i) (seq s)).
Proof.
  intros o s retain inuse i _ K AC LI. rewrite revert_runs; auto. apply is_revert_iff in K.
  unfold do_link. rewrite K. cbn [fst seq set_active_link]. rewrite LI.
  unfold do_configure, block. destruct (ohookcfg o =? 0); simpl; rewrite LI; reflexivity.
Qed.
Print Assumptions C13_block_after_revert.

(* non-vacuity: kept [1,2,3], current 3; revert to 1 not blocking 3: Block() = [2] *)
Example C13_example :
  let s := mkSt [1;2;3] 3 true 1 false false false false false 0 3 0 [] 5 [] [1;2;3] 3 in
  let o := mk_revert 1 true 9 in
  accepts o s = true /\ seq (run_change o 0 (tasks_for o s 3 no_inuse) s) = [1;2;3] /\
  block (run_change o 0 (tasks_for o s 3 no_inuse) s) = [2].
Proof. vm_compute. repeat split; reflexivity. Qed.
