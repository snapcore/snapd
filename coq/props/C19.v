(* C19 - stored assertions only move forward in revision.

   Full statement: for every assertion identity, the assertion the database returns is always the highest revision
   that was successfully added; adding an equal or lower revision is refused and changes nothing; assertions clashing
   with built-in trusted or predefined ones cannot be added; the in-memory and on-disk stores agree on every result,
   including lookups of sequence-forming assertions by sequence number.

   Proved on the store model (one model for both backstores; their agreement with it, and hence with each other, is
   the differential run): the theorems below, over every history of adds. *)
From Coq Require Import List NArith ZArith Bool.
Import ListNotations.
Require Import V.lib.Bytes V.models.AssertStore V.proofs.AssertStoreProofs.
Open Scope N_scope.

(* after ANY history of adds (formats supported, as Database.Add guarantees), a lookup at the supported format returns
   an accepted add of that key whose revision is >= that of every accepted add of the key; nothing if none was accepted *)
Theorem C19_highest_added : forall l, supported l ->
  forall t k,
    match get (fst (adds_run l)) t k (max_supp t) with
    | Some c => In c (snd (adds_run l)) /\ same_key t k c = true /\
                forall a, In a (snd (adds_run l)) -> same_key t k a = true -> a_rev a <= a_rev c
    | None => forall a, In a (snd (adds_run l)) -> same_key t k a = false
    end.
Proof. intros l Hs. apply (highest_run l [] [] (fun t k a H => match H with end) Hs). Qed.
Print Assumptions C19_highest_added.

Theorem C19_accepted_from_history : forall l a, In a (snd (adds_run l)) -> In a l.
Proof. intros l a H. apply accepted_sub in H as [[]|H]. exact H. Qed.
Print Assumptions C19_accepted_from_history.

(* a refused add changes nothing, and it is refused only against a current revision that is at least as high *)
Theorem C19_refused_changes_nothing : forall s a s',
  put s a = (s', RevErr) ->
  s' = s /\ exists c, cur s (a_typ a) (a_key a) (max_supp (a_typ a)) = Some c /\ a_rev a <= a_rev c.
Proof. intros s a s' H. destruct (put_spec _ _ _ _ H) as [(_ & H1)|(E & _)]; [exact H1|discriminate]. Qed.
Print Assumptions C19_refused_changes_nothing.

(* an accepted add is strictly newer than what was current and becomes current *)
Theorem C19_accepted_moves_forward : forall s a s',
  put s a = (s', Accepted) -> a_fmt a <= max_supp (a_typ a) ->
  s' = insert a s /\ cur s' (a_typ a) (a_key a) (max_supp (a_typ a)) = Some a /\
  (forall c, cur s (a_typ a) (a_key a) (max_supp (a_typ a)) = Some c -> a_rev c < a_rev a).
Proof. exact put_accepted. Qed.
Print Assumptions C19_accepted_moves_forward.

Theorem C19_clash_refused : forall d a,
  a_fmt a <= max_supp (a_typ a) ->
  in_keys (a_typ a) (a_key a) (d_trusted d) || in_keys (a_typ a) (a_key a) (d_predefined d) = true ->
  db_add d a = (d, Clash).
Proof. intros d a Hf Hc. unfold db_add. rewrite (proj2 (N.ltb_ge _ _) Hf), Hc. reflexivity. Qed.
Print Assumptions C19_clash_refused.

Theorem C19_db_refused_changes_nothing : forall d a d' r, db_add d a = (d', r) -> r <> Accepted -> d' = d.
Proof. exact db_refused_changes_nothing. Qed.
Print Assumptions C19_db_refused_changes_nothing.

Theorem C19_sequence_lookup : forall s t prefix after maxf r,
  seq_after s t prefix after maxf = Some r ->
  In r (members s t prefix maxf) /\
  if (after =? -1)%Z then forall x, In x (members s t prefix maxf) -> a_seq x <= a_seq r
  else (after < Z.of_N (a_seq r))%Z /\
       forall x, In x (members s t prefix maxf) -> (after < Z.of_N (a_seq x))%Z -> a_seq r <= a_seq x.
Proof. exact sequence_lookup. Qed.
Print Assumptions C19_sequence_lookup.

(* Search (FindMany): sound and complete with respect to the stored keys and the given headers *)
Theorem C19_search_sound : forall s t hint m tg, In tg (search s t hint m) ->
  exists c, a_tag c = tg /\ In c s /\ a_typ c = t /\ hint_match hint (a_key c) = true /\ cur s t (a_key c) m = Some c.
Proof. exact search_sound. Qed.
Print Assumptions C19_search_sound.

Theorem C19_search_complete : forall s t hint m x c,
  In x s -> a_typ x = t -> hint_match hint (a_key x) = true -> cur s t (a_key x) m = Some c ->
  In (a_tag c) (search s t hint m).
Proof.
  intros s t hint m x c Hx Ht Hh Hc. apply tags_of_in. exists c. split; [|reflexivity].
  apply currents_in. exists x. auto.
Qed.
Print Assumptions C19_search_complete.

(* Search o Put: an accepted assertion is found, alone, by a search giving all its primary-key headers *)
Theorem C19_search_after_put : forall s a s',
  put s a = (s', Accepted) -> a_fmt a <= max_supp (a_typ a) ->
  forallb (fun c => negb (is_nil_b c)) (a_key a) = true ->
  search s' (a_typ a) (a_key a) (max_supp (a_typ a)) = [a_tag a].
Proof. exact search_after_put. Qed.
Print Assumptions C19_search_after_put.

(* the filesystem store searches by escaped file names; for EVERY injective escape function that is the same search
   (the same function must be used to write and to search: the escape is a parameter of the whole store) *)
Theorem C19_search_any_injective_escape : forall esc : bytes -> bytes, (forall a b, esc a = esc b -> a = b) ->
  forall s t hint m, search_esc esc s t hint m = search s t hint m.
Proof. exact search_esc_injective. Qed.
Print Assumptions C19_search_any_injective_escape.

(* the escape of the filesystem backstore (escapeComp: url.QueryEscape, then "." and ".." get their dots escaped; repaired
   in /repo commit 2f752eb, see KNOWN_FINDINGS `fixed:`), for ALL byte strings: it can be undone, hence is injective; its
   result is never "." or "..", contains no path separator, and is empty only for the empty value *)
Theorem C19_escape_injective : forall a b, escape_comp a = escape_comp b -> a = b.
Proof. exact escape_comp_injective. Qed.
Print Assumptions C19_escape_injective.

Theorem C19_escape_safe : forall s,
  is_dot (escape_comp s) = false /\ existsb (fun c => c =? 47) (escape_comp s) = false /\ (escape_comp s = [] -> s = []).
Proof. exact escape_comp_safe. Qed.
Print Assumptions C19_escape_safe.

(* so filepath.Join's cleaning leaves every escaped key path alone, and distinct primary keys use distinct files *)
Theorem C19_distinct_keys_distinct_files : forall k1 k2,
  clean_path (map escape_comp k1) = clean_path (map escape_comp k2) -> k1 = k2.
Proof. exact distinct_keys_distinct_files. Qed.
Print Assumptions C19_distinct_keys_distinct_files.

(* and searching by the escaped file names is the model search (instance of C19_search_any_injective_escape) *)
Theorem C19_search_repaired_escape : forall s t hint m, search_esc escape_comp s t hint m = search s t hint m.
Proof. apply search_esc_injective. exact escape_comp_injective. Qed.
Print Assumptions C19_search_repaired_escape.

(* non-vacuity *)
Definition ex_k : list bytes := [[97]].
Definition ex_hist : list asn :=
  [mkA 0 ex_k 0 2 0 1; mkA 0 ex_k 1 1 0 2; mkA 0 ex_k 1 5 0 3; mkA 0 ex_k 0 5 0 4; mkA 0 ex_k 0 3 0 5].
Example C19_ex_supported : forallb (fun a => a_fmt a <=? max_supp (a_typ a)) ex_hist = true.
Proof. vm_compute. reflexivity. Qed.
Example C19_ex_accepted : map a_tag (snd (adds_run ex_hist)) = [1; 3].
Proof. vm_compute. reflexivity. Qed.
Example C19_ex_get : option_map a_tag (get (fst (adds_run ex_hist)) 0 ex_k 1) = Some 3.
Proof. vm_compute. reflexivity. Qed.
Example C19_ex_get_fmt0 : option_map a_tag (get (fst (adds_run ex_hist)) 0 ex_k 0) = Some 1.
Proof. vm_compute. reflexivity. Qed.
Example C19_ex_seq :
  let s := fst (adds_run [mkA 2 [[115]; [50]] 0 0 2 1; mkA 2 [[115]; [53]] 2 0 5 2; mkA 2 [[115]; [52]] 0 0 4 3]) in
  (option_map a_tag (seq_after s 2 [[115]] 2 2), option_map a_tag (seq_after s 2 [[115]] (-1) 2),
   option_map a_tag (seq_after s 2 [[115]] (-1) 1), option_map a_tag (seq_after s 2 [[115]] 5 2))
  = (Some 3, Some 2, Some 3, None).
Proof. vm_compute. reflexivity. Qed.
Example C19_ex_escape : map escape_comp [[46]; [46; 46]; [46; 46; 46]; [97; 32; 43; 47; 233]]
  = [[37; 50; 69]; [37; 50; 69; 37; 50; 69]; [46; 46; 46]; [97; 43; 37; 50; 66; 37; 50; 70; 37; 69; 57]].
Proof. vm_compute. reflexivity. Qed.
Example C19_ex_unrepaired_collides :   (* what the repair removed: QueryEscape alone lets two keys share a path *)
  clean_path (map query_escape [[46]; [120]]) = clean_path (map query_escape [[120]; [46]]).
Proof. vm_compute. reflexivity. Qed.
Example C19_ex_clash : snd (db_add (mkDb [(3, [[99]])] [] []) (mkA 3 [[99]] 0 9 0 1)) = Clash.
Proof. vm_compute. reflexivity. Qed.
