(* C16 — auto-refresh runs inside timer windows and is never postponed past the limit.
   Property theorems only. Model: models/Timer.v (timeutil/schedule.go function by function, UTC; time zones and DST
   are not modelled), lib/Civil.v (calendar).
   String level: models/TimerText.v (ParseSchedule and Schedule.String over byte lists).
   Manager level: models/AutoRefresh.v (the planning logic of autoRefresh.Ensure; constants from gen/RefreshConsts.v).
   The day search of Schedule.Next is proved to terminate within next_fuel last now days (proofs/TimerFuelProofs.v; the
   calendar facts it rests on are proved by arithmetic over lib/Civil.v in proofs/TimerCalendarFacts.v). *)
From Coq Require Import List ZArith Bool String Lia.
Import ListNotations.
Require Import V.lib.Bytes V.lib.Civil V.models.Timer V.proofs.TimerProofs V.models.TimerText V.proofs.TimerTextProofs.
Require Import V.gen.RefreshConsts V.models.AutoRefresh V.proofs.AutoRefreshProofs V.proofs.TimerFuelProofs V.proofs.TimerChainProofs.
Open Scope Z_scope.

(* The refresh limit, for ANY schedule functions: whatever windows the schedules' Next return, timeutil.Next's chosen
   window starts no later than last + maxd and no later than any offered window, is one of them or the fallback at
   last + maxd; the (non-random part of the) delay is >= 0, is 0 when overdue, and now + delay never lies after
   max(now, last + maxd). With maxd = 95 days this is "never postponed past the limit". *)
Theorem C16_limit : forall (nexts : list window) (last maxd now : Z),
  let w := choose nexts last maxd in
  w_start w <= last + maxd /\
  (forall n, In n nexts -> w_start w <= w_start n) /\
  (w = mkWin (last + maxd) (last + maxd + 3600) false \/ In w nexts) /\
  0 <= delay_base w now /\
  (w_start w < now -> delay_base w now = 0) /\
  now + delay_base w now <= Z.max now (last + maxd) /\
  (now <= w_start w -> now + delay_base w now = w_start w).
Proof. exact limit_any_schedule. Qed.
Print Assumptions C16_limit.

(* The day search of Schedule.Next terminates: for every schedule with well-formed week spans and clock spans (what
   ParseSchedule accepts, C16_parse_accepts_only_wf) and every last and now, sched_next with
   fuel = next_fuel last now = (days from last to now, if positive) + 64 never returns the out-of-fuel value.
   (A plain weekday recurs within 7 days; a numbered week span (mon1 .. fri5, ranges anchored at either end) is matched
   on its anchor day, which recurs within 61 days of any day. General proof; the calendar facts it uses — day of month
   within 1..31, first-of-month arithmetic, month lengths 28..31, monthNext on every day of a month — are proved for
   every day number by linear arithmetic over civil_from_days (what the day after a day is) and induction over
   consecutive days.) *)
Theorem C16_next_fuel : forall (s : schedule) (last now : Z),
  sched_wf s = true -> exists w, sched_next (next_fuel last now) s last now = Some w.
Proof. exact next_fuel_suffices. Qed.
Print Assumptions C16_next_fuel.

(* What Schedule.Next returns is a window of the schedule (unconditional): the window of one of its flattened clock spans
   on a day, not before the day of `last`, that the week spans accept; it does not end before now, does not contain
   last, and is the earliest such window of that day. *)
Theorem C16_in_window : forall (s : schedule) (last now : Z), sched_wf s = true ->
  exists w k cs, sched_next (next_fuel last now) s last now = Some w /\
    0 <= k < Z.of_nat (next_fuel last now) /\ In cs (flattened s) /\
    let D := last / 86400 + k in
    w = window_of cs D /\ week_ok s D = true /\ now <= w_end w /\ (last < w_start w \/ w_end w < last) /\
    (forall cs', In cs' (flattened s) -> now <= w_end (window_of cs' D) ->
                 (last < w_start (window_of cs' D) \/ w_end (window_of cs' D) < last) ->
                 w_start w <= w_start (window_of cs' D)).
Proof.
  intros s last now W. destruct (next_fuel_suffices s last now W) as (w & Hw).
  destruct (next_in_window _ s last now w Hw) as (k & cs & H). exists w, k, cs. split; [exact Hw | exact H].
Qed.
Print Assumptions C16_in_window.

(* the same for any fuel with which the search succeeds (the differential run uses 400 days) *)
Theorem C16_in_window_any_fuel : forall (fuel : nat) (s : schedule) (last now : Z) (w : window),
  sched_next fuel s last now = Some w ->
  exists k cs, 0 <= k < Z.of_nat fuel /\ In cs (flattened s) /\
    let D := last / 86400 + k in
    w = window_of cs D /\ week_ok s D = true /\ now <= w_end w /\ (last < w_start w \/ w_end w < last) /\
    (forall cs', In cs' (flattened s) -> now <= w_end (window_of cs' D) ->
                 (last < w_start (window_of cs' D) \/ w_end (window_of cs' D) < last) ->
                 w_start w <= w_start (window_of cs' D)).
Proof. exact next_in_window. Qed.
Print Assumptions C16_in_window_any_fuel.

(* Every instant of such a window that lies on the window's own calendar day is accepted by Includes — under the guard
   that the span's start clock is within the day (not 24:00). *)
Theorem C16_window_included : forall (s : schedule) (cs : clockspan) (D t : Z),
  In cs (flattened s) -> week_ok s D = true -> clock_in_day (cs_start cs) ->
  let w := window_of cs D in
  w_start w <= t -> (t < w_end w \/ (w_end w = w_start w /\ t < w_start w + 60)) -> t / 86400 = D ->
  sched_includes s t = true.
Proof. exact window_included. Qed.
Print Assumptions C16_window_included.

(* in particular the instant the refresh is scheduled for (the window's start) *)
Theorem C16_window_start_included : forall (s : schedule) (cs : clockspan) (D : Z),
  In cs (flattened s) -> week_ok s D = true -> clock_in_day (cs_start cs) -> clock_nonneg (cs_end cs) ->
  sched_includes s (w_start (window_of cs D)) = true.
Proof.
  intros s cs D Hin W Hc He. pose proof (window_ordered cs D Hc He).
  apply (window_included s cs D _ Hin W Hc); [lia | lia | apply window_start_day; exact Hc].
Qed.
Print Assumptions C16_window_start_included.

(* Full statement 1 (no guard on the start clock) is FALSE of the faithful model: `mon,24:00`, last = Monday
   2024-08-05 12:00 UTC: Next returns the window Tuesday 00:00-00:00, which Includes rejects (Tuesday is not Monday).
   KNOWN_FINDINGS key start-clock-24:00; reproduced on the Go code on every run. *)
Theorem C16_start_2400_refuted : exists w,
  sched_next 400 ex_mon_2400 ex_last (ex_last + 60) = Some w /\ sched_includes ex_mon_2400 (w_start w) = false.
Proof. exists (mkWin 1722902400 1722902400 false). split; vm_compute; reflexivity. Qed.
Print Assumptions C16_start_2400_refuted.

(* The defect behind it, stated exactly: a clock span whose start is 24:00 never contributes to Includes (the window
   Includes builds for it starts at the midnight AFTER the instant), although Next returns its windows. So an instant
   of such a window is accepted only if another span of the schedule covers it: with `0:00,24:00-7:30` the start of the
   returned window (00:00, covered by the span `0:00`) is accepted and its last minute 07:29 is rejected. *)
Theorem C16_span_2400_never_includes : forall (cs : clockspan) (D t : Z),
  hour (cs_start cs) = 24 -> 0 <= minute (cs_start cs) -> t / 86400 = D -> span_includes t D cs = false.
Proof. exact span_2400_never_includes. Qed.
Print Assumptions C16_span_2400_never_includes.

Theorem C16_start_2400_tail_refuted : exists w,
  sched_next 400 ex_2400_tail ex_last (ex_last + 60) = Some w /\
  sched_includes ex_2400_tail (w_start w) = true /\ sched_includes ex_2400_tail (w_end w - 60) = false.
Proof. exists (mkWin 1722902400 1722929400 false). split; [|split]; vm_compute; reflexivity. Qed.
Print Assumptions C16_start_2400_tail_refuted.

(* Full statement 2 (every instant of the returned window, also past midnight) is FALSE of the faithful model:
   `23:00-01:00`: Next returns Monday 23:00 - Tuesday 01:00, but Includes rejects Tuesday 00:59 (it only looks at the
   window that starts on the instant's own day). KNOWN_FINDINGS key window-crossing-midnight-tail. *)
Theorem C16_midnight_tail_refuted : exists w t,
  sched_next 400 ex_night ex_last (ex_last + 60) = Some w /\ w_start w <= t < w_end w /\ sched_includes ex_night t = false.
Proof.
  exists (mkWin 1722898800 1722906000 false), 1722905940. split; [vm_compute; reflexivity|].
  split; [split; [discriminate | reflexivity] | vm_compute; reflexivity].
Qed.
Print Assumptions C16_midnight_tail_refuted.

(* Invalid timers are rejected: whatever ParseSchedule accepts (any byte string) is a non-empty list of schedules, each
   non-empty and well formed: weekdays 0..6; week positions 0..5 and at most one numbered end unless the span is a
   single day; clocks within 00:00..23:59 or exactly 24:00; 0 <= split < 2^32 (0 = no `/N`; `/0` is rejected). *)
Theorem C16_parse_accepts_only_wf : forall (s : bytes) (l : list schedule),
  parse_schedule s = Some l -> l <> [] /\ Forall (fun sc => sched_ok sc = true) l.
Proof. exact parse_accepts_only_wf. Qed.
Print Assumptions C16_parse_accepts_only_wf.

(* Formatting and parsing again yields the same schedule: for EVERY well-formed non-empty schedule s,
   ParseSchedule (String s) = [s] up to norm_sched, which only resets Spread and Split of clock spans whose end equals
   their start (String prints those as the bare time; the two fields have no effect on such a span). *)
Theorem C16_format_parse_roundtrip : forall s : schedule, sched_ok s = true ->
  parse_schedule (fmt_sched s) = Some [norm_sched s].
Proof. exact format_parse_roundtrip. Qed.
Print Assumptions C16_format_parse_roundtrip.

(* ... in particular for every schedule the parser itself produced, from any accepted text *)
Theorem C16_parsed_roundtrip : forall (text : bytes) (l : list schedule),
  parse_schedule text = Some l -> Forall (fun s => parse_schedule (fmt_sched s) = Some [norm_sched s]) l.
Proof.
  intros text l H. destruct (parse_accepts_only_wf text l H) as [_ F].
  eapply Forall_impl; [|exact F]. intros s Hs. apply format_parse_roundtrip; exact Hs.
Qed.
Print Assumptions C16_parsed_roundtrip.

(* The round trip with equivalence: for EVERY well-formed non-empty schedule s, ParseSchedule (String s) = [s'] where s' denotes
   the same schedule: Includes agrees at every instant, and Next (any fuel, last, now) returns windows with the same start
   and end (owin_rel: the spread flag may differ only on an empty window, whose random spread is 0). *)
Theorem C16_roundtrip_equivalent : forall s : schedule, sched_ok s = true ->
  exists s', parse_schedule (fmt_sched s) = Some [s'] /\
    (forall t, sched_includes s' t = sched_includes s t) /\
    (forall fuel last now, owin_rel (sched_next fuel s' last now) (sched_next fuel s last now)).
Proof. intros s H. exists (norm_sched s). split; [apply format_parse_roundtrip; exact H | apply norm_sched_equivalent]. Qed.
Print Assumptions C16_roundtrip_equivalent.

(* The chain from the user's string to the window guarantee: every timer text ParseSchedule accepts yields schedules that
   are well formed and for which, for every last and now, the day search terminates within next_fuel last now days and
   returns a window of the schedule (not ending before now, not containing last, earliest of its day) that Includes
   accepts on its own day unless its span starts at 24:00 (window_guarantee). *)
Theorem C16_string_to_window : forall (text : bytes) (l : list schedule),
  parse_schedule text = Some l ->
  l <> [] /\ Forall (fun s => sched_wf s = true /\ forall last now, window_guarantee s last now) l.
Proof. exact string_to_window. Qed.
Print Assumptions C16_string_to_window.

(* the recorded findings, starting from the timer string *)
Theorem C16_string_start_2400_refuted :
  parse_schedule (bs "mon,24:00") = Some [ex_mon_2400] /\
  exists w, sched_next (next_fuel ex_last (ex_last + 60)) ex_mon_2400 ex_last (ex_last + 60) = Some w /\
            sched_includes ex_mon_2400 (w_start w) = false.
Proof. split; [vm_compute; reflexivity|]. exists (mkWin 1722902400 1722902400 false). split; vm_compute; reflexivity. Qed.
Print Assumptions C16_string_start_2400_refuted.

Theorem C16_string_start_2400_tail_refuted :
  parse_schedule (bs "0:00,24:00-7:30") = Some [ex_2400_tail] /\
  exists w, sched_next (next_fuel ex_last (ex_last + 60)) ex_2400_tail ex_last (ex_last + 60) = Some w /\
            sched_includes ex_2400_tail (w_start w) = true /\ sched_includes ex_2400_tail (w_end w - 60) = false.
Proof. split; [vm_compute; reflexivity|]. exists (mkWin 1722902400 1722929400 false). split; [|split]; vm_compute; reflexivity. Qed.
Print Assumptions C16_string_start_2400_tail_refuted.

Theorem C16_string_midnight_tail_refuted :
  parse_schedule (bs "23:00-01:00") = Some [ex_night] /\
  exists w t, sched_next (next_fuel ex_last (ex_last + 60)) ex_night ex_last (ex_last + 60) = Some w /\
              w_start w <= t < w_end w /\ sched_includes ex_night t = false.
Proof.
  split; [vm_compute; reflexivity|]. exists (mkWin 1722898800 1722906000 false), 1722905940.
  split; [vm_compute; reflexivity|]. split; [split; [discriminate | reflexivity] | vm_compute; reflexivity].
Qed.
Print Assumptions C16_string_midnight_tail_refuted.

(* what the parser accepts / rejects that one might not expect (all also sent to the real parser by the text driver):
   the whole-day tokens `-` and `~` that parseClockSpan documents can never be reached (a fragment without `:` is taken
   for a week span); a span numbered at both ends is accepted and silently degraded to the start anchor; spread / split
   of a zero-length span are accepted and dropped by String; any count below 2^32 is accepted, also one that makes
   sub-minute (here 20 ns) sub-spans; leading zeros of the count are accepted and not printed back *)
Theorem C16_parser_observations :
  parse_schedule (bs "-") = None /\ parse_schedule (bs "~") = None /\ parse_schedule (bs "mon,-") = None /\
  parse_schedule (bs "~/2") = None /\
  option_map (map fmt_sched) (parse_schedule (bs "mon1-tue2")) = Some [bs "mon1-tue"] /\
  option_map (map fmt_sched) (parse_schedule (bs "9:00~9:00/3")) = Some [bs "09:00"] /\
  (exists l, parse_schedule (bs "0:00-24:00/4294967295") = Some l) /\ parse_schedule (bs "0:00-24:00/4294967296") = None /\
  option_map (map fmt_sched) (parse_schedule (bs "9:00-10:00/007")) = Some [bs "09:00-10:00/7"].
Proof. repeat split; try (vm_compute; reflexivity). eexists. vm_compute. reflexivity. Qed.
Print Assumptions C16_parser_observations.

(* Manager level. For EVERY history of refresh.timer changes, last-refresh changes and Ensure calls, at every Ensure:
   a refresh time that remains planned (nextRefresh) was computed by timeutil.Next under the timer configured NOW —
   a plan made under an earlier timer does not survive a timer change — and an attempt is launched only when such a
   time, planned under the current timer, is due. (refresh.hold, metered connections, the legacy option and store
   failures are not modelled.) *)
Theorem C16_attempt_in_current_timer_window :
  forall (conf0 : bytes) (evs : list ev) (st : mstate) (conf : bytes) (now r : Z) (st' : mstate) (att : bool),
  hrun (init_m, conf0) evs = Some (st, conf) ->
  ensure conf now r st = Some (st', att) ->
  (forall P, m_next st' = Some P ->
     exists sch str pl, effective conf = Some (sch, str) /\ m_plan st' = Some pl /\ p_str pl = str /\
                        plan_time sch (p_last pl) (p_now pl) (p_rand pl) = Some P) /\
  (att = true ->
     exists sch str l0 now0 r0 P, effective conf = Some (sch, str) /\
                                  plan_time sch l0 now0 r0 = Some P /\ P <= now /\ m_next st' = None /\ m_last st' = Some now).
Proof.
  intros conf0 evs st conf now r st' att HR HE.
  exact (proj2 (ensure_spec conf now r st st' att (reachable_inv conf0 evs st conf HR) HE)).
Qed.
Print Assumptions C16_attempt_in_current_timer_window.

(* ... where a planned time is: now if there was no previous refresh; otherwise, for the window w that timeutil.Next
   chooses (C16_limit) among the windows offered by the schedules' Next (C16_in_window) and the fallback at
   last + maxPostponement: now if w has started, else w's start plus the random spread of a `~` window. *)
Theorem C16_planned_time_spec : forall (sch : list schedule) (l now r P : Z),
  plan_time sch (Some l) now r = Some P ->
  exists w, top_window sch l now max_postponement_s = Some w /\
    w_start w <= l + max_postponement_s /\
    (w = mkWin (l + max_postponement_s) (l + max_postponement_s + 3600) false \/
     exists s, In s sch /\ sched_next fuel_days s l now = Some w) /\
    (w_start w < now -> P = now) /\
    (now <= w_start w -> P = w_start w + (if w_spread w then r else 0)).
Proof. exact planned_time_spec. Qed.
Print Assumptions C16_planned_time_spec.

(* generated from overlord/snapstate/autorefresh.go on this run: maxPostponement is 95 days and is the limit passed
   at both timeutil.Next call sites; Ensure resets nextRefresh when the timer string differs from the remembered one
   and the remembered string is assigned nowhere else; the default timer parses *)
Theorem C16_refresh_consts :
  max_postponement_s = 95 * 86400 /\ next_calls_pass_max_postponement = true /\
  ensure_resets_on_timer_change = true /\ last_schedule_assigned_only_there = true /\
  parse_schedule default_str = Some default_sched /\ default_sched <> [].
Proof. repeat split; try reflexivity. vm_compute. discriminate. Qed.
Print Assumptions C16_refresh_consts.

(* non-vacuity: the default refresh timer 00:00~24:00/4 *)
Example C16_default_timer_example : exists w,
  sched_next 400 (mkSched [] [mkCS (mkClock 0 0) (mkClock 24 0) 4 true]) ex_last (ex_last + 60) = Some w /\
  sched_includes (mkSched [] [mkCS (mkClock 0 0) (mkClock 24 0) 4 true]) (w_start w) = true.
Proof. exists (mkWin 1722880800 1722902400 true). split; vm_compute; reflexivity. Qed.
Example C16_parse_example : exists l, parse_schedule (bs "mon-wed,fri,9:00-11:00/2,,mon1,24:00~0:00") = Some l /\
  map fmt_sched l = [bs "mon-wed,fri,09:00-11:00/2"; bs "mon1,24:00~00:00"].
Proof. eexists. split; vm_compute; reflexivity. Qed.
