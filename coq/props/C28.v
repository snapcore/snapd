(* C28 — mount namespace updates transform the current mounts into the desired ones.
   This file holds the property theorems only: statement, a proof of a few lines from the lemmas of proofs/, Print Assumptions.
   Models: models/MountEntry.v (osutil mount entry codec) and models/MountNS.v (cmd/snap-update-ns neededChanges). *)
From Coq Require Import List NArith ZArith Bool String Permutation.
Import ListNotations.
Require Import V.lib.Bytes V.models.MountEntry V.proofs.MountEntryProofs V.models.MountNS V.proofs.MountNSProofs.

(* ---------------------------------------------------------------- mount entries written to a profile read back unchanged *)

(* Unescape(Escape(s)) = s for every byte string *)
Theorem C28_unescape_escape : forall s : bytes, unescape (escape s) = s.
Proof. exact unescape_escape. Qed.
Print Assumptions C28_unescape_escape.

(* ParseMountEntry(e.String()) = e for every entry under the property's guard: name, dir and type non-empty and not
   starting with #; at least one option, no option contains a comma, the joined option text is non-empty and does not
   start with #; the two numbers fit Go's int. Fields may contain any bytes, including white space and backslashes. *)
Theorem C28_codec_roundtrip : forall e : entry, guard e = true -> parse_entry (entry_string e) = Some e.
Proof. exact codec_roundtrip. Qed.
Print Assumptions C28_codec_roundtrip.

(* each guard is needed: dropping it makes the statement false on the model (each witness is also run against the
   real codec by the driver's edge list on every check) *)
Theorem C28_codec_empty_field_refuted : exists e, field_ok (e_name e) = false /\ parse_entry (entry_string e) <> Some e.
Proof. exists (mkEntry [] (bs "b") (bs "c") [bs "d"] 0 0). split; [reflexivity | vm_compute; discriminate]. Qed.
Print Assumptions C28_codec_empty_field_refuted.
Theorem C28_codec_hash_field_refuted : exists e, field_ok (e_name e) = false /\ parse_entry (entry_string e) <> Some e.
Proof. exists (mkEntry (bs "#a") (bs "b") (bs "c") [bs "d"] 0 0). split; [reflexivity | vm_compute; discriminate]. Qed.
Print Assumptions C28_codec_hash_field_refuted.
Theorem C28_codec_no_options_refuted : exists e, e_opts e = [] /\ parse_entry (entry_string e) <> Some e.
Proof. exists (mkEntry (bs "a") (bs "b") (bs "c") [] 0 0). split; [reflexivity | vm_compute; discriminate]. Qed.
Print Assumptions C28_codec_no_options_refuted.
Theorem C28_codec_empty_option_refuted : exists e, join 44 (e_opts e) = [] /\ parse_entry (entry_string e) <> Some e.
Proof. exists (mkEntry (bs "a") (bs "b") (bs "c") [[]] 0 0). split; [reflexivity | vm_compute; discriminate]. Qed.
Print Assumptions C28_codec_empty_option_refuted.
Theorem C28_codec_comma_option_refuted : exists e, forallb no_comma (e_opts e) = false /\ parse_entry (entry_string e) <> Some e.
Proof. exists (mkEntry (bs "a") (bs "b") (bs "c") [bs "x,y"] 0 0). split; [reflexivity | vm_compute; discriminate]. Qed.
Print Assumptions C28_codec_comma_option_refuted.
Theorem C28_codec_hash_option_refuted : exists e, starts_hash (join 44 (e_opts e)) = true /\ parse_entry (entry_string e) <> Some e.
Proof. exists (mkEntry (bs "a") (bs "b") (bs "c") [bs "#d"] 0 0). split; [reflexivity | vm_compute; discriminate]. Qed.
Print Assumptions C28_codec_hash_option_refuted.

(* what the code itself holds after reading a profile: every entry ParseMountEntry returns from a line with at least four
   fields meets the guard - whatever bytes the line had (escapes, x-snapd.* options with = and spaces, # inside fields) -
   and is therefore written back and read again unchanged *)
Theorem C28_parsed_meets_guard : forall s e, parse_entry s = Some e -> e_opts e <> [] -> guard e = true.
Proof. exact parsed_meets_guard. Qed.
Print Assumptions C28_parsed_meets_guard.

Theorem C28_loaded_entry_roundtrip : forall s e,
  parse_entry s = Some e -> e_opts e <> [] -> parse_entry (entry_string e) = Some e.
Proof. intros s e H Ho. apply codec_roundtrip. exact (parsed_meets_guard s e H Ho). Qed.
Print Assumptions C28_loaded_entry_roundtrip.

(* ... the two shapes the code can hold that do not read back: a three field line (no options -> defaults), and the
   bind entries planWritableMimic records with an empty type (written and read back as none). Both are in the driver's
   edge list and run on the real codec every time; since the change driver saves and reloads the current profile as
   text between updates, the second one is also exercised through executeMountProfileUpdate histories. *)
Theorem C28_three_field_line_refuted : exists s e, parse_entry s = Some e /\ parse_entry (entry_string e) <> Some e.
Proof. exists (bs "a b c"), (mkEntry (bs "a") (bs "b") (bs "c") [] 0 0). split; [reflexivity | vm_compute; discriminate]. Qed.
Print Assumptions C28_three_field_line_refuted.

Theorem C28_empty_type_refuted :
  exists e, e_type e = [] /\ parse_entry (entry_string e) = Some (mkEntry (e_name e) (e_dir e) none_lit (e_opts e) (e_freq e) (e_pass e)).
Proof. exists (mkEntry (bs "/a/b") (bs "/a/b") [] [bs "rbind"] 0 0). split; [reflexivity | vm_compute; reflexivity]. Qed.
Print Assumptions C28_empty_type_refuted.

(* whole profiles: WriteTo then ReadMountProfile gives the same entry list, provided every entry is guarded and no
   line begins with a white-space rune that strings.TrimSpace removes but escape leaves alone (\v \f \r U+0085 U+00A0
   U+1680 U+2000-200A U+2028 U+2029 U+202F U+205F U+3000) *)
Theorem C28_profile_roundtrip : forall es : list entry,
  forallb profile_guard es = true -> load_profile (profile_text es) = Some es.
Proof. exact profile_roundtrip. Qed.
Print Assumptions C28_profile_roundtrip.

(* ... and without that extra hypothesis the statement is false: a name beginning with a carriage return loses it
   (KNOWN_FINDINGS key profile-name-leading-space-rune; replayed on the implementation on every run) *)
Theorem C28_profile_roundtrip_refuted : exists e, guard e = true /\ load_profile (profile_text [e]) <> Some [e].
Proof. exists (mkEntry (13%N :: bs "a") (bs "b") (bs "c") [bs "d"] 0 0). split; [reflexivity | vm_compute; discriminate]. Qed.
Print Assumptions C28_profile_roundtrip_refuted.

(* non-vacuity: the guards are satisfiable, also by entries full of white space and backslashes *)
Example C28_guard_example :
  profile_guard (mkEntry (bs "/my dir/x\y"%string) (bs "/tmp/a b"%string) (bs "ext 4"%string)
                          [bs "x-snapd.symlink=/a b"%string; bs "ro"%string] (-1) 7) = true.
Proof. reflexivity. Qed.

(* ---------------------------------------------------------------- the planned changes (cmd/snap-update-ns neededChanges)

   Notation used below, for arbitrary profiles `current`, `desired` and an arbitrary file system oracle `fs`:
     cur = map clean_entry current                      the current profile with cleaned mount points
     des = isort less_origin (map clean_entry desired)  the desired profile, cleaned and sorted as the code does
     ids = map x_entry_id des                           the identifiers of the desired entries
     reusable des ids c   c is a rootfs entry, or a synthetic entry whose needed-by id is desired, or identical to the
                          desired entry for its mount point
     beneath c p          c's directory starts with p's directory plus a slash
     is_helper ids c      c is a rootfs entry or a synthetic entry whose needed-by id is desired *)

(* Applying the computed change list to the current mount table succeeds step by step (every Keep finds its entry,
   every Unmount removes exactly the entry it was made from, Mounts append), and the table afterwards is - as a
   multiset, i.e. with multiplicities - the desired entries plus `extra`, where every extra entry is an entry of the
   current profile that was kept and is a helper still supporting a desired entry (or the rootfs).
   Hypotheses: pairwise different cleaned desired mount points; pairwise different (dir, type) in the current profile;
   no desired entry on the (dir, type) of a DIFFERENT helper entry of the current profile. *)
Theorem C28_result_profile : forall fs current desired,
  let cur := map clean_entry current in
  let des := isort less_origin (map clean_entry desired) in
  let ids := map x_entry_id des in
  NoDup (map e_dir des) -> NoDup (map id_of cur) ->
  (forall d c, In d des -> In c cur -> is_helper ids c = true -> id_of c = id_of d -> c = d) ->
  exists tbl extra,
    apply_changes cur (needed_changes fs current desired) = Some tbl /\
    Permutation tbl (des ++ extra) /\
    (forall x, In x extra -> In x cur /\ is_helper ids x = true /\ In (Keep, x) (needed_changes fs current desired)).
Proof. exact result_profile. Qed.
Print Assumptions C28_result_profile.

(* ... and the third hypothesis cannot be dropped: reuse is keyed by (dir, type) only, so a desired tmpfs on the
   directory of a still-needed writable mimic (a synthetic tmpfs) is neither mounted nor kept. Reachable on the real
   code through update histories (KNOWN_FINDINGS key desired-shadowed-by-helper; the scripted witness history is in
   the driver and is replayed on the implementation on every run). *)
Theorem C28_result_profile_shadowed_refuted :
  exists fs current desired d,
    NoDup (map e_dir (isort less_origin (map clean_entry desired))) /\
    NoDup (map id_of (map clean_entry current)) /\
    In d (isort less_origin (map clean_entry desired)) /\
    ~ In (Mount, d) (needed_changes fs current desired) /\ ~ In (Keep, d) (needed_changes fs current desired).
Proof. exact result_profile_shadowed_refuted. Qed.
Print Assumptions C28_result_profile_shadowed_refuted.

(* the closed form of the table, and supporting facts that need fewer hypotheses *)
Theorem C28_apply_changes : forall fs current desired,
  let cur := map clean_entry current in
  let des := isort less_origin (map clean_entry desired) in
  let reuse := reuse_of current desired in
  NoDup (map id_of cur) ->
  apply_changes cur (needed_changes fs current desired) =
  Some (filter (fun e => id_mem (id_of e) reuse) cur ++
        mount_order fs (filter (fun e => negb (id_mem (id_of e) reuse)) des)).
Proof. exact apply_needed_changes. Qed.
Print Assumptions C28_apply_changes.

Theorem C28_mount_list_is_permutation : forall fs dnr, Permutation (mount_order fs dnr) dnr.
Proof. exact mount_order_perm. Qed.
Print Assumptions C28_mount_list_is_permutation.

Theorem C28_mounted_are_desired : forall fs current desired x,
  In (Mount, x) (needed_changes fs current desired) -> In x (isort less_origin (map clean_entry desired)).
Proof. intros fs current desired x H. apply mount_iff, filter_In in H as [H _]. exact H. Qed.
Print Assumptions C28_mounted_are_desired.

Theorem C28_kept_are_wanted : forall fs current desired,
  let cur := map clean_entry current in
  let des := isort less_origin (map clean_entry desired) in
  let ids := map x_entry_id des in
  NoDup (map id_of cur) ->
  forall x, In (Keep, x) (needed_changes fs current desired) -> In x cur /\ (In x des \/ is_helper ids x = true).
Proof. exact kept_are_wanted. Qed.
Print Assumptions C28_kept_are_wanted.

(* every unchanged entry (more generally: every reusable one) that is not beneath a changed one is kept in place, not
   remounted; an entry identical to a desired one is reusable when the desired mount points are distinct *)
Theorem C28_unchanged_kept : forall fs current desired c,
  let cur := map clean_entry current in
  let des := isort less_origin (map clean_entry desired) in
  let ids := map x_entry_id des in
  In c cur -> reusable des ids c = true ->
  (forall p, In p cur -> reusable des ids p = false -> beneath c p = false) ->
  In (Keep, c) (needed_changes fs current desired).
Proof.
  intros fs current desired c cur des ids Hin Hr Hb. apply keep_iff. split; [exact Hin|].
  apply reuse_scan_marks; auto; [apply isort_In, Hin | intros p Hp; apply Hb, (isort_In less_overname cur p), Hp].
Qed.
Print Assumptions C28_unchanged_kept.

Theorem C28_identical_is_reusable : forall des ids c, NoDup (map e_dir des) -> In c des -> reusable des ids c = true.
Proof.
  intros des ids c ND Hin. unfold reusable. rewrite (desired_lookup_found des c ND Hin), entry_eqb_refl. apply orb_true_r.
Qed.
Print Assumptions C28_identical_is_reusable.

(* the other half: an entry beneath an entry that is not kept (i.e. is unmounted, and mounted again if still desired)
   is not kept either - it would go away with its parent and never be mounted again. From the skipDir scan over the
   sorted current entries (everything between an entry and an entry beneath it, in the trailing-slash order, is
   beneath it too). Hypotheses: no two current entries share a sort key; the two entries are on the same side of the
   overname boundary (byOvernameAndMountPoint scans overname entries first). *)
Theorem C28_no_keep_beneath_unmounted : forall fs current desired p c,
  let cur := map clean_entry current in
  NoDup (map sort_key cur) -> In p cur -> In c cur ->
  is_overname p = is_overname c -> beneath c p = true -> sort_key p <> sort_key c ->
  ~ In (Keep, p) (needed_changes fs current desired) ->
  ~ In (Keep, c) (needed_changes fs current desired).
Proof. exact no_keep_beneath_unmounted. Qed.
Print Assumptions C28_no_keep_beneath_unmounted.

(* ... and across that boundary it is false (KNOWN_FINDINGS key keep-beneath-unmounted-overname; scripted histories
   for all origin pairs are in the driver and run on the implementation every time) *)
Theorem C28_no_keep_beneath_unmounted_overname_refuted :
  exists fs current desired p c,
    NoDup (map sort_key (map clean_entry current)) /\ In p (map clean_entry current) /\ In c (map clean_entry current) /\
    beneath c p = true /\ sort_key p <> sort_key c /\
    ~ In (Keep, p) (needed_changes fs current desired) /\ In (Keep, c) (needed_changes fs current desired).
Proof. exact no_keep_beneath_unmounted_overname_refuted. Qed.
Print Assumptions C28_no_keep_beneath_unmounted_overname_refuted.

(* unmounts: exactly the not reused current entries, in the exact reverse of the current profile's order; so of two
   unmounted entries the one recorded later (mounted later) goes first - children before parents *)
Theorem C28_unmount_order : forall fs current desired,
  unmounts_of (needed_changes fs current desired) =
  map detach_form (rev (filter (fun e => negb (id_mem (id_of e) (reuse_of current desired))) (map clean_entry current))).
Proof.
  intros. unfold needed_changes. rewrite unmounts_of_app, unmounts_of_mounts, app_nil_r. apply unmounts_of_part.
Qed.
Print Assumptions C28_unmount_order.

Theorem C28_unmount_later_first : forall fs current desired p c,
  let reuse := reuse_of current desired in
  precedes p c (map clean_entry current) ->
  id_mem (id_of p) reuse = false -> id_mem (id_of c) reuse = false ->
  precedes (detach_form c) (detach_form p) (unmounts_of (needed_changes fs current desired)).
Proof.
  intros fs current desired p c reuse H Hp Hc. rewrite C28_unmount_order.
  apply precedes_map, precedes_rev, precedes_filter; [exact H | | ]; fold reuse; [rewrite Hp | rewrite Hc]; reflexivity.
Qed.
Print Assumptions C28_unmount_later_first.

(* what is saved as the new current profile when every change is performed: the kept entries in REVERSE of their order
   in the current profile, then the mounted entries *)
Theorem C28_recorded_profile : forall fs current desired,
  let cur := map clean_entry current in
  let des := isort less_origin (map clean_entry desired) in
  let reuse := reuse_of current desired in
  recorded (needed_changes fs current desired) =
  rev (filter (fun e => id_mem (id_of e) reuse) cur) ++
  mount_order fs (filter (fun e => negb (id_mem (id_of e) reuse)) des).
Proof.
  intros. unfold needed_changes. rewrite recorded_app, recorded_mounts, recorded_part. reflexivity.
Qed.
Print Assumptions C28_recorded_profile.

(* ... which is why, over whole histories, the sentence [never unmount an entry before the entries mounted beneath it
   after it] is false (KNOWN_FINDINGS key unmount-order-after-keep, notes/C28-fix.diff; monitored by the order driver
   with the true mount ages): mount /a and /a/b, keep both, remove both - /a goes first. C28_unmount_order and
   C28_unmount_later_first above are the guarded form: they hold for every current profile, read as the mount log. *)
Theorem C28_unmount_order_history_refuted :
  exists fs a ab,
    let c1 := recorded (needed_changes fs [] [a; ab]) in
    let c2 := recorded (needed_changes fs c1 [a; ab]) in
    beneath ab a = true /\ c1 = [a; ab] /\ c2 = [ab; a] /\
    unmounts_of (needed_changes fs c2 []) = [detach_form a; detach_form ab].
Proof. exists ex_fs, (ex_bind "/a" []), (ex_bind "/a/b" []). vm_compute. repeat split; reflexivity. Qed.
Print Assumptions C28_unmount_order_history_refuted.

(* mounts: among the Mount changes an entry comes before every entry of the same origin whose directory lies beneath
   its own (parents before children). Hypotheses, all about the pair: the two trailing-slash sort keys differ (true for
   distinct cleaned mount points); if the child's target exists in the form needed (or it is an overname entry) then so
   does the parent's; the writable-mimic roots of the two are equal or ordered like strings. The last hypothesis is what
   findFirstRootDirectoryThatExists gives on an oracle closed under ancestors (the child's root is the parent's root or
   lies beneath it, and a proper path prefix is the smaller string); that implication is NOT proved here (it needs
   filepath.Dir/Clean algebra), so it stays a hypothesis; the monitor evaluates the conclusion on every observed list.
   The proof uses: insertion sort yields a sorted permutation for any strict weak order; byOriginAndMountPoint.Less is
   rank (overname < other < layout) then key; the lexicographic lemma (C28_mount_order_key) that makes dir ++ "/" of a
   directory smaller than that of everything beneath it. *)
Theorem C28_mount_order : forall fs current desired m1 m2,
  let nc := needed_changes fs current desired in
  In (Mount, m1) nc -> In (Mount, m2) nc ->
  x_origin m1 = x_origin m2 -> beneath m2 m1 = true -> with_slash (e_dir m1) <> with_slash (e_dir m2) ->
  (is_overname m2 || exists_as fs m2 = true -> is_overname m1 || exists_as fs m1 = true) ->
  (mimic_dir fs m1 = mimic_dir fs m2 \/ blt (mimic_dir fs m1) (mimic_dir fs m2) = true) ->
  precedes (Mount, m1) (Mount, m2) nc.
Proof.
  intros fs current desired m1 m2 nc I1 I2 EO B Hne Hcl Hm. apply mount_iff in I1, I2.
  apply mounts_precede, mount_order_sorted; try assumption. apply parent_less; assumption.
Qed.
Print Assumptions C28_mount_order.

(* the mimic-root hypothesis is needed only when both entries need a writable mimic: when the targets exist (the usual
   case after the first update) parents come first without it *)
Theorem C28_mount_order_existing_targets : forall fs current desired m1 m2,
  let nc := needed_changes fs current desired in
  In (Mount, m1) nc -> In (Mount, m2) nc ->
  x_origin m1 = x_origin m2 -> beneath m2 m1 = true -> with_slash (e_dir m1) <> with_slash (e_dir m2) ->
  is_overname m2 || exists_as fs m2 = true -> is_overname m1 || exists_as fs m1 = true ->
  precedes (Mount, m1) (Mount, m2) nc.
Proof.
  intros fs current desired m1 m2 nc I1 I2 EO B Hne X2 X1. apply mount_iff in I1, I2.
  apply mounts_precede, independent_sorted; try assumption. apply parent_less; assumption.
Qed.
Print Assumptions C28_mount_order_existing_targets.

(* the sort really sorts: in the output of the insertion sort a strictly smaller element comes first *)
Theorem C28_sort_orders : forall l a b, In a l -> In b l -> less_origin a b = true -> precedes a b (isort less_origin l).
Proof. exact (isort_precedes less_origin less_origin_strict_weak). Qed.
Print Assumptions C28_sort_orders.

Theorem C28_mount_order_key : forall c p,
  beneath c p = true -> with_slash (e_dir p) <> with_slash (e_dir c) -> dir_lt p c = true.
Proof. exact beneath_dir_lt. Qed.
Print Assumptions C28_mount_order_key.

Theorem C28_mount_order_independent_first : forall fs current desired m1 m2,
  In (Mount, m1) (needed_changes fs current desired) -> In (Mount, m2) (needed_changes fs current desired) ->
  is_overname m1 || exists_as fs m1 = true -> is_overname m2 || exists_as fs m2 = false ->
  precedes (Mount, m1) (Mount, m2) (needed_changes fs current desired).
Proof.
  intros fs current desired m1 m2 I1 I2 E1 E2. apply mount_iff in I1, I2. apply mounts_precede, independent_first; assumption.
Qed.
Print Assumptions C28_mount_order_independent_first.

(* the mount list neither loses nor invents entries *)
Theorem C28_mount_list_is_rearrangement : forall fs dnr x, In x (mount_order fs dnr) <-> In x dnr.
Proof. exact mount_order_In. Qed.
Print Assumptions C28_mount_list_is_rearrangement.

(* non-vacuity: a small update with a kept parent, a changed child and a new entry *)
Example C28_changes_example :
  let a := mkEntry (bs "/s/a"%string) (bs "/t/a"%string) (bs "none"%string) [bs "bind"%string] 0 0 in
  let b := mkEntry (bs "/s/b"%string) (bs "/t/a/b"%string) (bs "none"%string) [bs "bind"%string] 0 0 in
  let b' := mkEntry (bs "/s/b2"%string) (bs "/t/a/b"%string) (bs "none"%string) [bs "bind"%string] 0 0 in
  let fs := mkFs [bs "/"%string; bs "/t"%string; bs "/t/a"%string; bs "/t/a/b"%string] [] [] in
  needed_changes fs [a; b] [b'; a] =
    [(Unmount, set_opts b [bs "bind"%string; bs "x-snapd.detach"%string]); (Keep, a); (Mount, b')].
Proof. vm_compute. reflexivity. Qed.

Local Open Scope string_scope.

(* the hypotheses of the planning theorems hold together on an update with a mimic helper, a kept parent, a changed child,
   a new layout needing a mimic and an overname entry; the conclusions are visible in the computed list *)
Example C28_hypotheses_example :
  let e := fun (n d t : string) (o : list string) => mkEntry (bs n) (bs d) (bs t) (map bs o) 0 0 in
  let mimic := e "tmpfs" "/t/m" "tmpfs" ["x-snapd.synthetic"; "x-snapd.needed-by=/t/m/x"]%string in
  let mx := e "/s/x" "/t/m/x" "none" ["bind"; "x-snapd.origin=layout"]%string in
  let a := e "/s/a" "/t/a" "none" ["bind"]%string in
  let b := e "/s/b" "/t/a/b" "none" ["bind"]%string in
  let b' := e "/s/b2" "/t/a/b" "none" ["bind"]%string in
  let n := e "/s/n" "/t/q/n" "none" ["bind"; "x-snapd.origin=layout"]%string in
  let o := e "/s/o" "/t/o" "none" ["rbind"; "x-snapd.origin=overname"]%string in
  let fs := mkFs (map bs ["/"; "/t"; "/t/a"; "/t/a/b"; "/t/m"; "/t/m/x"; "/t/o"]%string) [] [] in
  let cur := [mimic; mx; a; b] in
  let des := [n; b'; a; mx; o] in
  distinct_b (map e_dir (map clean_entry des)) = true /\
  distinct_b (map sort_key (map clean_entry cur)) = true /\
  forallb (fun d => negb (shadowed (map x_entry_id des) cur d)) des = true /\
  needed_changes fs cur des =
    [(Unmount, set_opts b (map bs ["bind"; "x-snapd.detach"]%string)); (Keep, a); (Keep, mx); (Keep, mimic);
     (Mount, o); (Mount, b'); (Mount, n)] /\
  apply_changes cur (needed_changes fs cur des) = Some [mimic; mx; a; o; b'; n].
Proof. vm_compute. repeat split; reflexivity. Qed.

(* lines full of escapes, x-snapd options and a trailing comment parse to guarded entries and survive the round trip *)
Example C28_loaded_example :
  let line := bs "/my\040dir/x\134y /tmp/a\011b none bind,x-snapd.symlink=/a\040b,x-snapd.origin=layout 0 0 # note"%string in
  match parse_entry line with
  | Some e => guard e = true /\ parse_entry (entry_string e) = Some e /\
              e_name e = bs "/my dir/x\y"%string /\ e_opts e = map bs ["bind"; "x-snapd.symlink=/a b"; "x-snapd.origin=layout"]%string
  | None => False
  end.
Proof. vm_compute. repeat split; reflexivity. Qed.
