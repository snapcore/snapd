(* C23 — security profile files are synchronised exactly and fail closed.
   Property theorems only: statement, a short derivation from proofs/SyncDirProofs.v or proofs/SyncTreeProofs.v,
   Print Assumptions. Model: models/SyncDir.v
   (osutil/syncdir.go EnsureDirStateGlobs / EnsureDirState / EnsureFileState, function by function).
   Every theorem is for EVERY glob predicate mt, umask um, outside table out, directory d (unique names), desired
   content (unique names, = a Go map), in EVERY visiting order (content is a list) and with EVERY failure point
   (each entry carries which of its State() calls fails; directories in the way are part of d). *)
From Coq Require Import List NArith Bool Permutation Sorted String.
Import ListNotations.
Require Import V.lib.Bytes V.models.SyncDir V.proofs.SyncDirProofs V.models.SyncTree V.proofs.SyncTreeProofs.
Open Scope N_scope.

(* success: (1) names not matching the globs are untouched; (2) a matching name exists afterwards iff it is desired,
   and it then is either the entry that was already in the desired state or the freshly written one;
   (3) `changed` is exactly the desired names that were not in the desired state; (4) `removed` is exactly the
   matching, not desired names that existed; (5) both lists sorted and duplicate free *)
Theorem C23_success_exact : forall mt um out d content, NoDup (names d) -> NoDup (names content) ->
  let r := ensure_dir_state mt um out d content in
  r_err r = false ->
  (forall n, mt n = false -> lookup (r_dir r) n = lookup d n)
  /\ (forall n, mt n = true ->
        match lookup content n with
        | None => lookup (r_dir r) n = None
        | Some ds => exists v, lookup (r_dir r) n = Some v /\
                     ((lookup d n = Some v /\ in_state out (Some v) ds = true) \/
                      (v = written um ds /\ in_state out (lookup d n) ds = false))
        end)
  /\ (forall n, In n (r_changed r) <-> exists ds, lookup content n = Some ds /\ in_state out (lookup d n) ds = false)
  /\ (forall n, In n (r_removed r) <-> mt n = true /\ lookup content n = None /\ lookup d n <> None)
  /\ StronglySorted le (r_changed r) /\ NoDup (r_changed r)
  /\ StronglySorted le (r_removed r) /\ NoDup (r_removed r).
Proof. exact success_exact. Qed.
Print Assumptions C23_success_exact.

(* ... so, when the umask clears no desired permission bit, every desired name reads as the desired content and
   permission bits (regular file, opened the way the code opens it) or is the desired symlink *)
Theorem C23_success_desired_state : forall mt um out d content, NoDup (names d) -> NoDup (names content) ->
  umask_ok um content = true -> r_err (ensure_dir_state mt um out d content) = false ->
  forall n ds, lookup content n = Some ds ->
  exists v, lookup (r_dir (ensure_dir_state mt um out d content)) n = Some v /\ reads_as out v ds = true.
Proof. exact success_desired_state. Qed.
Print Assumptions C23_success_desired_state.

(* fail closed: if the change phase fails, an error is returned, nothing is reported changed, and afterwards every
   matching name is gone except non-empty directories that were already there (os.Remove cannot remove them);
   non-matching names are untouched; `removed` only lists names that are gone and lists every initially present one *)
Theorem C23_fail_closed : forall mt um out d content, NoDup (names d) -> NoDup (names content) ->
  let r := ensure_dir_state mt um out d content in
  r_wfail r = true ->
  r_err r = true /\ r_changed r = []
  /\ (forall n, lookup (r_dir r) n = if mt n then stuck (lookup d n) else lookup d n)
  /\ (forall n, In n (r_removed r) -> mt n = true /\ lookup (r_dir r) n = None)
  /\ (forall n, mt n = true -> lookup d n <> None -> lookup (r_dir r) n = None -> In n (r_removed r))
  /\ StronglySorted le (r_removed r) /\ NoDup (r_removed r).
Proof. exact fail_closed. Qed.
Print Assumptions C23_fail_closed.

(* the change phase fails exactly when SOME desired entry cannot be ensured against the initial directory, whichever
   position it has in the visiting order ... *)
Theorem C23_failure_points : forall mt um out d content, NoDup (names d) -> NoDup (names content) -> valid_input mt content = true ->
  (r_wfail (ensure_dir_state mt um out d content) = true <->
   exists n ds, In (n, ds) content /\ efs um out (lookup d n) ds = FErr).
Proof. intros mt um out d content _. apply failure_points. Qed.
Print Assumptions C23_failure_points.

(* ... and an entry cannot be ensured when its first or second State() call fails, its type is unsupported, a directory
   is in the way, or the third State() call fails while the name is not already in the desired state *)
Theorem C23_entry_failures : forall um out cur ds,
  (failat ds = 1 \/ failat ds = 2 \/ (exists f, ds = DBad f) \/ (exists e, cur = Some (Dir e))
   \/ (failat ds = 3 /\ in_state out cur ds = false)) -> efs um out cur ds = FErr.
Proof. exact efs_fails. Qed.
Print Assumptions C23_entry_failures.

(* invalid input (path component in a name, name matching no glob) is rejected before anything is touched *)
Theorem C23_bad_input_no_effect : forall mt um out d content, valid_input mt content = false ->
  ensure_dir_state mt um out d content = mkResult d [] [] true false.
Proof. exact bad_input_no_effect. Qed.
Print Assumptions C23_bad_input_no_effect.

(* the order in which the content map is visited does not matter: same final directory, same changed list, same
   error verdict; same removed list unless the change phase failed (then files written before the failure are listed) *)
Theorem C23_order_independent : forall mt um out d content content', NoDup (names d) -> NoDup (names content) ->
  Permutation content content' ->
  let r := ensure_dir_state mt um out d content in let r' := ensure_dir_state mt um out d content' in
  (forall n, lookup (r_dir r) n = lookup (r_dir r') n)
  /\ r_changed r = r_changed r' /\ r_err r = r_err r' /\ r_wfail r = r_wfail r'
  /\ (r_wfail r = false -> r_removed r = r_removed r').
Proof. exact order_independent. Qed.
Print Assumptions C23_order_independent.

(* ================================================================== tree variant: osutil.EnsureTreeState (synctree.go)
   Model: models/SyncTree.v. `foe t q` = the files of directory q of tree t (none if q does not exist), `R ... t q` = the
   per-directory call EnsureDirStateGlobs(q, globs, content[q]) on q's initial files, ord1 / ord2 = the orders in which the
   two `range subdirs` loops visit the directories. For EVERY tree with unique names per directory, content, glob
   predicate, orders and failure point. *)

(* success: the tree call IS the per-directory call on every visited directory (so C23_success_exact,
   C23_success_desired_state apply to each `R t q`), directories not visited keep their files, and changed / removed are
   the sorted unions of the per-directory lists joined with the directory path *)
Theorem C23_tree_success_exact : forall mt um out content t ord1 ord2, NoDup ord1 -> WfC content -> (forall q, NoDup (names (foe t q))) ->
  t_err (ensure_tree_state mt um out content t ord1 ord2) = false ->
  (forall q, In q ord1 -> foe (t_tree (ensure_tree_state mt um out content t ord1 ord2)) q = r_dir (R mt um out content t q)
                          /\ r_err (R mt um out content t q) = false)
  /\ (forall q, ~ In q ord1 -> foe (t_tree (ensure_tree_state mt um out content t ord1 ord2)) q = foe t q)
  /\ t_changed (ensure_tree_state mt um out content t ord1 ord2) = sort (flat_map (fun q => map (join q) (r_changed (R mt um out content t q))) ord1)
  /\ t_removed (ensure_tree_state mt um out content t ord1 ord2) = sort (flat_map (fun q => map (join q) (r_removed (R mt um out content t q))) ord1).
Proof. exact tree_success. Qed.
Print Assumptions C23_tree_success_exact.

(* the tree call fails exactly when the per-directory call of SOME visited directory fails, wherever it is in the order *)
Theorem C23_tree_failure_points : forall mt um out content t ord1 ord2, NoDup ord1 -> WfC content -> (forall q, NoDup (names (foe t q))) ->
  valid_tree_input mt content = true ->
  (t_err (ensure_tree_state mt um out content t ord1 ord2) = true <-> exists q, In q ord1 /\ r_err (R mt um out content t q) = true).
Proof. exact tree_failure_points. Qed.
Print Assumptions C23_tree_failure_points.

(* fail closed ACROSS directories: when any directory fails, nothing is reported changed; in every directory the erase
   pass visits (ord2: all sub-directories, also those synchronised successfully before the failure and those not reached)
   no entry matching the globs is left unless os.Remove cannot remove it; non-matching files are untouched everywhere;
   directories visited by neither loop keep their files *)
Theorem C23_tree_fail_closed : forall mt um out content t ord1 ord2, NoDup ord1 -> WfC content -> (forall q, NoDup (names (foe t q))) ->
  valid_tree_input mt content = true -> t_err (ensure_tree_state mt um out content t ord1 ord2) = true ->
  t_changed (ensure_tree_state mt um out content t ord1 ord2) = []
  /\ (forall q n, mt n = false -> file_at (t_tree (ensure_tree_state mt um out content t ord1 ord2)) q n = file_at t q n)
  /\ (forall q n v, In q ord2 -> mt n = true -> file_at (t_tree (ensure_tree_state mt um out content t ord1 ord2)) q n = Some v -> removable v = false)
  /\ (forall q, ~ In q ord1 -> ~ In q ord2 -> foe (t_tree (ensure_tree_state mt um out content t ord1 ord2)) q = foe t q).
Proof. exact tree_fail_closed. Qed.
Print Assumptions C23_tree_fail_closed.

(* a directory path with a component matching the globs, or a bad file name, is rejected before anything is touched *)
Theorem C23_tree_bad_input_no_effect : forall mt um out content t ord1 ord2, valid_tree_input mt content = false ->
  ensure_tree_state mt um out content t ord1 ord2 = mkT t [] [] true.
Proof. exact tree_bad_input_no_effect. Qed.
Print Assumptions C23_tree_bad_input_no_effect.

(* ================================================================== the property's wording, as corollaries *)

(* "If any write fails, none of the snap's managed files remain (provided removal itself succeeds)": when nothing in the
   directory is a non-empty directory, a failed change phase - whichever entry and whichever of its State() calls it is,
   see C23_failure_points - leaves NO entry under the managed names *)
Theorem C23_fail_closed_all_gone : forall mt um out d content, NoDup (names d) -> NoDup (names content) ->
  (forall n v, lookup d n = Some v -> removable v = true) ->
  r_wfail (ensure_dir_state mt um out d content) = true ->
  forall n, mt n = true -> lookup (r_dir (ensure_dir_state mt um out d content)) n = None.
Proof. exact fail_closed_all_gone. Qed.
Print Assumptions C23_fail_closed_all_gone.

(* permissions: a file that differs from the desired one ONLY in its permission bits is rewritten with the desired bits
   (minus the umask) and reported changed; with equal bits and content it is left alone and not reported *)
Theorem C23_mode_only_difference : forall mt um out d content n c m m' f, NoDup (names d) -> NoDup (names content) ->
  r_err (ensure_dir_state mt um out d content) = false ->
  lookup content n = Some (DReg c m f) -> lookup d n = Some (Reg c m') ->
  (perm m <> perm m' ->
     In n (r_changed (ensure_dir_state mt um out d content))
     /\ lookup (r_dir (ensure_dir_state mt um out d content)) n = Some (Reg c (N.ldiff (perm m) um)))
  /\ (perm m = perm m' ->
     ~ In n (r_changed (ensure_dir_state mt um out d content))
     /\ lookup (r_dir (ensure_dir_state mt um out d content)) n = Some (Reg c m')).
Proof. exact mode_only_difference. Qed.
Print Assumptions C23_mode_only_difference.

(* tree, file by file: on success the files matching the globs in every visited directory are exactly the desired ones, every
   other file of the tree is untouched *)
Theorem C23_tree_success_files : forall mt um out content t ord1 ord2, NoDup ord1 -> WfC content -> (forall q, NoDup (names (foe t q))) ->
  t_err (ensure_tree_state mt um out content t ord1 ord2) = false ->
  forall q n,
  (mt n = false -> file_at (t_tree (ensure_tree_state mt um out content t ord1 ord2)) q n = file_at t q n)
  /\ (In q ord1 -> mt n = true ->
      match lookup (content_of content q) n with
      | None => file_at (t_tree (ensure_tree_state mt um out content t ord1 ord2)) q n = None
      | Some ds => exists v, file_at (t_tree (ensure_tree_state mt um out content t ord1 ord2)) q n = Some v /\
                   ((file_at t q n = Some v /\ in_state out (Some v) ds = true) \/
                    (v = written um ds /\ in_state out (file_at t q n) ds = false))
      end).
Proof. exact tree_success_files. Qed.
Print Assumptions C23_tree_success_files.

(* tree: the reported lists are exact (paths = directory joined with the file name) and sorted *)
Theorem C23_tree_lists_exact : forall mt um out content t ord1 ord2, NoDup ord1 -> WfC content -> (forall q, NoDup (names (foe t q))) ->
  t_err (ensure_tree_state mt um out content t ord1 ord2) = false ->
  (forall x, In x (t_changed (ensure_tree_state mt um out content t ord1 ord2)) <->
     exists q n ds, In q ord1 /\ x = join q n /\ lookup (content_of content q) n = Some ds /\ in_state out (file_at t q n) ds = false)
  /\ (forall x, In x (t_removed (ensure_tree_state mt um out content t ord1 ord2)) <->
     exists q n, In q ord1 /\ x = join q n /\ mt n = true /\ lookup (content_of content q) n = None /\ file_at t q n <> None)
  /\ StronglySorted le (t_changed (ensure_tree_state mt um out content t ord1 ord2))
  /\ StronglySorted le (t_removed (ensure_tree_state mt um out content t ord1 ord2)).
Proof. exact tree_lists_exact. Qed.
Print Assumptions C23_tree_lists_exact.

(* tree, every failure index: with only removable entries in the tree, the call fails (and then is fail closed,
   C23_tree_fail_closed) exactly when SOME desired entry of SOME visited directory cannot be ensured *)
Theorem C23_tree_failure_index : forall mt um out content t ord1 ord2, NoDup ord1 -> WfC content -> (forall q, NoDup (names (foe t q))) ->
  (forall q n v, file_at t q n = Some v -> removable v = true) ->
  valid_tree_input mt content = true ->
  (t_err (ensure_tree_state mt um out content t ord1 ord2) = true <->
   exists q n ds, In q ord1 /\ In (n, ds) (content_of content q) /\ efs um out (file_at t q n) ds = FErr).
Proof. exact tree_failure_index. Qed.
Print Assumptions C23_tree_failure_index.

(* ------------------------------------------------------------------ non-vacuity: the hypotheses are met by concrete runs *)
Local Open Scope string_scope.
Definition ex_mt := match_any [bs "snap.foo.*"].
Definition ex_dir := [(bs "snap.foo.a", Reg (bs "old") 420); (bs "snap.foo.gone", Reg (bs "x") 420);
                      (bs "snap.bar.a", Reg (bs "other") 420); (bs "snap.foo.d", Dir true)].
Example C23_ex_success :
  let r := ensure_dir_state ex_mt 18 [] (firstn 3 ex_dir) [(bs "snap.foo.a", DReg (bs "new") 420 0); (bs "snap.foo.b", DSym (bs "t") 0)] in
  r_err r = false /\ r_changed r = [bs "snap.foo.a"; bs "snap.foo.b"] /\ r_removed r = [bs "snap.foo.gone"]
  /\ lookup (r_dir r) (bs "snap.foo.a") = Some (Reg (bs "new") 420) /\ lookup (r_dir r) (bs "snap.bar.a") = Some (Reg (bs "other") 420).
Proof. vm_compute. repeat split. Qed.
Example C23_ex_fail_closed :
  let r := ensure_dir_state ex_mt 18 [] ex_dir [(bs "snap.foo.b", DReg (bs "new") 420 0); (bs "snap.foo.a", DReg (bs "new") 420 3)] in
  r_wfail r = true /\ r_changed r = [] /\ r_removed r = [bs "snap.foo.a"; bs "snap.foo.b"; bs "snap.foo.gone"]
  /\ names (r_dir r) = [bs "snap.bar.a"; bs "snap.foo.d"].
Proof. vm_compute. repeat split. Qed.
Example C23_ex_nodup : NoDup (names ex_dir) /\ umask_ok 18 [(bs "snap.foo.a", DReg (bs "new") 420 0)] = true.
Proof. split; [|reflexivity]. repeat constructor; cbn; intuition discriminate. Qed.

(* tree: a failure in directory b erases what was written in a, the stale file in a/x, and the emptied directories *)
Definition ex_tree : tree := [([], []); ([bs "a"], []); ([bs "a"; bs "x"], [(bs "snap.foo.old", Reg (bs "o") 420)]); ([bs "b"], [(bs "keep", Reg (bs "k") 420)])].
Definition ex_tcontent := [([bs "a"], [(bs "snap.foo.a", DReg (bs "new") 420 0)]); ([bs "b"], [(bs "snap.foo.b", DReg (bs "new") 420 3)])].
Definition ex_ord := [[bs "a"]; [bs "b"]; []; [bs "a"; bs "x"]].
Example C23_ex_tree_fail_closed :
  let r := ensure_tree_state ex_mt 18 [] ex_tcontent ex_tree ex_ord ex_ord in
  t_err r = true /\ t_changed r = [] /\ t_removed r = [bs "a/snap.foo.a"; bs "a/x/snap.foo.old"]
  /\ t_tree r = [([], []); ([bs "b"], [(bs "keep", Reg (bs "k") 420)])].
Proof. vm_compute. repeat split. Qed.
Example C23_ex_tree_success :
  let r := ensure_tree_state ex_mt 18 [] [([bs "a"], [(bs "snap.foo.a", DReg (bs "new") 420 0)])] ex_tree ex_ord ex_ord in
  t_err r = false /\ t_changed r = [bs "a/snap.foo.a"] /\ t_removed r = [bs "a/x/snap.foo.old"]
  /\ file_at (t_tree r) [bs "a"] (bs "snap.foo.a") = Some (Reg (bs "new") 420) /\ tlookup (t_tree r) [bs "a"; bs "x"] = None.
Proof. vm_compute. repeat split. Qed.

(* mode-only difference: same content, 0600 instead of 0644: rewritten and reported; an identical file is not *)
Example C23_ex_mode_only :
  let d := [(bs "snap.foo.a", Reg (bs "same") 384); (bs "snap.foo.b", Reg (bs "same") 420)] in
  let r := ensure_dir_state ex_mt 18 [] d [(bs "snap.foo.a", DReg (bs "same") 420 0); (bs "snap.foo.b", DReg (bs "same") 420 0)] in
  r_err r = false /\ r_changed r = [bs "snap.foo.a"] /\ r_removed r = []
  /\ lookup (r_dir r) (bs "snap.foo.a") = Some (Reg (bs "same") 420).
Proof. vm_compute. repeat split. Qed.
(* every failing write index of a three-entry content: nothing managed is left, the unrelated file stays *)
Example C23_ex_every_failure_index :
  let d := [(bs "snap.foo.a", Reg (bs "o") 420); (bs "snap.bar.a", Reg (bs "u") 420)] in
  let c k := [(bs "snap.foo.a", DReg (bs "n") 420 (if N.eqb k 0 then 3 else 0)); (bs "snap.foo.b", DReg (bs "n") 420 (if N.eqb k 1 then 3 else 0));
              (bs "snap.foo.c", DSym (bs "t") (if N.eqb k 2 then 3 else 0))] in
  forallb (fun k => let r := ensure_dir_state ex_mt 18 [] d (c k) in
                    r_wfail r && is_nil_b (r_changed r) && names_eqb (names (r_dir r)) [bs "snap.bar.a"]) [0; 1; 2] = true.
Proof. vm_compute. reflexivity. Qed.
