(* C01 — a failed change undoes exactly the work it had done, in reverse order.
   This file holds the property theorems only: statement, a proof of a line or two from the lemmas of proofs/ (or the evaluation of an example), Print Assumptions.
   Model: models/TaskEngine.v (abort_lanes / abort_loop mirror Change.abortLanes / abortTasks, finish mirrors the
   goroutine tail of TaskRunner.run, ensure_pass mirrors TaskRunner.Ensure with Go's map order as an argument).

   FULL STATEMENT (for reference): when a task fails, every task in its lanes and every task transitively waiting on
   it that had completed and can be undone is undone, tasks that had not started are put on hold, tasks in
   independent healthy lanes are left to complete; undo of a task only starts after every task that waited on it has
   finished; the change settles in Error with no task pending.
   PROVED BELOW, over all graphs and all event lists: the undo-order half (fresh starts) and the status mapping of
   every abort (nothing is ever rewritten except Do->Hold, Doing->Abort, Done->Undo).
   Also proved: the model's fuel bounds are never hit (C01_abort_fuel), no task is stranded (C01_no_deadlock), the
   failing task ends in Error, a settled change with a failed task reports Error.
   Also proved: nothing outside the upper closure R is touched by an abort; only started work is undone; the settled
   state (no tomb, status Error iff a handler failed).
   Also proved: C01_settles_error (liveness, bounded rounds); the abort set exactly when abortLanes does not nest.
   NOT PROVED (monitored on every observed history instead, see notes/C01.md): the abort set between R' and R when
   abortLanes nests (order dependent; C01_sandwich_bounds_not_tight shows neither bound is tight). *)
From Coq Require Import List ZArith Lia.
Import ListNotations.
Require Import V.models.TaskEngine V.proofs.TaskEngineProofs V.proofs.TaskEngineStatus V.proofs.TaskEngineReady
               V.proofs.TaskEngineFuel V.proofs.TaskEngineLive V.proofs.TaskEnginePass V.proofs.TaskEngineSettled
               V.proofs.TaskEngineStarted V.proofs.TaskEngineClosure V.proofs.TaskEngineLower V.proofs.TaskEngineExact
               V.proofs.TaskEngineSettle.

(* reverse-order undo: in every execution, whenever an undo handler is freshly started (Undo->Undoing), every task
   that waited on it had a ready status (Done/Undone/Hold/Error) at that instant, i.e. had finished or never ran *)
Theorem C01_undo_order : forall (g : list tdesc) (es : list event),
  Forall (fun r : start_rec => sr_undo r = true -> sr_fresh r = true -> forallb ready (sr_pre r) = true)
         (slog (run_events (init_state g) es)).
Proof.
  intros g es. eapply Forall_impl; [|apply start_log_ok].
  intros r [_ H] Hu Hf. specialize (H Hf). rewrite Hu in H. exact H.
Qed.
Print Assumptions C01_undo_order.

(* Ensure leaves a task in Undo alone as long as some task that waited on it is still pending or running *)
Theorem C01_undo_waits_for_dependents : forall (s : state) (t h : nat),
  st s t = Undo -> In h (t_halts (get s t)) -> ready (st s h) = false -> ensure_one s t = s.
Proof.
  intros s t h Hs Hin Hh. apply ensure_one_must_wait; [rewrite Hs; discriminate | eapply must_wait_undo; eauto].
Qed.
Print Assumptions C01_undo_waits_for_dependents.

(* the abort mapping: whatever lanes are aborted, in whatever state and with whatever bookkeeping sets, every task
   either keeps its status or moves Do->Hold, Doing->Abort, Done->Undo (a task in Wait: by the status it waits for) *)
Theorem C01_abort_mapping : forall (d : nat) (kill al seen : list nat) (s : state) (u : nat),
  abort_map_ok (st s u) (st (abort_lanes d kill al seen s) u) = true.
Proof. exact abort_lanes_mapping. Qed.
Print Assumptions C01_abort_mapping.

(* the same for the error path of the task runner: when the handler of t returns an error, every OTHER task keeps its
   status or follows the mapping *)
Theorem C01_error_path_mapping : forall (s : state) (t u : nat),
  panicked s = false -> memn t (running s) = true -> u <> t ->
  abort_map_ok (st s u) (st (finish s t OErr) u) = true.
Proof.
  intros s t u Hp Hr Hn. unfold finish. rewrite Hp, Hr; simpl.
  rewrite st_set_status_other by assumption. apply (abort_lanes_top_mapping (remove_running s t)).
Qed.
Print Assumptions C01_error_path_mapping.

(* and for Change.Abort *)
Theorem C01_user_abort_mapping : forall (s : state) (u : nat),
  abort_map_ok (st s u) (st (abort_change s) u) = true.
Proof. exact abort_change_mapping. Qed.
Print Assumptions C01_user_abort_mapping.

(* C01_abort_fuel: the abort recursion terminates within the model's fuel bounds - the worklist loop of abortTasks
   because every iteration drops a seen element or marks a new task seen, the abortLanes/abortTasks nesting because
   every nested abortLanes call kills a lane that was not killed before. Every graph, every event list. *)
Theorem C01_abort_fuel : forall (g : list tdesc) (es : list event), oof (run_events (init_state g) es) = false.
Proof. exact oof_never. Qed.
Print Assumptions C01_abort_fuel.

(* C01_no_deadlock: no task is stranded. For every non-empty closed graph whose wait edges are acyclic (rk is a
   topological rank: the generator draws the edges along a topological order), every history in which user aborts hit
   unready changes only and a do handler that answers Wait waits to become Done (tame): in the reached state, if no
   handler is running, no task sits in Wait and no task is scheduled for later, then either every task is ready or
   the body of the Ensure loop FIRES for some task t of the change: it writes t's status or starts t's handler.
   This is the statement for one iteration; C01_no_deadlock_pass below lifts it to a whole pass. *)
Theorem C01_no_deadlock : forall (g : list tdesc) (rk : nat -> nat) (es : list event),
  g <> [] -> closed g -> (forall t w, In w (waits_g g t) -> rk w < rk t) ->
  tame (init_state g) es ->
  let s := run_events (init_state g) es in
  running s = [] -> (forall t, st s t <> Wait) -> (forall t, gate_open s t = true) ->
  all_ready (tasks s) = true \/
  exists t, t < length (tasks s) /\ (st (ensure_one s t) t <> st s t \/ In t (running (ensure_one s t))).
Proof. exact no_deadlock_total. Qed.
Print Assumptions C01_no_deadlock.

(* C01_no_deadlock for a WHOLE Ensure pass. pm is the progress measure  sum over the tasks of the position of their
   status along  Do < Doing < Abort < Undo < Undoing < {Done, Hold, Undone, Error, Wait}  plus the number of tombs.
   Every iteration of the Ensure loop, in every state, leaves pm unchanged only if it leaves the state unchanged, and
   otherwise raises it (later iterations cannot undo the status write or the handler start of an earlier one). Hence,
   in the situation of C01_no_deadlock, a pass over ANY order that visits every task of the change strictly raises pm
   - in particular it changes the state - unless every task is ready. *)
Theorem C01_no_deadlock_pass : forall (g : list tdesc) (rk : nat -> nat) (es : list event) (order : list nat),
  g <> [] -> closed g -> (forall t w, In w (waits_g g t) -> rk w < rk t) ->
  tame (init_state g) es ->
  let s := run_events (init_state g) es in
  running s = [] -> (forall t, st s t <> Wait) -> (forall t, gate_open s t = true) ->
  (forall t, t < length (tasks s) -> In t order) ->
  all_ready (tasks s) = true \/ (pm s < pm (ensure_pass s order) /\ ensure_pass s order <> s).
Proof. exact no_deadlock_pass. Qed.
Print Assumptions C01_no_deadlock_pass.

(* monotonicity of the Ensure loop body, for every state and every task *)
Theorem C01_ensure_monotone : forall (s : state) (t : nat),
  pm s <= pm (ensure_one s t) /\ (ensure_one s t = s \/ pm s < pm (ensure_one s t)).
Proof. exact pm_ensure_one. Qed.
Print Assumptions C01_ensure_monotone.

(* the error path: when the handler of a running task returns an error, that task ends in Error (and nothing panics) *)
Theorem C01_failed_task_ends_in_error : forall (s : state) (t : nat),
  inv s -> In t (running s) -> st (finish s t OErr) t = Error /\ panicked (finish s t OErr) = false.
Proof. exact finish_err_sets_error. Qed.
Print Assumptions C01_failed_task_ends_in_error.

(* C01_settles_error, safety half: whenever every task is ready the change reports Error iff some task is in Error ... *)
Theorem C01_settled_status_error : forall l : list task,
  all_ready l = true -> (change_status l = Error <-> has_status l Error = true).
Proof. exact settled_error_iff. Qed.
Print Assumptions C01_settled_status_error.

(* ... and, over every tame history on a non-empty closed graph, a settled state has no tomb, is flagged ready, and
   reports Error iff some handler returned an error (failed_of lists those tasks); Err names exactly them. The liveness
   half (that finitely many Ensure/Finish events reach a settled state) is C01_settles_error below. *)
Theorem C01_settled_error_iff_handler_failed : forall (g : list tdesc) (es : list event),
  g <> [] -> closed g -> tame (init_state g) es ->
  let s := run_events (init_state g) es in
  all_ready (tasks s) = true ->
  running s = [] /\ cready s = true /\
  (change_status (tasks s) = Error <-> failed_of (init_state g) es <> []) /\
  (forall u, In u (err_tasks (tasks s)) <-> In u (failed_of (init_state g) es)).
Proof. exact settled_error_iff_failed. Qed.
Print Assumptions C01_settled_error_iff_handler_failed.

(* a settled state (every task ready) of the invariant has no tomb and every task is Done, Undone, Hold or Error:
   no task is left in Do / Doing / Abort / Undo / Undoing / Wait *)
Theorem C01_settled_nothing_pending : forall s : state,
  inv s -> all_ready (tasks s) = true ->
  running s = [] /\ forall u, st s u = Done \/ st s u = Undone \/ st s u = Hold \/ st s u = Error.
Proof. exact settled_nothing_pending. Qed.
Print Assumptions C01_settled_nothing_pending.

(* only started work is undone: in every history with user aborts on unready changes only, a task whose status is
   neither Do nor Hold has had its do handler started, and every start of an undo handler is preceded in the start log
   (most recent first) by a start of the do handler of the same task *)
Theorem C01_undo_only_of_started_tasks : forall (g : list tdesc) (es : list event),
  g <> [] -> guarded (init_state g) es ->
  let s := run_events (init_state g) es in
  (forall t, st s t <> Do -> st s t <> Hold -> started_in (slog s) t) /\ undo_after_do (slog s).
Proof. intros g es Hg Hgd. apply (guarded_moves_ind both); auto using inv_init, both_init. apply both_move. Qed.
Print Assumptions C01_undo_only_of_started_tasks.

(* upper half of the closure sandwich, for EVERY state and every lane list: Change.AbortLanes changes no task outside
   R, the least set containing the tasks with a lane in the aborted-lane set, closed under halt edges, the aborted-lane
   set growing by all lanes of members (inR / laneR). Tasks of independent lanes that do not wait, even transitively,
   on anything aborted keep their statuses. *)
Theorem C01_abort_untouched_outside_closure : forall (s : state) (L0 : list nat) (u : nat),
  ~ inR s L0 u -> st (abort_lanes_top s L0) u = st s u.
Proof. exact abort_lanes_top_outside. Qed.
Print Assumptions C01_abort_untouched_outside_closure.

(* the same on the error path of the task runner *)
Theorem C01_error_path_untouched_outside_closure : forall (s : state) (t u : nat),
  panicked s = false -> memn t (running s) = true -> u <> t ->
  ~ inR (remove_running s t) (lanes_of (get s t)) u -> st (finish s t OErr) u = st s u.
Proof. exact finish_err_outside. Qed.
Print Assumptions C01_error_path_untouched_outside_closure.

(* lower half of the closure sandwich, for EVERY state (whose fuel flag is clear, as in every execution by
   C01_abort_fuel) and every lane list: after Change.AbortLanes every task of R' - the tasks all of whose lanes are
   aborted, closed under halt edges (lowR) - is no longer live: what had completed is in Undo, what was running in
   Abort, what had not started on Hold (lv = the task's effective status is Do / Doing / Done). With
   C01_abort_untouched_outside_closure this is the sandwich  R' <= aborted <= R;  for graphs in which every task has
   one lane the two closures coincide on the tasks of the aborted lanes. What is NOT proved is the exact behaviour
   between R' and R (the healthy-lane exemption for multi-lane tasks), which the monitor's spared_spec pins. *)
Theorem C01_abort_lower_closure_dead : forall (s : state) (L0 : list nat) (u : nat),
  oof s = false -> lowR s L0 u -> lv (abort_lanes_top s L0) u = false.
Proof. intros s L0 u _. apply abort_lanes_top_lower. Qed.
Print Assumptions C01_abort_lower_closure_dead.

(* the same on the error path: everything in the lower closure of the failed task's lanes is put on hold / aborted /
   set to undo (the failed task itself goes to Error) *)
Theorem C01_error_path_lower_closure_dead : forall (s : state) (t u : nat),
  panicked s = false -> oof s = false -> memn t (running s) = true -> u <> t ->
  lowR (remove_running s t) (lanes_of (get s t)) u -> lv (finish s t OErr) u = false.
Proof. intros s t u Hp _. apply finish_err_lower, Hp. Qed.
Print Assumptions C01_error_path_lower_closure_dead.

(* non-vacuity: chain 0 <- 1 in the default lane: both tasks are in the lower closure of lane 0 *)
Example C01_lower_closure_nonvacuous :
  let s := init_state [([], [], true); ([], [0], true)] in lowR s [0] 0 /\ lowR s [0] 1.
Proof. exact lower_example. Qed.

(* The abort set EXACTLY, when no nested abortLanes call happens. A1 (inA1) is the set of lane tasks that abortLanes
   selects - the tasks with a lane in the kill list that the healthy-lane exemption does not spare (select_abort: a
   lane task is spared iff one of its lanes outside the kill list has been given at least one opinion and only live
   ones, an opinion coming from every task that lists that lane before any killed lane) - closed under halt edges.
   If every task of A1 has all its lanes in the kill list (then abortTasks finds no new lane and makes no nested call),
   exactly A1 is aborted: nothing outside A1 changes ... *)
Theorem C01_abort_exact_outside : forall (s : state) (L0 : list nat),
  (forall t, inA1 s L0 t -> forall x, In x (lanes_of (get s t)) -> In x L0) ->
  forall u, ~ inA1 s L0 u -> st (abort_lanes_top s L0) u = st s u.
Proof. exact abort_exact_outside. Qed.
Print Assumptions C01_abort_exact_outside.

(* ... and every task of A1 is no longer live afterwards (this half holds with nesting too) *)
Theorem C01_abort_exact_inside : forall (s : state) (L0 : list nat) (u : nat),
  oof s = false -> inA1 s L0 u -> lv (abort_lanes_top s L0) u = false.
Proof. intros s L0 u _. apply abort_exact_inside. Qed.
Print Assumptions C01_abort_exact_inside.

(* With nesting (a task reached through a halt edge brings in a lane that was not killed) the nested abortLanes call
   judges lane health on statuses the outer call has already rewritten, so the abort set depends on the order of the
   rewriting and is not the fixpoint of a monotone operator; the sandwich R' <= aborted <= R is then the strongest
   order-independent statement, and NEITHER bound is tight - `refuted`-style witness: S in lanes 1 and 2, F in lane 1,
   K in lane 2. S is in R but not in R' for the kill list [1]. With K live S is spared (upper bound not tight); with
   K dead (Hold) S is aborted, Do -> Hold (lower bound not tight). *)
Theorem C01_sandwich_bounds_not_tight :
  (inR sw_live [1] 0 /\ ~ lowR sw_live [1] 0 /\ st (abort_lanes_top sw_live [1]) 0 = st sw_live 0) /\
  (inR sw_dead [1] 0 /\ ~ lowR sw_dead [1] 0 /\ st sw_dead 0 = Do /\ st (abort_lanes_top sw_dead [1]) 0 = Hold).
Proof. exact sandwich_not_tight. Qed.
Print Assumptions C01_sandwich_bounds_not_tight.

(* C01_settles_error (liveness + status): see C03_settles for the wording. After settle_bound n rounds every task is
   ready, nothing is pending, the change is flagged ready and reports Error iff some task is in Error. *)
Theorem C01_settles_error : forall (g : list tdesc) (rk : nat -> nat) (es : list event),
  g <> [] -> closed g -> (forall t w, In w (waits_g g t) -> rk w < rk t) ->
  tame (init_state g) es ->
  let s0 := run_events (init_state g) es in
  (forall t, st s0 t <> Wait) -> (forall t, t_at (get s0 t) = 0%Z) ->
  forall (oc0 : nat -> bool) (rl : list (list nat * (nat -> bool))),
  settle_bound (length g) <= length rl ->
  (forall r, In r rl -> forall t, t < length g -> In t (fst r)) ->
  let sF := iter_rounds rl (finish_all s0 oc0) in
  all_ready (tasks sF) = true /\ running sF = [] /\ cready sF = true /\
  (change_status (tasks sF) = Error <-> has_status (tasks sF) Error = true).
Proof. exact settles. Qed.
Print Assumptions C01_settles_error.

(* non-vacuity: two tasks in lanes 1 and 2: aborting lane 1, task 1 is outside R and task 0 inside *)
Example C01_closure_nonvacuous :
  let s := init_state [([1], [], true); ([2], [], true)] in ~ inR s [1] 1 /\ inR s [1] 0.
Proof. exact outside_example. Qed.

(* non-vacuity: the start log of a history with a failure: undo 0 after do 1 after do 0 *)
Example C01_started_nonvacuous :
  let g := [([], [], true); ([], [0], true)] in
  let es := [Ensure [0;1]; Finish 0 OOk; Ensure [0;1]; Finish 1 OErr; Ensure [0;1]] in
  guarded (init_state g) es /\
  map (fun r => (sr_t r, sr_undo r)) (slog (run_events (init_state g) es)) = [(0, true); (1, false); (0, false)].
Proof. cbv zeta. split; [vm_compute; repeat split; intros; discriminate | vm_compute; reflexivity]. Qed.

(* non-vacuity of the hypotheses of C01_no_deadlock: a tame history on an acyclic closed graph that reaches a state
   with no tomb in which a task waits in Undo and the Ensure loop body fires for it *)
Example C01_no_deadlock_nonvacuous :
  let g := [([], [], true); ([], [0], true)] in
  let es := [Ensure [0;1]; Finish 0 OOk; Ensure [0;1]; Finish 1 OErr] in
  closed g /\ (forall t w, In w (waits_g g t) -> (fun x => x) w < (fun x => x) t) /\ tame (init_state g) es /\
  running (run_events (init_state g) es) = [] /\ map t_st (tasks (run_events (init_state g) es)) = [Undo; Error].
Proof.
  split; [|split; [|split; [|split]]].
  - intros t w H. unfold waits_g in H. destruct t as [|[|t]]; simpl in H.
    + destruct H.
    + destruct H as [<-|[]]. simpl. lia.
    + destruct t; simpl in H; destruct H.
  - intros t w H. unfold waits_g in H. destruct t as [|[|t]]; simpl in H.
    + destruct H.
    + destruct H as [<-|[]]. lia.
    + destruct t; simpl in H; destruct H.
  - vm_compute. repeat split; intros; try discriminate.
  - vm_compute. reflexivity.
  - vm_compute. reflexivity.
Qed.

(* non-vacuity: lanes 1 and 2, chain 0 <- 1 in lane 1, task 2 alone in lane 2; task 1 fails: 0 is undone,
   1 is in Error, the healthy lane 2 completes, the change ends in Error *)
Example C01_nonvacuous :
  let g := [([1], [], true); ([1], [0], true); ([2], [], true)] in
  let es := [Ensure [0;1;2]; Finish 0 OOk; Ensure [0;1;2]; Finish 1 OErr; Ensure [0;1;2]; Finish 0 OOk;
             Finish 2 OOk; Ensure [0;1;2]] in
  let s := run_events (init_state g) es in
  map t_st (tasks s) = [Undone; Error; Done] /\ change_status (tasks s) = Error /\ cready s = true.
Proof. vm_compute. repeat split; reflexivity. Qed.
