(* C37 — path patterns match exactly their expansions; precedence is order-independent.
   This file holds the property theorems only: statement, a proof of a few lines from the lemmas of proofs/, Print Assumptions.
   Model: models/Patterns.v (interfaces/prompting/patterns: scan.go, parse.go, render.go, variant.go, patterns.go).
   doublestar.Match is third-party: ported as `path_pattern_matches` (pinned by the tie) and generic `gm` in the guarded theorem;
   regexp submatches: an arbitrary decomposition. *)
From Coq Require Import String List NArith ZArith Bool Permutation.
Import ListNotations.
Require Import V.lib.Bytes V.models.Patterns V.proofs.PatternsProofs.
Open Scope N_scope.

(* the number of variants of EVERY render tree equals the number of enumerated expansions (structural induction) *)
Theorem C37_count : forall t : node, N.of_nat (length (expand t)) = num_variants t.
Proof. exact count_is_length. Qed.
Print Assumptions C37_count.

(* NumVariants is computed in Go ints and saturates at math.MaxInt (/repo commit 1160e46): for EVERY tree the reported
   count lies in [0, MaxInt] and is either MaxInt or exactly the mathematical count *)
Theorem C37_count_go_int : forall t : node,
  (0 <= num_variants64 t <= max_int)%Z /\ (num_variants64 t = max_int \/ num_variants64 t = Z.of_N (num_variants t)).
Proof. exact count64_saturates. Qed.
Print Assumptions C37_count_go_int.

(* accepted patterns, unguarded: the reported count is the number of expansions and is at most 1000 *)
Theorem C37_accepted_within_limit : forall (p : bytes) (t : node),
  parse_pattern p = Some t ->
  num_variants64 t = Z.of_nat (length (expand t)) /\ (length (expand t) <= 1000)%nat.
Proof. exact accepted_within_limit. Qed.
Print Assumptions C37_accepted_within_limit.

(* ... and RenderAllVariants yields exactly one rendered variant per expansion *)
Theorem C37_rendered_count : forall (t : node) (rs : list bytes), render_all t = Some rs -> length rs = length (expand t).
Proof.
  intros t rs H. apply all_some_inv, (f_equal (@length _)) in H. rewrite !map_length in H. symmetry. exact H.
Qed.
Print Assumptions C37_rendered_count.

(* regression case of the repaired finding (KNOWN_FINDINGS `fixed:` 1160e46): `/` followed by 64 groups {a,b} has 2^64
   expansions; its count saturates to MaxInt and the pattern is rejected (before the repair: reported 0, accepted) *)
Example C37_count_overflow_rejected :
  parse_pattern overflow_pattern = None /\
  exists ts t, scan overflow_pattern = Some ts /\ parse_go ts [] [] = Some t /\
               num_variants64 t = max_int /\ num_variants t = 18446744073709551616.
Proof.
  split; [vm_compute; reflexivity|]. eexists. eexists. do 3 (split; [vm_compute; reflexivity|]). vm_compute. reflexivity.
Qed.

(* invalid patterns are rejected: whatever is accepted starts with a slash, has no trailing backslash and no unescaped
   square bracket, has balanced braces, and its reported count is at most 1000 *)
Theorem C37_invalid_rejected : forall (p : bytes) (t : node), parse_pattern p = Some t ->
  (exists r, p = cSLASH :: r) /\ lexically_ok p = true /\
  (exists ts, scan p = Some ts /\ balanced ts 0 = true) /\ (num_variants64 t <= 1000)%Z.
Proof. exact accepted_is_wellformed. Qed.
Print Assumptions C37_invalid_rejected.

(* matching — PARTIAL. Full statement: PathPatternMatches(pattern, path) iff some rendered variant matches the path.
   `gm` stands for PathPatternMatches on a pattern text (doublestar.Match, third party, not modelled). Proved: for patterns
   in normal form (rendering rewrites none of the expansions), IF doublestar's treatment of the groups of this pattern
   amounts to trying every alternative (hypothesis, validated by the tie; it fails for a star directly before a group),
   THEN the pattern matches a path exactly when one of its rendered variants does. *)
Theorem C37_match_iff_some_variant_partial : forall (gm : bytes -> bytes -> bool) (p : bytes) (t : node) (rs : list bytes) (path : bytes),
  parse_pattern p = Some t -> render_all t = Some rs -> normal_form t = true ->
  gm p path = existsb (fun s => gm s path) (expand t) ->
  gm p path = existsb (fun v => gm v path) rs.
Proof. intros gm p t rs path _. apply match_iff_some_rendered_variant. Qed.
Print Assumptions C37_match_iff_some_variant_partial.

(* outside the normal form the full statement is false (finding 12, KNOWN_FINDINGS key render-rewrites-expansion): for every
   matcher that agrees with doublestar on the two observed facts `/**/*` does not match `/` and `/**` matches `/`, the
   pattern `/**/*` (its only expansion is itself, its only rendered variant is `/**`) is a counterexample *)
Theorem C37_normalised_variant_refuted : forall gm : bytes -> bytes -> bool,
  gm p_dsstar [cSLASH] = false -> gm p_ds [cSLASH] = true ->
  exists p t rs path, parse_pattern p = Some t /\ render_all t = Some rs /\ normal_form t = false /\
                      expand t = [p] /\ gm p path <> existsb (fun v => gm v path) rs.
Proof. exact normalised_variant_refuted. Qed.
Print Assumptions C37_normalised_variant_refuted.

(* the same, closed, for the ported doublestar matcher `path_pattern_matches` (pinned to the real PathPatternMatches by the
   differential run: original pattern and every rendered variant on every generated path) *)
Theorem C37_normalised_variant_refuted_ported :
  exists p t rs path, parse_pattern p = Some t /\ render_all t = Some rs /\ normal_form t = false /\ expand t = [p] /\
                      path_pattern_matches p path <> existsb (fun v => path_pattern_matches v path) rs.
Proof. apply (normalised_variant_refuted path_pattern_matches); vm_compute; reflexivity. Qed.
Print Assumptions C37_normalised_variant_refuted_ported.

(* `matches the original iff matches some element of the syntactic expansion` is FALSE for the faithful matcher, even for a
   normal-form pattern: slash-star-empty-group does not match the root path although its only expansion slash-star does
   (findings star-before-group / doublestar-slash-before-group). This is why C37_match_iff_some_variant_partial keeps the
   per-pattern hypothesis on the matcher instead of an unconditional structural induction. *)
Theorem C37_match_iff_some_syntactic_expansion_refuted :
  exists p t path, parse_pattern p = Some t /\ normal_form t = true /\
                   path_pattern_matches p path = false /\ existsb (fun s => path_pattern_matches s path) (expand t) = true.
Proof.
  exists [cSLASH; cSTAR; cOPEN; cCLOSE]. eexists. exists [cSLASH]. do 3 (split; [vm_compute; reflexivity|]). vm_compute. reflexivity.
Qed.
Print Assumptions C37_match_iff_some_syntactic_expansion_refuted.

(* rendering keeps escapes: for EVERY string parsePatternVariant accepts, the variant string it rebuilds has every square
   bracket and brace escaped and no dangling backslash (`scan_ok`, written independently of the renderer) - so a rendered
   variant never contains a character class or a group the user did not write; and hence every variant RenderAllVariants yields *)
Theorem C37_variants_keep_escapes : forall (s : bytes) (cs : list comp),
  components s = Some cs -> scan_ok false (variant_string cs) = true.
Proof. exact variants_keep_escapes. Qed.
Print Assumptions C37_variants_keep_escapes.

Theorem C37_rendered_keep_escapes : forall (t : node) (rs : list bytes),
  render_all t = Some rs -> Forall (fun v => scan_ok false v = true) rs.
Proof. exact rendered_keep_escapes. Qed.
Print Assumptions C37_rendered_keep_escapes.

(* the match statement with the CONCRETE (ported, tie-pinned) matcher: for a normal-form pattern whose groups the matcher
   treats transparently on this path (an executable check, `group_transparent`), the pattern matches the path iff one of its
   rendered variants does *)
Theorem C37_match_iff_some_variant_ported : forall (p : bytes) (t : node) (rs : list bytes) (path : bytes),
  parse_pattern p = Some t -> render_all t = Some rs -> normal_form t = true -> group_transparent p t path = true ->
  path_pattern_matches p path = existsb (fun v => path_pattern_matches v path) rs.
Proof. intros p t rs path _. apply ported_match_iff_some_rendered_variant. Qed.
Print Assumptions C37_match_iff_some_variant_ported.

(* ... and with the recorded findings carved out SYNTACTICALLY (`carved`: rendering rewrites an expansion, or a star, a
   doublestar-slash, or a slash followed by a doublestar alternative stands where a group alternative is spliced in), on a
   complete finite scope: EVERY pattern consisting of a slash and at most 3 tokens over a b / * ? { , } ** (820 patterns) and
   EVERY clean path of length at most 4 over a b / (25 paths); checked by evaluation inside the kernel (vm_compute) *)
Theorem C37_match_iff_some_variant_on_scope : forall (p path : bytes) (t : node) (rs : list bytes),
  In p (scope_patterns 3) -> In path (scope_paths 3) ->
  parse_pattern p = Some t -> render_all t = Some rs -> carved p t = false ->
  path_pattern_matches p path = existsb (fun v => path_pattern_matches v path) rs.
Proof. exact match_iff_some_variant_on_scope. Qed.
Print Assumptions C37_match_iff_some_variant_on_scope.

(* fourth facet of the matching-vs-rendering finding (key slash-before-doublestar-group): slash a slash group(doublestar) does
   not match slash a, its rendered variant does; the pattern is in normal form *)
Theorem C37_slash_before_doublestar_group_refuted :
  exists p t rs path, parse_pattern p = Some t /\ render_all t = Some rs /\ normal_form t = true /\
                      path_pattern_matches p path = false /\ existsb (fun v => path_pattern_matches v path) rs = true.
Proof.
  exists [cSLASH; 97; cSLASH; cOPEN; cSTAR; cSTAR; cCLOSE]. eexists. eexists. exists [cSLASH; 97].
  do 4 (split; [vm_compute; reflexivity|]). vm_compute. reflexivity.
Qed.
Print Assumptions C37_slash_before_doublestar_group_refuted.

(* Compare, for ANY component lists and ANY submatch decomposition: swapping the operands flips the sign *)
Theorem C37_compare_antisym : forall l1 l2 : list kcomp, compare l2 l1 = CompOpp (compare l1 l2).
Proof. exact compare_antisym. Qed.
Print Assumptions C37_compare_antisym.

(* ... and it is transitive *)
Theorem C37_compare_trans : forall a b c : list kcomp, compare a b = Lt -> compare b c = Lt -> compare a c = Lt.
Proof. exact compare_trans_lt. Qed.
Print Assumptions C37_compare_trans.

(* Compare is a strict order on canonical keys: irreflexive; 0 only when the two variants have the same canonical key sequence
   (component types up to the terminal, submatch LENGTHS of * and /**, submatch text of literals); hence total on variants with
   distinct canonical keys *)
Theorem C37_compare_irreflexive : forall a : list kcomp, compare a a <> Lt.
Proof. intro a. rewrite compare_refl. discriminate. Qed.
Print Assumptions C37_compare_irreflexive.

Theorem C37_compare_eq_same_keys : forall a b : list kcomp, compare a b = Eq -> map key (canon a) = map key (canon b).
Proof. exact compare_eq_same_keys. Qed.
Print Assumptions C37_compare_eq_same_keys.

Theorem C37_compare_total_on_distinct : forall a b : list kcomp, map key (canon a) <> map key (canon b) ->
  (compare a b = Lt /\ compare b a = Gt) \/ (compare a b = Gt /\ compare b a = Lt).
Proof. exact compare_total_on_distinct. Qed.
Print Assumptions C37_compare_total_on_distinct.

(* the variant HighestPrecedencePattern returns is one of the given variants and none of them has higher precedence *)
Theorem C37_highest_is_maximum : forall (l : list (bytes * list kcomp)) (m : bytes * list kcomp),
  (forall x y, In x l -> In y l -> vcmp x y = Eq -> x = y) ->
  highest vcmp l = Some m -> In m l /\ (forall y, In y l -> vcmp m y <> Lt).
Proof. exact highest_precedence_is_maximum. Qed.
Print Assumptions C37_highest_is_maximum.

(* HighestPrecedencePattern over ANY permutation of the same variants selects the same variant, provided Compare returns 0
   only between equal variants (monitored on the implementation) — lists of any length *)
Theorem C37_highest_order_independent : forall l l' : list (bytes * list kcomp),
  Permutation l l' ->
  (forall x y, In x l -> In y l -> vcmp x y = Eq -> x = y) ->
  highest vcmp l = highest vcmp l'.
Proof. exact highest_precedence_order_independent. Qed.
Print Assumptions C37_highest_order_independent.

(* non-vacuity *)
Example C37_nonvacuous :
  exists t, parse_pattern (bs "/a/{b,c*}/**"%string) = Some t /\ num_variants t = 2 /\ normal_form t = true /\
            render_all t = Some [bs "/a/b/**"%string; bs "/a/c*/**"%string].
Proof.
  (* [repeat split] would also split the equations, i.e. [apply eq_refl], which evaluates them in the unifier *)
  eexists. do 3 (split; [vm_compute; reflexivity|]). vm_compute. reflexivity.
Qed.

Example C37_compare_example :   (* /a/b* against /a/* on /a/bc: the literal wins *)
  compare [(tSEP, bs "/"%string); (tLIT, bs "a"%string); (tSEP, bs "/"%string); (tLIT, bs "b"%string); (tGLOB, bs "c"%string); (tTERM, [])]
          [(tSEP, bs "/"%string); (tLIT, bs "a"%string); (tSEP, bs "/"%string); (tGLOB, bs "bc"%string); (tTERM, [])] = Gt.
Proof. vm_compute. reflexivity. Qed.

(* non-vacuity of the concrete-matcher theorems *)
Example C37_ported_nonvacuous :
  exists t rs, parse_pattern (bs "/a/{b,c*}/**"%string) = Some t /\ render_all t = Some rs /\ normal_form t = true /\
               group_transparent (bs "/a/{b,c*}/**"%string) t (bs "/a/cx/y/z"%string) = true /\
               path_pattern_matches (bs "/a/{b,c*}/**"%string) (bs "/a/cx/y/z"%string) = true /\
               path_pattern_matches (bs "/a/{b,c*}/**"%string) (bs "/a/d"%string) = false.
Proof. eexists. eexists. do 5 (split; [vm_compute; reflexivity|]). vm_compute. reflexivity. Qed.

Example C37_scope_nonvacuous :
  existsb (beq (bs "/{a}"%string)) (scope_patterns 3) = true /\ existsb (beq (bs "/a/"%string)) (scope_paths 3) = true /\
  (exists t, parse_pattern (bs "/{a}"%string) = Some t /\ carved (bs "/{a}"%string) t = false) /\
  path_pattern_matches (bs "/{a}"%string) (bs "/a/"%string) = true.
Proof.
  split; [vm_compute; reflexivity|]. split; [vm_compute; reflexivity|]. split; [eexists; split; vm_compute; reflexivity|].
  vm_compute. reflexivity.
Qed.

Example C37_highest_example :   (* /a/b* , /a/* and /a/** on /a/bc: the literal-prefix variant wins whatever the order *)
  let v1 := (bs "/a/b*"%string, [(tSEP, bs "/"%string); (tLIT, bs "a"%string); (tSEP, bs "/"%string); (tLIT, bs "b"%string); (tGLOB, bs "c"%string); (tTERM, [])]) in
  let v2 := (bs "/a/*"%string, [(tSEP, bs "/"%string); (tLIT, bs "a"%string); (tSEP, bs "/"%string); (tGLOB, bs "bc"%string); (tTERM, [])]) in
  let v3 := (bs "/a/**"%string, [(tSEP, bs "/"%string); (tLIT, bs "a"%string); (tSDT, bs "/bc"%string)]) in
  highest vcmp [v1; v2; v3] = Some v1 /\ highest vcmp [v3; v2; v1] = Some v1 /\ highest vcmp [v2; v3; v1] = Some v1.
Proof. vm_compute. repeat split. Qed.
